(* C04/Fuel.v — the standard fuel always suffices: [run] never ends in RFuel, because the session
   program fits its fuel ([fits], sound by Generic.fits_sound).
   Every loop but one reads a token per iteration, so a fuel above the number of items left
   in the peer's stream is enough; the initiating side's selection loop negotiates a
   cached feature that was not negotiated before in every iteration (bound: size of the
   cache + 1); every call of a negotiator reads at least one token before it returns
   ([eats]), which leaves the next iteration of negotiateSession's loop a smaller budget
   (Generic.fits_bind_eats). *)
From XV Require Import lib.Bytes gen.NegTables C04.Model C04.Generic C04.Walk C04.Structure.

Create HintDb c04.

(* the side conditions on the fuel *)
#[export] Hint Extern 3 (_ < _) => cbn [length]; lia : c04.

(* goals [fits b p], along the syntax of p as in Walk.v: [fits_bind], [fits_feed], a case split for a match,
   the constructors; a call of a program of the model is closed by its lemma (hint database c04) *)
Ltac fit :=
  open_defs; cbn [bind];
  repeat first [ progress intros | solve [auto with c04]
               | match goal with
                 | |- fits _ (bind _ _) => apply fits_bind
                 | |- fits _ (feed _ _) => apply fits_feed
                 | |- fits _ (match _ with _ => _ end) => split_match
                 | |- fits _ _ => constructor
                 end ].

Lemma skip_fits : forall n d b, b < n -> fits b (skip n d).
Proof. induction n as [|n IH]; intros d b Hb; [lia|]. cbn [skip]. fit. Qed.
#[export] Hint Resolve skip_fits : c04.

Lemma expect_fits : forall n first ws b, b < n -> fits b (expect n first ws).
Proof. induction n as [|n IH]; intros first ws b Hb; [lia|]. cbn [expect]. fit. Qed.
#[export] Hint Resolve expect_fits : c04.

Lemma sasl_decode_fits n a t b : b < n -> fits b (sasl_decode n a t).
Proof. intro Hb. unfold sasl_decode. fit. Qed.
#[export] Hint Resolve sasl_decode_fits : c04.

Lemma sasl_client_loop_fits : forall n more success b, b < n -> fits b (sasl_client_loop n more success).
Proof. induction n as [|n IH]; intros more success b Hb; [lia|]. cbn [sasl_client_loop]. fit. Qed.
#[export] Hint Resolve sasl_client_loop_fits : c04.

Lemma sasl_server_loop_fits : forall n sel b, b < n -> fits b (sasl_server_loop n sel).
Proof.
  induction n as [|n IH]; intros sel b Hb; [lia|]. rewrite sasl_server_loop_S.
  assert (He : forall c b', b' < n -> fits b' (sasl_server_elem n sel c)) by (unfold sasl_server_elem; fit).
  fit.
Qed.
#[export] Hint Resolve sasl_server_loop_fits : c04.

Lemma negotiate_feature_fits n recv f b : b < n -> fits b (negotiate_feature n recv f).
Proof.
  intro Hb. open_features. destruct (f_kind f); destruct recv; fit.
Qed.
#[export] Hint Resolve negotiate_feature_fits : c04.

Lemma run_feature_fits n recv f ft pre b : b + length pre < n -> fits b (run_feature n recv f ft pre).
Proof. intro Hb. unfold run_feature. fit. Qed.
#[export] Hint Resolve run_feature_fits : c04.

Lemma list_features_fits : forall fs i bits acc b, fits b (list_features fs i bits acc).
Proof. induction fs as [|f fs IH]; intros i bits acc b; cbn [list_features]; fit. Qed.
#[export] Hint Resolve list_features_fits : c04.

Lemma write_features_fits cfg b : fits b (write_features cfg).
Proof. unfold write_features. fit. Qed.

Lemma read_children_fits cfg : forall n acc b, b < n -> fits b (read_children n cfg acc).
Proof. induction n as [|n IH]; intros acc b Hb; [lia|]. cbn [read_children]. fit. Qed.
#[export] Hint Resolve read_children_fits : c04.

Lemma trim_space_fits : forall n b, b < n -> fits b (trim_space n).
Proof. induction n as [|n IH]; intros b Hb; [lia|]. cbn [trim_space]. fit. Qed.
#[export] Hint Resolve trim_space_fits : c04.

Lemma comp_header_fits : forall n fp b, b < n -> fits b (comp_header n fp).
Proof. induction n as [|n IH]; intros fp b Hb; [lia|]. cbn [comp_header]. fit. Qed.
#[export] Hint Resolve comp_header_fits : c04.

(* cached features that were not negotiated yet *)
Definition todo (l : flist) (negotiated : list nat) : nat :=
  length (filter (fun e : nat * bool => negb (mem (fst e) negotiated)) (fl_cache l)).

Lemma filter_length_lt {A} (p q : A -> bool) (l : list A) x :
  In x l -> p x = true -> q x = false -> (forall y, q y = true -> p y = true) ->
  length (filter q l) < length (filter p l).
Proof.
  intros Hin Hp Hq Himp.
  assert (Hle : forall l0, length (filter q l0) <= length (filter p l0)).
  { induction l0 as [|y l0 IH]; cbn; [lia|]. destruct (q y) eqn:Eq.
    - rewrite (Himp y Eq). cbn. lia.
    - destruct (p y); cbn; lia. }
  destruct (in_split _ _ Hin) as [l1 [l2 ->]]. rewrite !filter_app, !app_length. cbn [filter].
  rewrite Hp, Hq. cbn [length]. pose proof (Hle l1). pose proof (Hle l2). lia.
Qed.

Lemma todo_decreases cfg l negotiated bits f req :
  cache_find f (filter (candidate cfg negotiated bits) (fl_cache l)) = Some req ->
  todo l (f :: negotiated) < todo l negotiated.
Proof.
  intro H. apply cache_find_in in H. apply filter_In in H. destruct H as [Hin Hc].
  unfold todo. eapply filter_length_lt with (x := (f, req)).
  - exact Hin.
  - unfold candidate in Hc. cbn [fst] in *. destruct (nth_error (c_feats cfg) f); [|discriminate].
    destruct (negb (mem f negotiated)); [reflexivity | discriminate].
  - cbn [fst mem existsb]. rewrite Nat.eqb_refl. reflexivity.
  - intro y. cbn [mem existsb]. destruct (fst y =? f); [discriminate | exact (fun Hy => Hy)].
Qed.

Lemma init_loop_fits cfg l force n : forall k negotiated ready b,
  b < n -> todo l negotiated < k -> fits b (init_loop k n cfg l force negotiated ready).
Proof.
  induction k as [|k IH]; intros negotiated ready b Hb Ht; [lia|]. cbn [init_loop].
  unfold get_bits, call. cbn [bind]. constructor. intro bits.
  destruct force as [[i fti]|].
  - (* forced STARTTLS: required, the loop ends after it *)
    constructor. intro v. destruct v; try constructor. destruct (f =? i); fit.
  - destruct (filter (candidate cfg negotiated bits) (fl_cache l)) as [|e cands] eqn:Ef; [fit|].
    constructor. intro v. destruct v; try constructor.
    destruct (cache_find f (e :: cands)) as [req|] eqn:E1; [|constructor].
    destruct (nth_error (c_feats cfg) f) as [ft|]; [|constructor].
    destruct (negb req || forallb _ _); [|constructor]. destruct req; fit.
    (* a voluntary feature was negotiated: the loop goes on with one cached feature less to do *)
    apply IH; [exact Hb|]. rewrite <- Ef in E1.
    pose proof (todo_decreases cfg l negotiated bits f false E1). lia.
Qed.

Lemma todo_le l negotiated : todo l negotiated <= length (fl_cache l).
Proof.
  unfold todo. induction (fl_cache l) as [|e c IH]; cbn; [lia|].
  destruct (negb (mem (fst e) negotiated)); cbn; lia.
Qed.

Lemma init_loop_fits0 cfg l force n b :
  b < n -> fits b (init_loop (S (length (fl_cache l))) n cfg l force [] false).
Proof. intro Hb. apply init_loop_fits; [exact Hb|]. pose proof (todo_le l []). lia. Qed.
#[export] Hint Resolve init_loop_fits0 : c04.

Lemma features_initiator_fits n cfg first b : b < n -> fits b (features_initiator n cfg first).
Proof. intro Hb. unfold features_initiator. fit. Qed.

Lemma recv_loop_fits cfg l : forall n negotiated ready b, b + 2 < n -> fits b (recv_loop n cfg l negotiated ready).
Proof.
  induction n as [|n IH]; intros negotiated ready b Hb; [lia|]. cbn [recv_loop].
  constructor. intros t b' Hb'. destruct t as [c| | | |]; try constructor.
  (* the tokens handed back to the feature are the one or two just read *)
  apply fits_bind2 with (R := fun sel : nat * list tok => length (snd sel) <= 2).
  - destruct c; fit.
  - destruct c; try constructor; [cbn; lia|].
    apply rets_bind. intros [[]| | | |]; constructor. cbn. lia.
  - intros [f pre] Hp. cbn [fst snd] in *. fit.
Qed.
#[export] Hint Resolve recv_loop_fits : c04.

Lemma features_receiver_fits n cfg b : b + 2 < n -> fits b (features_receiver n cfg).
Proof. intro Hb. unfold features_receiver. pose proof write_features_fits. fit. Qed.

Lemma neg_call_fits n cfg ns b : b + 2 < n -> fits b (neg_call n cfg ns).
Proof.
  intro Hb. pose proof (features_receiver_fits n cfg b Hb). pose proof (features_initiator_fits n cfg).
  unfold neg_call, std_call, comp_call. fit.
Qed.

Lemma recv_loop_eats n cfg l negotiated ready : eats (recv_loop n cfg l negotiated ready).
Proof. destruct n; exact I. Qed.

Lemma comp_header_eats n fp : eats (comp_header n fp).
Proof. destruct n; exact I. Qed.

Lemma neg_call_eats n cfg ns : eats (neg_call n cfg ns).
Proof.
  unfold neg_call. destruct (c_neg cfg).
  - unfold std_call, get_bits. cbn [bind eats]. intro bits.
    apply eats_bind_r. intros _. apply eats_bind_l.
    destruct (has bits st_Received).
    + unfold features_receiver. apply eats_bind_r. intro l. apply recv_loop_eats.
    + exact I.
  - unfold comp_call, get_bits, wr. cbn [bind eats]. intro bits.
    destruct (has bits st_Received); [exact I|]. cbn [bind eats].
    apply eats_bind_l. apply comp_header_eats.
Qed.

(* negotiateSession's loop: every call of the negotiator eats, so m iterations fit a budget below m *)
Lemma session_fits n cfg : forall m ns b, b < m -> b + 2 < n -> fits b (session n m cfg ns).
Proof.
  induction m as [|m IH]; intros ns b Hm Hn; [lia|]. cbn [session]. fold (neg_call n cfg ns).
  unfold get_bits, ctx, or_bits. cbn [bind]. constructor. intro bits. destruct (is_ready bits); [constructor|].
  apply fits_bind_eats; [apply neg_call_fits, Hn | apply neg_call_eats|].
  intros r b' Hb. repeat constructor. apply IH; lia.
Qed.

Theorem run_nofuel cfg pl bits clear tls calls : fst (run cfg pl bits clear tls calls) <> RFuel.
Proof.
  unfold run. set (x := interp pl _ _).
  assert (Hx : fst x <> RFuel).
  { (* fuel_of is the input left + 4; the two premises need + 1 and + 3 *)
    apply fits_sound with (b := script_len clear + script_len tls); [apply session_fits; unfold fuel_of; lia | apply le_n]. }
  destruct x as [[a| | |] w]; exact Hx.
Qed.
