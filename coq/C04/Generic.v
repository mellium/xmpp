(* C04/Generic.v — facts about the interpreter that hold for every program: bind is sequential
   composition; what an Ok run did at each step ([interp_ok]); the closure rules that the predicates on
   programs share ([logic]); the single changes the interpreter makes to the world ([wstep]) and the two
   semantic logics over them, what holds across every run ([frame]: the world only moves forward, programs
   without OrBits keep the bits) and across every run that returns Ok ([ok_frame]: its steps are [clean];
   the events of an Ok run, [ok_clean]; a strict program that returns Ok under "operation k fails" never
   performed operation k, [alive_ok]); a run that does not reach operation k is the same under every plan
   that agrees below k; and the fuel measures. *)
From XV Require Import lib.Bytes gen.NegTables C04.Model.

Set Implicit Arguments.

(* the worlds [interp] continues in after a callback value was taken / a mask was applied *)
Definition pop_call (w : world) (v : sval) (vs : list sval) : world :=
  mkW (w_ops w) (w_script w) (w_tls w) (w_tlslayer w) (w_hs w) (w_wdead w) (w_bits w) vs (ECall v :: w_trace w).
Definition lor_bits (w : world) (m : N) : world :=
  mkW (w_ops w) (w_script w) (w_tls w) (w_tlslayer w) (w_hs w) (w_wdead w) (N.lor (w_bits w) m) (w_calls w) (w_trace w).

Definition extends {A} (l' l : list A) : Prop := exists new, l' = new ++ l.

Record wle (w w' : world) : Prop := mkWle {
  wle_ops : w_ops w <= w_ops w';
  wle_trace : extends (w_trace w') (w_trace w);
  wle_calls : exists used, w_calls w = used ++ w_calls w'
}.

Lemma wle_step w w' new used :
  w_ops w <= w_ops w' -> w_trace w' = new ++ w_trace w -> w_calls w = used ++ w_calls w' -> wle w w'.
Proof. intros Ho Ht Hc. constructor; [exact Ho | exists new; exact Ht | exists used; exact Hc]. Qed.

Lemma wle_refl w : wle w w.
Proof. apply wle_step with (new := []) (used := []); reflexivity. Qed.

Lemma wle_trans a b c : wle a b -> wle b c -> wle a c.
Proof.
  intros [o1 [n1 t1] [u1 c1]] [o2 [n2 t2] [u2 c2]].
  apply wle_step with (new := n2 ++ n1) (used := u1 ++ u2);
    [lia | rewrite t2, t1, app_assoc; reflexivity | rewrite c1, c2, app_assoc; reflexivity].
Qed.

Lemma do_write_ops pl s w : w_ops (snd (do_write pl s w)) = S (w_ops w).
Proof. reflexivity. Qed.

Lemma do_write_trace pl s w :
  w_trace (snd (do_write pl s w)) = [EWrite s (fst (do_write pl s w))] ++ w_trace w.
Proof. reflexivity. Qed.

(* the result of [bind p f] when p does not return Ok; the ROk case is never reached *)
Definition res_abort {A B} (r : res A) : res B :=
  match r with ROk _ => RErr | RErr => RErr | RStuck => RStuck | RFuel => RFuel end.

Lemma interp_bind A B (p : prog A) pl : forall (f : A -> prog B) w,
  interp pl (bind p f) w =
  match interp pl p w with
  | (ROk a, w1) => interp pl (f a) w1
  | (r, w1) => (res_abort r, w1)
  end.
Proof.
  induction p as [a| | | |k IH|s k IH|s k IH|ke IHe k IH|ko IHo ke IHe|k IH|m k IH|rs k IH|e k IH]; intros f w; cbn [interp bind];
    try reflexivity; try apply IH.
  - destruct (read_tok pl w) as [[t|] w1]; [apply IH | reflexivity].
  - destruct (do_write pl s w) as [[|] w1]; [apply IH | reflexivity].
  - destruct (ctx_done pl w); [|apply IH].
    rewrite IHe. destruct (interp pl ke w) as [[a| | |] w1]; reflexivity.
  - destruct (w_calls w) as [|v vs]; [reflexivity|].
    destruct (sval_err v); [|apply IHo].
    rewrite IHe. destruct (interp pl (ke v) _) as [[a| | |] w1]; reflexivity.
Qed.

Lemma interp_bind_ok A B (p : prog A) (f : A -> prog B) pl w b w' :
  interp pl (bind p f) w = (ROk b, w') ->
  exists a w1, interp pl p w = (ROk a, w1) /\ interp pl (f a) w1 = (ROk b, w').
Proof.
  rewrite interp_bind. destruct (interp pl p w) as [[a| | |] w1]; cbn; intro H; try discriminate.
  exists a, w1. split; [reflexivity | exact H].
Qed.

(* Inversion of a run that returns Ok, at the head constructor of the program: what must have happened there
   and how the run goes on. Every fact about Ok runs below goes through it. *)
Lemma interp_ok A pl (p : prog A) w a w' : interp pl p w = (ROk a, w') ->
  match p with
  | Ret a0 => a0 = a /\ w = w'
  | Rd k => exists t w1, read_tok pl w = (Some t, w1) /\ interp pl (k t) w1 = (ROk a, w')
  | Wr s k => op_ok pl w true = true /\ interp pl k (snd (do_write pl s w)) = (ROk a, w')
  | WrU s k => interp pl k (snd (do_write pl s w)) = (ROk a, w')
  | Ctx _ k => ctx_done pl w = false /\ interp pl k (set_trace w (ECtxPass (w_ops w))) = (ROk a, w')
  | Call ko _ => exists v vs, w_calls w = v :: vs /\ sval_err v = false /\ interp pl (ko v) (pop_call w v vs) = (ROk a, w')
  | GetBits k => interp pl (k (w_bits w)) w = (ROk a, w')
  | OrBits m k => interp pl k (lor_bits w m) = (ROk a, w')
  | Restart rs k => interp pl k (do_restart rs w) = (ROk a, w')
  | Log e k => interp pl k (set_trace w e) = (ROk a, w')
  | _ => False
  end.
Proof.
  destruct p as [a0| | | |k|s k|s k|ke k|ko ke|k|m k|rs k|e k]; cbn [interp]; try discriminate; try exact (fun H => H).
  - intro H. injection H as -> ->. split; reflexivity.
  - destruct (read_tok pl w) as [[t|] w1]; [|discriminate]. intro H. exists t, w1. split; [reflexivity | exact H].
  - change (do_write pl s w) with (op_ok pl w true, snd (do_write pl s w)). cbv beta iota.
    destruct (op_ok pl w true); [|discriminate]. intro H. split; [reflexivity | exact H].
  - destruct (ctx_done pl w); [discriminate|]. intro H. split; [reflexivity | exact H].
  - destruct (w_calls w) as [|v vs]; [discriminate|]. destruct (sval_err v) eqn:Ev; [discriminate|].
    intro H. exists v, vs. split; [reflexivity | split; [exact Ev | exact H]].
Qed.

(* [noret p]: p has no Ret leaf on a path a run can take to the end (the error branches of Ctx and Call end in an error whatever they hold, and are not looked at) *)
Inductive noret {A} : prog A -> Prop :=
| nr_fail : noret Fail
| nr_stuck : noret Stuck
| nr_fuel : noret OutOfFuel
| nr_rd k : (forall t, noret (k t)) -> noret (Rd k)
| nr_wr s k : noret k -> noret (Wr s k)
| nr_wru s k : noret k -> noret (WrU s k)
| nr_ctx ke k : noret k -> noret (Ctx ke k)
| nr_call ko ke : (forall v, noret (ko v)) -> noret (Call ko ke)
| nr_get k : (forall b, noret (k b)) -> noret (GetBits k)
| nr_or m k : noret k -> noret (OrBits m k)
| nr_restart rs k : noret k -> noret (Restart rs k)
| nr_log e k : noret k -> noret (Log e k).

(* [rets Q p]: every Ret leaf of p outside those error branches carries a value that satisfies Q *)
Inductive rets {A} (Q : A -> Prop) : prog A -> Prop :=
| rt_ret a : Q a -> rets Q (Ret a)
| rt_fail : rets Q Fail
| rt_stuck : rets Q Stuck
| rt_fuel : rets Q OutOfFuel
| rt_rd k : (forall t, rets Q (k t)) -> rets Q (Rd k)
| rt_wr s k : rets Q k -> rets Q (Wr s k)
| rt_wru s k : rets Q k -> rets Q (WrU s k)
| rt_ctx ke k : rets Q k -> rets Q (Ctx ke k)
| rt_call ko ke : (forall v, rets Q (ko v)) -> rets Q (Call ko ke)
| rt_get k : (forall b, rets Q (k b)) -> rets Q (GetBits k)
| rt_or m k : rets Q k -> rets Q (OrBits m k)
| rt_restart rs k : rets Q k -> rets Q (Restart rs k)
| rt_log e k : rets Q k -> rets Q (Log e k).

Lemma rets_ok A (Q : A -> Prop) (p : prog A) pl : rets Q p -> forall w a w',
  interp pl p w = (ROk a, w') -> Q a.
Proof.
  induction 1; intros w a0 w' Hr; apply interp_ok in Hr; cbn in Hr; decompose [ex and] Hr; subst; try contradiction; eauto.
Qed.

Lemma noret_rets A (Q : A -> Prop) (p : prog A) : noret p -> rets Q p.
Proof. induction 1; constructor; auto. Qed.

Lemma noret_not_ok A (p : prog A) pl : noret p -> forall w a w', interp pl p w = (ROk a, w') -> False.
Proof. intros Hp w a w'. apply (rets_ok pl (noret_rets (fun _ => False) Hp)). Qed.

Lemma noret_bind A B (p : prog A) (f : A -> prog B) : noret p -> noret (bind p f).
Proof. induction 1; cbn; constructor; auto. Qed.

Lemma noret_feed A (p : prog A) : noret p -> forall ts, noret (feed ts p).
Proof.
  induction 1; intros [|t ts]; cbn; try (constructor; auto; fail); auto.
Qed.

Lemma rets_bind A B (Q : B -> Prop) (p : prog A) (f : A -> prog B) :
  (forall a, rets Q (f a)) -> rets Q (bind p f).
Proof. intro Hf. induction p; cbn; try (constructor; auto; fail). apply Hf. Qed.

Lemma rets_bind2 A B (R : A -> Prop) (Q : B -> Prop) (p : prog A) (f : A -> prog B) :
  rets R p -> (forall a, R a -> rets Q (f a)) -> rets Q (bind p f).
Proof. intros Hp Hf. induction Hp; cbn; try (constructor; auto; fail). apply Hf. assumption. Qed.

Lemma rets_feed A (Q : A -> Prop) (p : prog A) : rets Q p -> forall ts, rets Q (feed ts p).
Proof. induction 1; intros [|t ts]; cbn; try (constructor; auto; fail); auto. Qed.

Lemma rets_all A (Q : A -> Prop) : (forall a, Q a) -> forall p, rets Q p.
Proof. intros HQ p. induction p; constructor; auto. Qed.

(* The premises of the closure rule for the head constructor of p, for a predicate Phi on programs.
   errs: the error branches of Ctx and Call are looked at; Ws, Lg, Mk: the sites of writes whose error is
   dropped, the logged events and the masks that are allowed. *)
Definition rule (Phi : forall A, prog A -> Prop) (errs : Prop) (Ws : wsite -> Prop) (Lg : event -> Prop) (Mk : N -> Prop)
                A (p : prog A) : Prop :=
  match p with
  | Rd k => forall t, Phi A (k t)
  | GetBits k => forall b, Phi A (k b)
  | Wr _ k | Restart _ k => Phi A k
  | WrU s k => (Ws s \/ noret k) /\ Phi A k
  | Ctx ke k => (errs -> Phi A ke) /\ Phi A k
  | Call ko ke => (forall v, errs -> Phi A (ke v)) /\ forall v, Phi A (ko v)
  | OrBits m k => Mk m /\ Phi A k
  | Log e k => Lg e /\ Phi A k
  | _ => True
  end.

(* A predicate that is closed under every constructor and under bind. The inductive predicates below are
   the least ones for their parameters ([wru_ok_least], [no_orbits_least]); what holds across every run
   ([frame]) or across every run that returns Ok ([ok_frame]) is one too; C04/Walk.v shows that every logic
   holds of the programs of the model. *)
Record logic (Phi : forall A, prog A -> Prop) (errs : Prop) (Ws : wsite -> Prop) (Lg : event -> Prop) (Mk : N -> Prop) : Prop := {
  lg_rule : forall A (p : prog A), rule Phi errs Ws Lg Mk p -> Phi A p;
  lg_bind : forall A B (p : prog A) (f : A -> prog B), Phi A p -> (forall a, Phi B (f a)) -> Phi B (bind p f)
}.

Lemma logic_total Phi errs Ws Lg Mk : logic Phi errs Ws Lg Mk ->
  (forall s, Ws s) -> (forall e, Lg e) -> (forall m, Mk m) -> forall A (p : prog A), Phi A p.
Proof. intros HL HW HG HM A p. induction p; apply (lg_rule HL); cbn; auto. Qed.

Lemma logic_forall X (Phi : X -> forall A, prog A -> Prop) errs Ws Lg Mk :
  (forall x, logic (Phi x) errs Ws Lg Mk) -> logic (fun A p => forall x, Phi x A p) errs Ws Lg Mk.
Proof.
  intro H. split.
  - intros A p Hp x. apply (lg_rule (H x)). destruct p; cbn in *; intuition auto.
  - intros A B p f Hp Hf x. apply (lg_bind (H x)); auto.
Qed.

(* The single changes the interpreter makes to the world, each with what it shows: an event of the
   interpreter's own (the result of an operation, a ctx test, a callback value), an event the program logs, a
   mask, or nothing. *)
Inductive act := Ev (e : event) | Logged (e : event) | Mask (m : N) | Silent.

Inductive wstep (pl : plan) (w : world) : act -> world -> Prop :=
| ws_op r avail : wstep pl w (Ev (ERead (op_ok pl w false && avail))) (snd (do_read_op pl w r avail))
| ws_tok r : wstep pl w Silent (mkW (w_ops w) r (w_tls w) (w_tlslayer w) (w_hs w) (w_wdead w) (w_bits w) (w_calls w) (w_trace w))
| ws_write s : wstep pl w (Ev (EWrite s (op_ok pl w true))) (snd (do_write pl s w))
| ws_pass : wstep pl w (Ev (ECtxPass (w_ops w))) (set_trace w (ECtxPass (w_ops w)))
| ws_cancel : wstep pl w (Ev ECtxErr) (set_trace w ECtxErr)
| ws_call v vs : w_calls w = v :: vs -> wstep pl w (Ev (ECall v)) (pop_call w v vs)
| ws_log e : wstep pl w (Logged e) (set_trace w e)
| ws_or m : wstep pl w (Mask m) (lor_bits w m)
| ws_restart rs : wstep pl w Silent (do_restart rs w).

Lemma wstep_trace pl w a w' : wstep pl w a w' ->
  w_trace w' = match a with Ev e | Logged e => [e] | _ => [] end ++ w_trace w.
Proof. intros []; try destruct rs; reflexivity. Qed.

Lemma wstep_wle pl w a w' : wstep pl w a w' -> wle w w'.
Proof.
  intro H. apply wle_step with (new := match a with Ev e | Logged e => [e] | _ => [] end)
                               (used := match a with Ev (ECall v) => [v] | _ => [] end);
    [|exact (wstep_trace H)|]; destruct H; try destruct rs; cbn; auto.
Qed.

(* A preorder on worlds that holds across every step whose mask satisfies M holds between the first and
   the last world of every run, whatever its result, for programs whose masks all satisfy M. *)
Section Frame.
  Variables (pl : plan) (M : N -> Prop) (R : world -> world -> Prop).
  Hypothesis R_refl : forall w, R w w.
  Hypothesis R_trans : forall a b c, R a b -> R b c -> R a c.
  Hypothesis R_step : forall w a w', wstep pl w a w' -> match a with Mask m => M m | _ => True end -> R w w'.

  Lemma read_tok_from_frame s : forall w, R w (snd (read_tok_from pl w s)).
  Proof.
    induction s as [|[t|] r IH]; intro w; cbn [read_tok_from].
    - pose proof (R_step (ws_op pl w [] false) I) as H. destruct (do_read_op pl w [] false). exact H.
    - apply (R_step (ws_tok pl w r) I).
    - pose proof (R_step (ws_op pl w r true) I) as H. destruct (do_read_op pl w r true) as [[|] w1]; cbn [snd] in H |- *;
        [eapply R_trans; [exact H | apply IH] | exact H].
  Qed.

  Definition keeps A (p : prog A) : Prop := forall w, R w (snd (interp pl p w)).

  Theorem frame : logic keeps True (fun _ => True) (fun _ => True) M.
  Proof.
    split.
    - intros A p Hp w.
      destruct p as [a| | | |k|s k|s k|ke k|ko ke|k|m k|rs k|e k]; cbn [rule] in Hp; cbn [interp]; try apply R_refl.
      + pose proof (read_tok_from_frame (w_script w) w) as H. unfold read_tok.
        destruct (read_tok_from pl w (w_script w)) as [[t|] w1]; cbn [snd] in H |- *;
          [eapply R_trans; [exact H | apply Hp] | exact H].
      + pose proof (R_step (ws_write pl w s) I) as H. destruct (do_write pl s w) as [[|] w1]; cbn [snd] in H |- *;
          [eapply R_trans; [exact H | apply Hp] | exact H].
      + pose proof (R_step (ws_write pl w s) I) as H. destruct (do_write pl s w) as [ok w1]. eapply R_trans; [exact H | apply Hp].
      + destruct Hp as [He Hk].
        destruct (ctx_done pl w); cbn [snd]; eapply R_trans;
          [apply He, I | apply (R_step (ws_cancel pl _) I) | apply (R_step (ws_pass pl w) I) | apply Hk].
      + destruct Hp as [He Ho]. destruct (w_calls w) as [|v vs] eqn:E; [apply R_refl|].
        destruct (sval_err v); cbn [snd]; (eapply R_trans; [apply (R_step (ws_call pl w E) I)|]); [apply He, I | apply Ho].
      + apply Hp.
      + eapply R_trans; [apply (R_step (ws_or pl w m)), Hp | apply Hp].
      + eapply R_trans; [apply (R_step (ws_restart pl w rs) I) | apply Hp].
      + eapply R_trans; [apply (R_step (ws_log pl w e) I) | apply Hp].
    - intros A B p f Hp Hf w. rewrite interp_bind. specialize (Hp w).
      destruct (interp pl p w) as [[a| | |] w1]; cbn [snd] in *; try exact Hp. eapply R_trans; [exact Hp | apply Hf].
  Qed.
End Frame.

Lemma interp_wle A (p : prog A) pl w : wle w (snd (interp pl p w)).
Proof.
  revert A p w. apply (@logic_total (@keeps pl wle) True (fun _ => True) (fun _ => True) (fun _ => True)); auto.
  apply frame; [apply wle_refl | apply wle_trans | intros w a w' H _; exact (wstep_wle H)].
Qed.

Corollary interp_ops_mono A (p : prog A) pl w : w_ops w <= w_ops (snd (interp pl p w)).
Proof. apply interp_wle. Qed.

Lemma read_tok_from_ops pl s w : w_ops w <= w_ops (snd (read_tok_from pl w s)).
Proof.
  apply read_tok_from_frame with (M := fun _ => True) (R := fun a b => w_ops a <= w_ops b); cbn; intros; try lia.
  eapply wstep_wle; eassumption.
Qed.

(* what an Ok result allows a new event to be; P: the sites of writes whose error is dropped *)
Definition clean (P : wsite -> Prop) (e : event) : Prop :=
  match e with
  | ERead ok => ok = true
  | EWrite s ok => ok = true \/ P s
  | ECall v => sval_err v = false
  | ECtxErr => False
  | _ => True
  end.

(* The same for the runs that return Ok: there R need only hold across the steps after which a run goes on,
   and these are the steps whose own event is [clean] (a token was read, a checked write succeeded, a dropped
   write was at a site in Ws, a ctx test passed, a callback value was no error) and whose logged event is in Lg. *)
Section OkFrame.
  Variables (pl : plan) (R : world -> world -> Prop) (Ws : wsite -> Prop) (Lg : event -> Prop).
  Hypothesis R_refl : forall w, R w w.
  Hypothesis R_trans : forall a b c, R a b -> R b c -> R a c.
  Hypothesis R_step : forall w a w', wstep pl w a w' ->
    match a with Ev e => clean Ws e | Logged e => Lg e | _ => True end -> R w w'.

  Lemma read_tok_from_ok s : forall w t w', read_tok_from pl w s = (Some t, w') -> R w w'.
  Proof.
    induction s as [|[t0|] r IH]; intros w t w'; cbn [read_tok_from].
    - discriminate.
    - intro H. injection H as _ <-. apply (R_step (ws_tok pl w r) I).
    - pose proof (R_step (ws_op pl w r true)) as Hs. destruct (do_read_op pl w r true) as [[|] w1] eqn:E; [|discriminate].
      injection E as E _. intro H. eapply R_trans; [apply Hs, E | exact (IH _ _ _ H)].
  Qed.

  Definition okrel A (p : prog A) : Prop := forall w a w', interp pl p w = (ROk a, w') -> R w w'.

  Theorem ok_frame : logic okrel False Ws Lg (fun _ => True).
  Proof.
    split.
    - intros A p Hp w a w' H. apply interp_ok in H.
      destruct p as [a0| | | |k|s k|s k|ke k|ko ke|k|m k|rs k|e k]; cbn [rule] in Hp; try contradiction;
        decompose [ex and] H;
        try (eapply R_trans; [|first [eapply (proj2 Hp) | eapply Hp]; eassumption]).
      + subst. apply R_refl.
      + eapply read_tok_from_ok; eassumption.
      + apply (R_step (ws_write pl w s)). left. assumption.
      + (* WrU: at a site in Ws, or nothing is returned after it *)
        destruct Hp as [[Hs|Hs] _]; [apply (R_step (ws_write pl w s)); right; exact Hs | destruct (noret_not_ok pl Hs _ H)].
      + apply (R_step (ws_pass pl w) I).
      + apply (R_step (ws_call pl w H0)). assumption.
      + apply R_refl.
      + apply (R_step (ws_or pl w m) I).
      + apply (R_step (ws_restart pl w rs) I).
      + apply (R_step (ws_log pl w e)), Hp.
    - intros A B p f Hp Hf w b w' H. apply interp_bind_ok in H. destruct H as [a [w1 [H1 H2]]].
      eapply R_trans; [eapply Hp | eapply Hf]; eassumption.
  Qed.
End OkFrame.

Definition emits (Phi : list event -> Prop) (w w' : world) : Prop :=
  exists new, w_trace w' = new ++ w_trace w /\ Phi new.

(* the events the interpreter logs itself; [clean] is also true of the markers, which only programs log *)
Definition own (e : event) : Prop :=
  match e with ERead _ | EWrite _ _ | ECall _ | ECtxPass _ | ECtxErr => True | _ => False end.

Section Emits.
  Variables (pl : plan) (Phi : list event -> Prop) (Ws : wsite -> Prop) (Lg : event -> Prop).
  Hypothesis Phi_nil : Phi [].
  Hypothesis Phi_app : forall a b, Phi a -> Phi b -> Phi (a ++ b).
  Hypothesis Phi_ev : forall e, own e -> clean Ws e -> Phi [e].
  Hypothesis Phi_log : forall e, Lg e -> Phi [e].

  Theorem ok_emits : logic (okrel pl (emits Phi)) False Ws Lg (fun _ => True).
  Proof.
    apply ok_frame.
    - intro w. exists []. split; [reflexivity | exact Phi_nil].
    - intros a b c [n1 [H1 C1]] [n2 [H2 C2]]. exists (n2 ++ n1).
      split; [rewrite H2, H1, app_assoc; reflexivity | apply Phi_app; assumption].
    - intros w a w' H Ha. eexists. split; [exact (wstep_trace H)|].
      destruct H; auto; apply Phi_ev; solve [exact I | exact Ha].
  Qed.
End Emits.

(* events a program may log itself: markers of callbacks, never operation results *)
Definition marker (e : event) : Prop :=
  match e with
  | EParse _ | EList _ | ENegStart _ | ENegOk _ _ _ => True
  | _ => False
  end.

Lemma marker_clean P e : marker e -> clean P e.
Proof. destruct e; cbn; intro H; try exact I; try contradiction. Qed.

(* every write whose error is dropped is at a site in P, or nothing is returned after it *)
Inductive wru_ok {A} (P : wsite -> Prop) : prog A -> Prop :=
| wo_ret a : wru_ok P (Ret a)
| wo_fail : wru_ok P Fail
| wo_stuck : wru_ok P Stuck
| wo_fuel : wru_ok P OutOfFuel
| wo_rd k : (forall t, wru_ok P (k t)) -> wru_ok P (Rd k)
| wo_wr s k : wru_ok P k -> wru_ok P (Wr s k)
| wo_wru s k : P s \/ noret k -> wru_ok P k -> wru_ok P (WrU s k)
| wo_ctx ke k : wru_ok P k -> wru_ok P (Ctx ke k)
| wo_call ko ke : (forall v, wru_ok P (ko v)) -> wru_ok P (Call ko ke)
| wo_get k : (forall b, wru_ok P (k b)) -> wru_ok P (GetBits k)
| wo_or m k : wru_ok P k -> wru_ok P (OrBits m k)
| wo_restart rs k : wru_ok P k -> wru_ok P (Restart rs k)
| wo_log e k : marker e -> wru_ok P k -> wru_ok P (Log e k).

Lemma wru_ok_bind A B P (p : prog A) (f : A -> prog B) :
  wru_ok P p -> (forall a, wru_ok P (f a)) -> wru_ok P (bind p f).
Proof.
  intros Hp Hf. induction Hp; cbn; try (constructor; auto; fail).
  - apply Hf.
  - constructor; [|assumption]. destruct H as [H|H]; [left; exact H | right; apply noret_bind; exact H].
Qed.

Lemma wru_ok_feed A P (p : prog A) : wru_ok P p -> forall ts, wru_ok P (feed ts p).
Proof.
  induction 1; intros [|t ts]; cbn; try (constructor; auto; fail); auto.
  constructor; [|auto]. destruct H as [H|H]; [left; exact H | right; apply noret_feed; exact H].
Qed.

Lemma wok_logic P : logic (fun A => @wru_ok A P) False P marker (fun _ => True).
Proof. split; [intros A [] H; cbn in H; constructor; tauto | intros; apply wru_ok_bind; assumption]. Qed.

(* [wru_ok P] is the least logic that does not look at error branches and allows the dropped writes at the
   sites in P, the markers and every mask *)
Lemma wru_ok_least Phi errs (P : wsite -> Prop) Ws Lg Mk (HL : logic Phi errs Ws Lg Mk) A (p : prog A) :
  ~ errs -> (forall s, P s -> Ws s) -> (forall e, marker e -> Lg e) -> (forall m, Mk m) -> wru_ok P p -> Phi A p.
Proof.
  intros He HW HG HM. induction 1 as [| | | | | |s k [Hs|Hs]| | | | | |]; apply (lg_rule HL); cbn; auto; tauto.
Qed.

Lemma wru_ok_weaken A (P Q : wsite -> Prop) (p : prog A) :
  (forall s, P s -> Q s) -> wru_ok P p -> wru_ok Q p.
Proof. intro HPQ. apply (wru_ok_least (wok_logic Q)); auto. Qed.

Theorem ok_clean A P (p : prog A) pl : wru_ok P p -> okrel pl (emits (Forall (clean P))) p.
Proof.
  apply (@wru_ok_least _ False P P marker (fun _ => True)); auto.
  apply ok_emits; intros; try apply Forall_app; try (constructor; [|constructor]); auto using marker_clean.
Qed.

(* [no_orbits p]: p contains no OrBits at all, error branches included *)
Inductive no_orbits {A} : prog A -> Prop :=
| nb_ret a : no_orbits (Ret a)
| nb_fail : no_orbits Fail
| nb_stuck : no_orbits Stuck
| nb_fuel : no_orbits OutOfFuel
| nb_rd k : (forall t, no_orbits (k t)) -> no_orbits (Rd k)
| nb_wr s k : no_orbits k -> no_orbits (Wr s k)
| nb_wru s k : no_orbits k -> no_orbits (WrU s k)
| nb_ctx ke k : no_orbits ke -> no_orbits k -> no_orbits (Ctx ke k)
| nb_call ko ke : (forall v, no_orbits (ko v)) -> (forall v, no_orbits (ke v)) -> no_orbits (Call ko ke)
| nb_get k : (forall b, no_orbits (k b)) -> no_orbits (GetBits k)
| nb_restart rs k : no_orbits k -> no_orbits (Restart rs k)
| nb_log e k : no_orbits k -> no_orbits (Log e k).

Lemma no_orbits_bind A B (p : prog A) :
  no_orbits p -> forall (f : A -> prog B), (forall a, no_orbits (f a)) -> no_orbits (bind p f).
Proof. induction 1; intros f Hf; cbn [bind]; auto; constructor; eauto using nb_fail. Qed.

Lemma no_orbits_feed A (p : prog A) : no_orbits p -> forall ts, no_orbits (feed ts p).
Proof. induction 1; intros [|t ts]; cbn; try (constructor; auto; fail); auto. Qed.

Lemma nob_logic : logic (@no_orbits) True (fun _ => True) (fun _ => True) (fun _ => False).
Proof.
  split; [intros A [] H; cbn in H; try constructor; try tauto; firstorder | intros; apply no_orbits_bind; assumption].
Qed.

(* [no_orbits] is the least logic that allows no mask *)
Lemma no_orbits_least Phi errs Ws Lg Mk (HL : logic Phi errs Ws Lg Mk) A (p : prog A) :
  (forall s, Ws s) -> (forall e, Lg e) -> no_orbits p -> Phi A p.
Proof. intros HW HG. induction 1; apply (lg_rule HL); cbn; auto. Qed.

Lemma no_orbits_bits A (p : prog A) pl : no_orbits p -> forall w, w_bits (snd (interp pl p w)) = w_bits w.
Proof.
  apply (@no_orbits_least (keeps pl (fun a b => w_bits b = w_bits a)) True (fun _ => True) (fun _ => True) (fun _ => False)); auto.
  apply frame; try reflexivity.
  - intros a b c H1 H2. rewrite H2. exact H1.
  - intros w a w' [] Hm; try destruct rs; try reflexivity. destruct Hm.
Qed.

(* a run whose masks are all without the Ready bit does not set it *)
Lemma unready pl : logic (keeps pl (fun a b => is_ready (w_bits a) = false -> is_ready (w_bits b) = false))
                         True (fun _ => True) (fun _ => True) (fun m => N.land m st_Ready = 0%N).
Proof.
  apply frame; auto.
  intros w a w' [] Hm; try destruct rs; auto.
  cbn [lor_bits w_bits]. unfold is_ready, has. rewrite N.land_lor_distr_l, Hm, N.lor_0_r. auto.
Qed.

(* The two plans answer alike wherever a run that performs at most k operations asks them: whether an
   operation below k succeeds (operation k itself would take the run past k), whether the context is done
   when at most k operations have been performed. interp asks nothing else of a plan. *)
Definition agree_below (k : nat) (pl pl' : plan) : Prop :=
  (forall w b, w_ops w < k -> op_ok pl' w b = op_ok pl w b) /\
  (forall w, w_ops w <= k -> ctx_done pl w = ctx_done pl' w).

Lemma read_tok_from_agree k pl pl' : agree_below k pl pl' -> forall s w,
  w_ops (snd (read_tok_from pl w s)) <= k -> read_tok_from pl' w s = read_tok_from pl w s.
Proof.
  intros Hag. induction s as [|[t|] r IH]; intros w; cbn [read_tok_from]; unfold do_read_op.
  - cbn [snd w_ops]. intro Hk. rewrite (proj1 Hag w false) by lia. reflexivity.
  - reflexivity.
  - intro Hk. rewrite (proj1 Hag w false).
    + destruct (op_ok pl w false && true); auto.
    + destruct (op_ok pl w false && true); [|cbn in Hk; lia].
      eapply Nat.lt_le_trans; [|exact Hk]. eapply Nat.lt_le_trans; [|apply read_tok_from_ops]. cbn. lia.
Qed.

Lemma stays_below A (p : prog A) pl w k : w_ops (snd (interp pl p w)) <= k -> w_ops w <= k.
Proof. intro H. eapply Nat.le_trans; [apply interp_ops_mono | exact H]. Qed.

Theorem interp_agree A (p : prog A) k pl pl' : agree_below k pl pl' -> forall w,
  w_ops (snd (interp pl p w)) <= k -> interp pl' p w = interp pl p w.
Proof.
  intro Hag.
  induction p as [a| | | |kk IH|s kk IH|s kk IH|ke IHe kk IH|ko IHo ke IHe|kk IH|m kk IH|rs kk IH|e kk IH];
    intros w; cbn [interp]; try reflexivity; try apply IH.
  - unfold read_tok. intro Hk. rewrite (read_tok_from_agree Hag (w_script w) w);
      destruct (read_tok_from pl w (w_script w)) as [[t|] w1]; auto.
    exact (stays_below _ _ _ Hk).
  - unfold do_write. intro Hk. rewrite (proj1 Hag w true).
    + destruct (op_ok pl w true); auto.
    + destruct (op_ok pl w true); [apply stays_below in Hk|]; cbn in Hk; lia.
  - unfold do_write. intro Hk. rewrite (proj1 Hag w true); auto.
    apply stays_below in Hk. cbn in Hk. lia.
  - intro Hk. rewrite <- (proj2 Hag).
    + destruct (ctx_done pl w); [cbn in Hk; rewrite (IHe w Hk); reflexivity | auto].
    + destruct (ctx_done pl w); cbn in Hk; apply stays_below in Hk; exact Hk.
  - destruct (w_calls w) as [|v vs]; [reflexivity|].
    destruct (sval_err v); [|apply IHo]. cbn [snd]. intro Hk. rewrite (IHe v _ Hk). reflexivity.
Qed.

Lemma op_fails pl k w b : p_fail pl k = true -> w_ops w = k -> op_ok pl w b = false.
Proof. intros Hf E. unfold op_ok. rewrite E, Hf. reflexivity. Qed.

(* A program in which every write whose error is dropped is followed by an error only. *)
Definition strict {A} (p : prog A) : Prop := wru_ok (fun _ => False) p.

Lemma alive_logic pl k (Hf : p_fail pl k = true) :
  logic (okrel pl (fun w w' => w_ops w <= k -> w_ops w' <= k)) False (fun _ => False) (fun _ => True) (fun _ => True).
Proof.
  assert (Hop : forall w b, op_ok pl w b = true -> w_ops w <= k -> S (w_ops w) <= k).
  { intros w b E Hle. destruct (Nat.eq_dec (w_ops w) k) as [Ek|Ek]; [|lia].
    rewrite (@op_fails pl k w b Hf Ek) in E. discriminate. }
  apply ok_frame; auto.
  intros w a w' [] Ha; try destruct rs; auto; cbn in Ha.
  - apply andb_prop in Ha. apply (Hop w false), Ha.
  - destruct Ha as [Ha|[]]. apply (Hop w true), Ha.
Qed.

Theorem alive_ok A (p : prog A) pl k : p_fail pl k = true -> strict p -> forall w a w',
  w_ops w <= k -> interp pl p w = (ROk a, w') -> w_ops w' <= k.
Proof.
  intros Hf Hp w a w' Hle H. revert Hle. eapply (wru_ok_least (alive_logic pl k Hf)); eauto. intros _ [].
Qed.

(* items of the peer's stream that are still to come, on both layers *)
Definition rem (w : world) : nat := script_len (w_script w) + script_len (w_tls w).

Lemma read_tok_from_rem pl s : forall w t w',
  read_tok_from pl w s = (Some t, w') -> script_len (w_script w') < script_len s /\ w_tls w' = w_tls w.
Proof.
  induction s as [|[t0|] r IH]; intros w t w'; cbn [read_tok_from]; unfold do_read_op.
  - discriminate.
  - intro H. injection H as _ <-. cbn. split; [lia | reflexivity].
  - destruct (op_ok pl w false && true); [|discriminate].
    intro H. apply IH in H. cbn in H |- *. split; [lia | apply H].
Qed.

Lemma read_tok_rem_some pl w t w' : read_tok pl w = (Some t, w') -> rem w' < rem w.
Proof. intro H. apply read_tok_from_rem in H. unfold rem. destruct H as [H1 H2]. rewrite H2. lia. Qed.

Lemma drop_to_brk_len s : script_len (drop_to_brk s) <= script_len s.
Proof. induction s as [|[t|] r IH]; cbn; lia. Qed.

Lemma do_restart_rem rs w : rem (do_restart rs w) <= rem w.
Proof.
  unfold rem. destruct rs; cbn; try lia.
  pose proof (drop_to_brk_len (w_script w)). lia.
Qed.

(* [fits b p]: with at most b items of input left, p never reaches an OutOfFuel leaf.
   A token read that succeeds leaves strictly fewer items. *)
Inductive fits {A} : nat -> prog A -> Prop :=
| ft_ret b a : fits b (Ret a)
| ft_fail b : fits b Fail
| ft_stuck b : fits b Stuck
| ft_rd b k : (forall t b', b' < b -> fits b' (k t)) -> fits b (Rd k)
| ft_wr b s k : fits b k -> fits b (Wr s k)
| ft_wru b s k : fits b k -> fits b (WrU s k)
| ft_ctx b ke k : fits b k -> fits b (Ctx ke k)
| ft_call b ko ke : (forall v, fits b (ko v)) -> fits b (Call ko ke)
| ft_get b k : (forall x, fits b (k x)) -> fits b (GetBits k)
| ft_or b m k : fits b k -> fits b (OrBits m k)
| ft_restart b rs k : fits b k -> fits b (Restart rs k)
| ft_log b e k : fits b k -> fits b (Log e k).

Theorem fits_sound A (p : prog A) pl b : fits b p -> forall w, rem w <= b -> fst (interp pl p w) <> RFuel.
Proof.
  induction 1 as [b a|b|b|b k _ IH|b s k _ IH|b s k _ IH|b ke k _ IH|b ko ke _ IH|b k _ IH|b m k _ IH|b rs k _ IH|b e k _ IH];
    intros w Hw; cbn [interp]; try (cbn; discriminate); try (apply IH; exact Hw).
  - destruct (read_tok pl w) as [[t|] w1] eqn:E; [|cbn; discriminate].
    apply read_tok_rem_some in E. apply (IH t (rem w1)); lia.
  - unfold do_write. destruct (op_ok pl w true); [|cbn; discriminate]. apply IH. exact Hw.
  - destruct (ctx_done pl w); [cbn; discriminate|]. apply IH. exact Hw.
  - destruct (w_calls w) as [|v vs]; [cbn; discriminate|].
    destruct (sval_err v); [cbn; discriminate|]. apply IH. exact Hw.
  - apply IH. pose proof (do_restart_rem rs w). lia.
Qed.

Lemma fits_mono A (p : prog A) b : fits b p -> forall b', b' <= b -> fits b' p.
Proof.
  induction 1 as [b a|b|b|b k _ IH|b s k _ IH|b s k _ IH|b ke k _ IH|b ko ke _ IH|b k _ IH|b m k _ IH|b rs k _ IH|b e k _ IH];
    intros b1 Hb; constructor; auto.
  intros t b2 Hb2. apply (IH t b2); lia.
Qed.

Lemma fits_feed A ts : forall (p : prog A) b, fits (b + length ts) p -> fits b (feed ts p).
Proof.
  induction ts as [|t ts IH]; intros p b H; cbn [feed length] in *.
  - rewrite Nat.add_0_r in H. destruct p; exact H.
  - remember (b + S (length ts)) as b' eqn:E.
    induction H as [b' a|b'|b'|b' k Hk _|b' s k _ IHp|b' s k _ IHp|b' ke k _ IHp|b' ko ke _ IHp|b' k _ IHp|b' m k _ IHp|b' rs k _ IHp|b' e k _ IHp];
      cbn [feed]; try (constructor; auto; fail).
    apply IH. apply Hk. lia.
Qed.

Lemma fits_bind2 A B (R : A -> Prop) (p : prog A) : forall b, fits b p -> rets R p ->
  forall f : A -> prog B, (forall a, R a -> fits b (f a)) -> fits b (bind p f).
Proof.
  induction 1 as [b a|b|b|b k _ IH|b s k _ IH|b s k _ IH|b ke k _ IH|b ko ke _ IH|b k _ IH|b m k _ IH|b rs k _ IH|b e k _ IH];
    intros Hr f Hc; inversion Hr; subst; cbn [bind]; try (constructor; auto; fail).
  - apply Hc. assumption.
  - constructor. intros t b' Hb'. apply IH; auto.
    intros a Ha. eapply fits_mono; [apply Hc; exact Ha | lia].
Qed.

Lemma fits_bind A B (p : prog A) b (f : A -> prog B) : fits b p -> (forall a, fits b (f a)) -> fits b (bind p f).
Proof. intros Hp Hf. apply fits_bind2 with (R := fun _ => True); [exact Hp | apply rets_all | auto]; auto. Qed.

(* [eats p]: p returns a value only after it has read a token. A test on the part of the program before its
   first read: Rd passes it, a leaf that returns nothing passes it, Ret does not. *)
Fixpoint eats {A} (p : prog A) : Prop :=
  match p with
  | Ret _ => False
  | Wr _ k | WrU _ k | Ctx _ k | OrBits _ k | Restart _ k | Log _ k => eats k
  | Call ko _ => forall v, eats (ko v)
  | GetBits k => forall b, eats (k b)
  | _ => True
  end.

Lemma eats_bind_l A B (p : prog A) (f : A -> prog B) : eats p -> eats (bind p f).
Proof. induction p; cbn; auto. intros []. Qed.

Lemma eats_bind_r A B (p : prog A) (f : A -> prog B) : (forall a, eats (f a)) -> eats (bind p f).
Proof. intro Hf. induction p; cbn; auto. Qed.

(* a program that reads before it returns leaves its continuation a smaller budget *)
Lemma fits_bind_eats A B (p : prog A) b : fits b p -> eats p ->
  forall f : A -> prog B, (forall a b', b' < b -> fits b' (f a)) -> fits b (bind p f).
Proof.
  induction 1; cbn [eats bind]; intros He f Hf; try constructor; auto.
  - destruct He.
  - intros t b' Hb. apply fits_bind; auto.
Qed.
