(* C04/Walk.v — the one traversal of the programs of C04/Model.v: a predicate that is closed under every
   constructor of [prog] and under bind (Generic.logic) holds of every program of the model, from [skip] up to
   [session]. Structure.v and Steps.v instantiate it: no program drops a write error and returns,
   which programs touch the state bits, which log Negotiate markers, what an Ok run adds to the trace. *)
From XV Require Import lib.Bytes gen.NegTables C04.Model C04.Generic.

Set Implicit Arguments.

(* the small combinators, opened before a program is taken apart ([step] and its like first: they are made of the others) *)
Ltac open_defs :=
  unfold step, server_step, custom_client, custom_outcome, rd, wr, wru, ctx, call, get_bits, or_bits, logev, guard in *.

Ltac open_features :=
  unfold negotiate_feature, starttls_client, starttls_server, sasl_client, sasl_server, bind_client, bind_server,
         custom_server.

Ltac split_match :=
  match goal with
  | |- context [match ?x with _ => _ end] =>
      match type of x with
      | sumbool _ _ => fail 1
      | _ => destruct x
      end
  end.

(* What sasl_server_loop does with an element that is neither <failure/> nor a stream error,
   under a name: the nested patterns of the loop are compiled into one copy of this branch per
   class of element, and every fact about the loop would be checked on each copy. *)
Definition sasl_server_elem (n : nat) (selected : bool) (c : cls) : prog unit :=
  skip n 0 ;;;
  let continue (sel b64 : bool) : prog unit :=
    guard b64 ;;;
    more <- server_step ;;
    if more then wr WChallenge ;;; sasl_server_loop n sel else Ret tt in
  match c with
  | KSel _ (EAuth mech b64) => if mech then continue true b64 else wr WSaslFail ;;; Fail
  | KSel _ (EResponse b64) => if selected then continue true b64 else wr WSaslFail ;;; Fail
  | _ => wr WSaslFail ;;; Fail
  end.

Lemma sasl_server_loop_S n selected :
  sasl_server_loop (S n) selected =
  Rd (fun t => match t with
               | Open (KSel _ ESaslFailure) => skip n 0 ;;; Fail
               | Open KStreamErr => skip n 0 ;;; Fail
               | Open c => sasl_server_elem n selected c
               | _ => Fail
               end).
Proof. (* both sides unfolded first: left to the unifier alone the comparison is three times slower *)
  cbn [sasl_server_loop]. unfold sasl_server_elem. reflexivity.
Qed.

(* the negotiator call of one iteration of negotiateSession's loop *)
Definition neg_call (n : nat) (cfg : config) (ns : nstate) : prog (outcome * nstate) :=
  match c_neg cfg with NStd => std_call n cfg ns | NComp => comp_call n end.

Create HintDb walk.

Section Walk.
  Variables (Phi : forall A, prog A -> Prop) (errs : Prop) (Ws : wsite -> Prop) (Lg : event -> Prop) (Mk : N -> Prop).
  Hypothesis HL : logic Phi errs Ws Lg Mk.
  Hypothesis Lg_list : forall i, Lg (EList i).
  Hypothesis Lg_parse : forall f, Lg (EParse f).

  (* Along the syntax of the program: [lg_bind] for a bind, a case split for a match, [lg_rule] for a
     constructor (its premises: the continuations, and side conditions that [auto] finds among the
     hypotheses); a call of a program of the model is closed by its lemma below (hint database [walk]) or
     by the induction hypothesis. The only dropped writes of the model stand in error branches and are
     followed by Fail. *)
  Ltac walk :=
    open_defs; cbn [bind];
    repeat first [ progress intros
                 | match goal with
                   | |- Phi (bind _ _) => apply (lg_bind HL)
                   | |- Phi (match _ with _ => _ end) => split_match
                   | |- Phi _ => first [solve [auto with walk] | apply (lg_rule HL); cbv beta iota delta [rule]]
                   | |- _ \/ noret _ => right; repeat constructor
                   end
                 | solve [auto] | split ].

  Lemma skip_walk n : forall d, Phi (skip n d).
  Proof. induction n as [|n IH]; intro d; cbn [skip]; walk. Qed.
  Hint Resolve skip_walk : walk.

  Lemma expect_walk n : forall first ws, Phi (expect n first ws).
  Proof. induction n as [|n IH]; intros first ws; cbn [expect]; walk. Qed.
  Hint Resolve expect_walk : walk.

  Lemma sasl_decode_walk n a t : Phi (sasl_decode n a t).
  Proof. unfold sasl_decode; walk. Qed.
  Hint Resolve sasl_decode_walk : walk.

  Lemma sasl_client_loop_walk n : forall more success, Phi (sasl_client_loop n more success).
  Proof. induction n as [|n IH]; intros more success; cbn [sasl_client_loop]; walk. Qed.
  Hint Resolve sasl_client_loop_walk : walk.

  Lemma sasl_server_loop_walk n : forall sel, Phi (sasl_server_loop n sel).
  Proof.
    induction n as [|n IH]; intro sel; [walk|]. rewrite sasl_server_loop_S.
    assert (He : forall c, Phi (sasl_server_elem n sel c)) by (unfold sasl_server_elem; walk).
    walk.
  Qed.
  Hint Resolve sasl_server_loop_walk : walk.

  Lemma negotiate_feature_walk n recv f : Phi (negotiate_feature n recv f).
  Proof.
    open_features. destruct (f_kind f); destruct recv; walk.
  Qed.

  Lemma list_features_walk fs : forall i bits acc, Phi (list_features fs i bits acc).
  Proof. induction fs as [|f fs IH]; intros i bits acc; cbn [list_features]; walk. Qed.
  Hint Resolve list_features_walk : walk.

  Lemma write_features_walk cfg : Phi (write_features cfg).
  Proof. unfold write_features; walk. Qed.
  Hint Resolve write_features_walk : walk.

  Lemma read_children_walk n cfg : forall acc, Phi (read_children n cfg acc).
  Proof. induction n as [|n IH]; intro acc; cbn [read_children]; walk. Qed.
  Hint Resolve read_children_walk : walk.

  Lemma trim_space_walk n : Phi (trim_space n).
  Proof. induction n as [|n IH]; cbn [trim_space]; walk. Qed.
  Hint Resolve trim_space_walk : walk.

  Lemma comp_header_walk n : forall fp, Phi (comp_header n fp).
  Proof. induction n as [|n IH]; intro fp; cbn [comp_header]; walk. Qed.
  Hint Resolve comp_header_walk : walk.

  Lemma comp_call_walk n : Phi (comp_call n).
  Proof. unfold comp_call; walk. Qed.
  Hint Resolve comp_call_walk : walk.

  Lemma run_feature_walk n recv f ft pre :
    (forall f, Lg (ENegStart f)) -> (forall f m rs, Lg (ENegOk f m rs)) -> (forall m, Mk (N.ldiff m st_Ready)) ->
    Phi (feed pre (negotiate_feature n recv ft)) -> Phi (run_feature n recv f ft pre).
  Proof. intros H1 H2 H3 H4. unfold run_feature. walk. Qed.

  (* The programs from here on call run_feature. That Phi holds of it is a premise: a logic need not be closed
     under feed; [run_feature_walk] gives it to those that hold of a fed negotiate_feature and allow its markers
     and its mask. *)
  Hypothesis run_feature_ok : forall n recv f ft pre, Phi (run_feature n recv f ft pre).
  Hint Resolve run_feature_ok : walk.

  Lemma init_loop_walk n cfg l : forall k force negotiated ready, Phi (init_loop k n cfg l force negotiated ready).
  Proof. induction k as [|k IH]; intros force negotiated ready; cbn [init_loop]; walk. Qed.
  Hint Resolve init_loop_walk : walk.

  Lemma features_initiator_walk n cfg first : Phi (features_initiator n cfg first).
  Proof. unfold features_initiator; walk. Qed.
  Hint Resolve features_initiator_walk : walk.

  Lemma recv_loop_walk cfg l : forall n negotiated ready, Phi (recv_loop n cfg l negotiated ready).
  Proof. induction n as [|n IH]; intros negotiated ready; cbn [recv_loop]; walk. Qed.
  Hint Resolve recv_loop_walk : walk.

  Lemma features_receiver_walk n cfg : Phi (features_receiver n cfg).
  Proof. unfold features_receiver; walk. Qed.
  Hint Resolve features_receiver_walk : walk.

  Lemma std_call_walk n cfg ns : Phi (std_call n cfg ns).
  Proof. unfold std_call; walk. Qed.
  Hint Resolve std_call_walk : walk.

  Lemma neg_call_walk n cfg ns : Phi (neg_call n cfg ns).
  Proof. unfold neg_call; walk. Qed.
  Hint Resolve neg_call_walk : walk.

  Hypothesis Mk_all : forall m, Mk m.

  Lemma session_walk n cfg : forall m ns, Phi (session n m cfg ns).
  Proof. induction m as [|m IH]; intro ns; cbn [session]; fold (neg_call n cfg ns); walk. Qed.
End Walk.
