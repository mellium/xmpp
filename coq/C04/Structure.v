(* C04/Structure.v — structural facts about the programs of C04/Model.v. By the traversal of C04/Walk.v: none of
   them drops a write error and goes on to return a value; which programs touch the state bits (only run_feature
   and session), and that no negotiator call sets Ready. Beside these: what outcomes the features return, and
   the features cache in which every entry for bind is marked required. *)
From XV Require Import lib.Bytes gen.NegTables C04.Model C04.Generic C04.Walk.

Section WruOk.
  Variable P : wsite -> Prop.

  Lemma skip_wok n : forall d, wru_ok P (skip n d).
  Proof. apply (skip_walk (wok_logic P)). Qed.

  Lemma expect_wok n : forall first ws, wru_ok P (expect n first ws).
  Proof. apply (expect_walk (wok_logic P)). Qed.

  Lemma sasl_decode_wok n a t : wru_ok P (sasl_decode n a t).
  Proof. apply (sasl_decode_walk (wok_logic P)). Qed.

  Lemma sasl_client_loop_wok n : forall more success, wru_ok P (sasl_client_loop n more success).
  Proof. apply (sasl_client_loop_walk (wok_logic P)). Qed.

  Lemma sasl_server_loop_wok n : forall sel, wru_ok P (sasl_server_loop n sel).
  Proof. apply (sasl_server_loop_walk (wok_logic P)). Qed.

  Lemma list_features_wok fs : forall i bits acc, wru_ok P (list_features fs i bits acc).
  Proof. apply (list_features_walk (wok_logic P)); intros; exact I. Qed.

  Lemma write_features_wok cfg : wru_ok P (write_features cfg).
  Proof. apply (write_features_walk (wok_logic P)); intros; exact I. Qed.

  Lemma read_children_wok n cfg : forall acc, wru_ok P (read_children n cfg acc).
  Proof. apply (read_children_walk (wok_logic P)); intros; exact I. Qed.

  Lemma trim_space_wok n : wru_ok P (trim_space n).
  Proof. apply (trim_space_walk (wok_logic P)). Qed.

  Lemma comp_header_wok n : forall fp, wru_ok P (comp_header n fp).
  Proof. apply (comp_header_walk (wok_logic P)). Qed.

  (* sasl.go's <success/> flush is a checked write (Model.sasl_server: wr WSuccess) like every other *)
  Lemma run_feature_wok n recv f ft pre : wru_ok P (run_feature n recv f ft pre).
  Proof.
    apply (run_feature_walk (wok_logic P)); try (intros; exact I).
    apply wru_ok_feed, (negotiate_feature_walk (wok_logic P)).
  Qed.

  Lemma init_loop_wok n cfg l : forall k force negotiated ready, wru_ok P (init_loop k n cfg l force negotiated ready).
  Proof. apply (init_loop_walk (wok_logic P)); first [exact run_feature_wok | intros; exact I]. Qed.

  (* every program of the model is strict: no write error is dropped on a path that returns *)
  Lemma session_wok n cfg : forall m ns, wru_ok P (session n m cfg ns).
  Proof. apply (session_walk (wok_logic P)); first [exact run_feature_wok | intros; exact I]. Qed.
End WruOk.

Definition builtin_outcome (k : fkind) (o : outcome) : Prop :=
  match k with
  | FStartTLS => o = (st_Secure, RSTls)
  | FSASL => o = (st_Authn, RSSame)
  | FBind => o = (st_Ready, RSNone)
  | FCustom => snd o = RSNone \/ snd o = RSSame
  end.

Lemma skip_noval n : forall d, rets (fun _ : unit => True) (skip n d).
Proof. intro d. apply rets_all. exact (fun _ => I). Qed.

Lemma sasl_server_loop_rets n (Q : unit -> Prop) : (Q tt) -> forall sel, rets Q (sasl_server_loop n sel).
Proof. intros HQ sel. apply rets_all. intros []. exact HQ. Qed.

(* only the last step of a feature's program returns: [rets_bind] skips to it *)
Lemma negotiate_feature_rets n recv f : rets (builtin_outcome (f_kind f)) (negotiate_feature n recv f).
Proof.
  open_features. destruct (f_kind f); destruct recv; cbn [builtin_outcome]; open_defs;
    repeat first [progress intros | apply rets_bind | match goal with |- rets _ _ => constructor end | split_match];
    cbn; auto.
Qed.

Lemma sasl_decode_nob n a t : no_orbits (sasl_decode n a t).
Proof. apply (sasl_decode_walk nob_logic). Qed.

Lemma sasl_client_loop_nob n : forall more success, no_orbits (sasl_client_loop n more success).
Proof. apply (sasl_client_loop_walk nob_logic). Qed.

Lemma sasl_server_loop_nob n : forall sel, no_orbits (sasl_server_loop n sel).
Proof. apply (sasl_server_loop_walk nob_logic). Qed.

Lemma negotiate_feature_nob n recv f : no_orbits (negotiate_feature n recv f).
Proof. apply (negotiate_feature_walk nob_logic). Qed.

Lemma list_features_nob fs : forall i bits acc, no_orbits (list_features fs i bits acc).
Proof. apply (list_features_walk nob_logic). exact (fun _ => I). Qed.

Lemma comp_header_nob n : forall fp, no_orbits (comp_header n fp).
Proof. apply (comp_header_walk nob_logic). Qed.

(* an entry for the bind feature is always marked required *)
Definition entry_ok (cfg : config) (e : nat * bool) : Prop :=
  forall ft, nth_error (c_feats cfg) (fst e) = Some ft -> f_kind ft = FBind -> snd e = true.

Definition cache_ok (cfg : config) (c : list (nat * bool)) : Prop := Forall (entry_ok cfg) c.

Lemma cache_ok_add cfg f r c : entry_ok cfg (f, r) -> cache_ok cfg c -> cache_ok cfg (cache_add f r c).
Proof.
  intros He Hc. unfold cache_add, cache_ok. constructor; [exact He|].
  apply Forall_forall. intros e Hin. apply filter_In in Hin. destruct Hin as [Hin _].
  unfold cache_ok in Hc. rewrite Forall_forall in Hc. apply Hc. exact Hin.
Qed.

Lemma cache_find_in f c : forall r, cache_find f c = Some r -> In (f, r) c.
Proof.
  induction c as [|[g r0] c IH]; intros r; cbn [cache_find]; [discriminate|].
  destruct (g =? f) eqn:E.
  - intro H. inversion H; subst. apply Nat.eqb_eq in E. subst. left. reflexivity.
  - intro H. right. apply IH. exact H.
Qed.

Lemma cache_ok_find cfg c f r ft :
  cache_ok cfg c -> cache_find f c = Some r -> nth_error (c_feats cfg) f = Some ft ->
  f_kind ft = FBind -> r = true.
Proof.
  intros Hc Hf Hn Hk. apply cache_find_in in Hf. unfold cache_ok in Hc. rewrite Forall_forall in Hc.
  apply (Hc _ Hf ft); assumption.
Qed.

Lemma cache_ok_filter cfg p c : cache_ok cfg c -> cache_ok cfg (filter p c).
Proof.
  unfold cache_ok. rewrite !Forall_forall. intros H e Hin. apply filter_In in Hin. apply H. apply Hin.
Qed.

Definition flist_ok (cfg : config) (l : flist) : Prop := cache_ok cfg (fl_cache l).

(* a negotiator call never sets the Ready bit: negotiateSession alone does, from the mask the call returns
   (run_feature applies every bit but Ready; nothing else in a call applies a mask) *)
Lemma neg_call_unready pl n cfg ns w :
  is_ready (w_bits w) = false -> is_ready (w_bits (snd (interp pl (neg_call n cfg ns) w))) = false.
Proof.
  apply (neg_call_walk (unready pl)); try exact (fun _ => I). intros n0 recv f ft pre.
  apply (run_feature_walk (unready pl)); try (intros; exact I).
  - intro m. apply N.land_ldiff.
  - apply (no_orbits_least (unready pl)); try exact (fun _ => I). apply no_orbits_feed, negotiate_feature_nob.
Qed.
