(* C04/Proofs.v — the lemmas behind the property theorems of C04/Properties.v
   (the model has a checked <success/> flush, a ctx test after every negotiator call, Ready
   cleared on every error return, and a bind error reply that returns the error). *)
From XV Require Import lib.Bytes gen.NegTables gen.C04Facts C04.Model C04.Generic C04.Walk C04.Structure C04.Fuel.

Lemma nob_result A (p : prog A) pl w r w' : no_orbits p -> interp pl p w = (r, w') -> w_bits w' = w_bits w.
Proof. intros Hp H. pose proof (no_orbits_bits pl Hp w) as Hb. rewrite H in Hb. exact Hb. Qed.

Lemma wle_result A (p : prog A) pl w r w' : interp pl p w = (r, w') -> wle w w'.
Proof. intro H. pose proof (interp_wle p pl w) as Hw. rewrite H in Hw. exact Hw. Qed.

Arguments nob_result {A p pl w r w'}.
Arguments wle_result {A p pl w r w'}.

Definition the_session (cfg : config) (clear tls : list sitem) : prog unit :=
  session (fuel_of clear tls) (fuel_of clear tls) cfg (mkNS true false).

Lemma run_unfold cfg pl bits clear tls calls :
  run cfg pl bits clear tls calls = finish (interp pl (the_session cfg clear tls) (init_world bits clear tls calls)).
Proof. reflexivity. Qed.

Lemma finish_ok A (x : res A * world) a w : finish x = (ROk a, w) -> x = (ROk a, w).
Proof. destruct x as [[a0| | |] w0]; unfold finish; cbn; intro H; inversion H; reflexivity. Qed.

Lemma finish_ops A (x : res A * world) : w_ops (snd (finish x)) = w_ops (snd x).
Proof. destruct x as [[a0| | |] w0]; reflexivity. Qed.

Lemma finish_trace A (x : res A * world) : w_trace (snd (finish x)) = w_trace (snd x).
Proof. destruct x as [[a0| | |] w0]; reflexivity. Qed.

Lemma finish_fst A (x : res A * world) : fst (finish x) = fst x.
Proof. destruct x as [[a0| | |] w0]; reflexivity. Qed.

Lemma finish_not_ready A (x : res A * world) r w :
  finish x = (r, w) -> (forall a, r <> ROk a) -> is_ready (w_bits w) = false.
Proof.
  destruct x as [[a0| | |] w0]; unfold finish; cbn; intros H Hr; inversion H; subst;
    try (unfold is_ready, has, clear_ready; cbn [w_bits]; rewrite N.land_ldiff; reflexivity).
  exfalso. eapply Hr. reflexivity.
Qed.

Definition all_steps_ok (T : list event) : Prop := Forall (clean (fun _ => False)) T.

Lemma run_err_not_ready cfg pl bits clear tls calls r w :
  run cfg pl bits clear tls calls = (r, w) -> r <> ROk tt -> is_ready (w_bits w) = false.
Proof.
  rewrite run_unfold. intros H Hr. eapply finish_not_ready; [exact H|].
  intros [] E. apply Hr. exact E.
Qed.

(* a result other than Ok is an error - or the scripted callback values do not fit the run
   (RStuck: the case is outside the model); it is never "out of fuel" (Fuel.run_nofuel) *)
Definition failed (r : res unit) : Prop := r = RErr \/ r = RStuck.

Lemma not_ok_failed cfg pl bits clear tls calls r w :
  run cfg pl bits clear tls calls = (r, w) -> r <> ROk tt -> failed r.
Proof.
  intros H Hr. pose proof (run_nofuel cfg pl bits clear tls calls) as Hf. rewrite H in Hf. cbn in Hf.
  destruct r as [[]| | |]; [exfalso; apply Hr; reflexivity | left; reflexivity | right; reflexivity | exfalso; apply Hf; reflexivity].
Qed.

Lemma session_zero pl n cfg ns w :
  interp pl (session n 0 cfg ns) w = if is_ready (w_bits w) then (ROk tt, w) else (RFuel, w).
Proof. cbn [session bind interp get_bits]. destruct (is_ready (w_bits w)); reflexivity. Qed.

(* one iteration of negotiateSession's loop *)
Lemma session_step pl n m cfg ns w :
  interp pl (session n (S m) cfg ns) w =
  if is_ready (w_bits w) then (ROk tt, w) else
  match interp pl (neg_call n cfg ns) w with
  | (ROk x, w1) =>
      if ctx_done pl w1 then (RErr, set_trace w1 ECtxErr)
      else interp pl (session n m cfg (snd x))
             (lor_bits (do_restart (snd (fst x)) (set_trace w1 (ECtxPass (w_ops w1)))) (fst (fst x)))
  | (r, w1) => (res_abort r, w1)
  end.
Proof.
  cbn [session bind interp get_bits]. destruct (is_ready (w_bits w)); [reflexivity|].
  fold (neg_call n cfg ns). rewrite interp_bind.
  destruct (interp pl (neg_call n cfg ns) w) as [[x| | |] w1]; reflexivity.
Qed.

Lemma do_restart_ops rs w : w_ops (do_restart rs w) = w_ops w.
Proof. destruct rs; reflexivity. Qed.

(* How negotiateSession's loop ends. Ok: at once, or behind a ctx test that passed with no operation since.
   Not Ok: without Ready, already before Model.finish clears it: no negotiator call sets the bit (feature
   negotiation applies every bit but Ready, which travels in the returned mask); the loop sets it after the
   ctx test, from the mask of a call that returned no error, and ends there. *)
Lemma session_ends pl n cfg : forall m ns w r w',
  interp pl (session n m cfg ns) w = (r, w') ->
  match r with
  | ROk _ => w' = w \/ ctx_done pl w' = false
  | _ => is_ready (w_bits w') = false
  end.
Proof.
  induction m as [|m IH]; intros ns w r w' H.
  - rewrite session_zero in H. destruct (is_ready (w_bits w)) eqn:Er; injection H as <- <-; auto.
  - rewrite session_step in H. destruct (is_ready (w_bits w)) eqn:Er; [injection H as <- <-; auto|].
    pose proof (neg_call_unready pl n cfg ns w Er) as Hb.
    destruct (interp pl (neg_call n cfg ns) w) as [[x| | |] w1]; cbn [snd] in Hb; try (injection H as <- <-; exact Hb).
    destruct (ctx_done pl w1) eqn:Ec; [injection H as <- <-; exact Hb|].
    apply IH in H. destruct r; try exact H. right.
    destruct H as [->|H]; [|exact H]. unfold ctx_done in *. cbn [lor_bits w_ops]. rewrite do_restart_ops. exact Ec.
Qed.

(* pl is the plan with the fault or the cancellation at operation k, pl0 the plan it is compared
   with (in Properties.v: pl without that fault, resp. without the cancellation). An Ok run under
   pl performs at most k operations: a failing operation ends it ([alive_ok]), resp. its last ctx
   test, which passed, follows its last operation ([session_ends]). Such a run is the same under
   pl0 ([interp_agree]), whose run performs more. *)
Theorem fails_closed cfg pl0 pl k bits clear tls calls ru wu rc wc :
  agree_below k pl pl0 -> p_fail pl k = true \/ p_cancel pl = Some k ->
  run cfg pl0 bits clear tls calls = (ru, wu) ->
  run cfg pl bits clear tls calls = (rc, wc) ->
  k < w_ops wu ->
  failed rc /\ is_ready (w_bits wc) = false.
Proof.
  intros Hag Hk Hu Hc Hlt.
  assert (Hne : rc <> ROk tt).
  { intro E. subst rc. rewrite run_unfold in Hu, Hc. apply finish_ok in Hc.
    assert (Hle : w_ops wc <= k).
    { destruct Hk as [Hf|Hca].
      - eapply alive_ok; [exact Hf | apply session_wok | | exact Hc]. apply Nat.le_0_l.
      - destruct (session_ends _ _ _ _ _ _ _ _ Hc) as [->|Ec]; [apply Nat.le_0_l|].
        unfold ctx_done in Ec. rewrite Hca in Ec. apply Nat.ltb_ge, Ec. }
    rewrite <- (interp_agree (the_session cfg clear tls) Hag) in Hc by (rewrite Hc; exact Hle).
    rewrite Hc in Hu. injection Hu as _ <-. lia. }
  split; [eapply not_ok_failed; eassumption|]. eapply run_err_not_ready; eassumption.
Qed.

Lemma fault_agrees f k cl c e d x hs :
  (forall i, i < k -> fault_fail f i = false) ->
  agree_below k (mkPlan f cl c e d x hs) (mkPlan FNone cl c e d x hs).
Proof.
  intro Hf. split; [|reflexivity].
  intros w b Hw. unfold op_ok, p_fail. cbn [p_fault]. rewrite (Hf _ Hw). reflexivity.
Qed.

Lemma cancel_agrees f cl c e d x hs : agree_below c (mkPlan f cl (Some c) e d x hs) (mkPlan f cl None e d x hs).
Proof.
  split.
  - intros w b Hw. unfold op_ok, p_fail, cancel_fail. cbn [p_fault p_cancel p_deadline p_entry].
    replace (c <? w_ops w) with false by (symmetry; apply Nat.ltb_ge; lia).
    replace (w_ops w =? c) with false by (symmetry; apply Nat.eqb_neq; lia).
    cbn [andb orb]. rewrite andb_false_r. reflexivity.
  - intros w0 Hle. unfold ctx_done. cbn [p_cancel]. apply Nat.ltb_ge. exact Hle.
Qed.

(* Read from session.go by the translator on every run: setDeadline starts its watcher on
   ctx.Done() whatever the shape of the context (so [watched] is true for every plan,
   watched_always, and [cancel_fail] fails the operations after a cancellation for every shape, as
   the code does), and negotiateSession never replaces the error of a step (so the error class
   of the plan is rightly ignored by the model). Both concern the tie of the model to the code:
   the theorems of Properties.v hold whatever value [watched] has. A source edit that changes
   either breaks this obligation. *)
Lemma tbl_c04_facts : setdeadline_watcher_unconditional = true /\ negsession_keeps_step_error = true.
Proof. vm_compute. split; reflexivity. Qed.

Lemma watched_always pl : watched pl = true.
Proof. unfold watched. destruct (p_ctx_deadline pl); [exact (proj1 tbl_c04_facts) | reflexivity]. Qed.
