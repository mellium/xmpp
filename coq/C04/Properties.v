(* C04/Properties.v — the property theorems of C04 and nothing else.
   "Session establishment fails closed under faults."
   The model (C04/Model.v) runs negotiateSession with an explicit I/O plan: every connection
   operation is indexed; the plan fails operations (cut / transient) and cancels the context.
   [run cfg plan bits clear tls calls] returns the result and the final world (state bits,
   trace of operations and callbacks). The model is that of the repaired code; the three
   statements that were refuted of the earlier code (sasl.go's unflushed <success/>,
   features.go's early Ready bit, session.go's unnoticed cancellation) now hold at full
   strength, and their former witnesses are scenarios of the harness. *)
From XV Require Import lib.Bytes gen.NegTables C04.Model C04.Generic C04.Structure C04.Fuel C04.Steps C04.Proofs.

(* ---- A nil error is returned only for a session whose every executed step succeeded:
   for every configuration, plan (any faults, any cancellation), scripts and callback values,
   in a run that returns Ok every read and every write succeeded, every callback that was
   executed - the List step (receiver) and the Parse step (initiator) of a custom feature,
   required or voluntary, the Negotiate step of a custom feature, a mechanism Step, the bind
   callback - returned no error ([clean]: every [ECall v] of the trace has [sval_err v =
   false]) and no ctx test saw a cancelled context. (A built-in feature's Negotiate is a
   program of the model: when it fails the run is not Ok, there being no construct that
   catches a failure.) *)
Theorem C04_nil_error_means_all_steps_ok :
  forall cfg pl bits clear tls calls w,
    run cfg pl bits clear tls calls = (ROk tt, w) -> all_steps_ok (w_trace w).
Proof.
  intros cfg pl bits clear tls calls w H. rewrite run_unfold in H. apply finish_ok in H.
  destruct (ok_clean pl (session_wok (fun _ => False) _ _ _ _) _ H) as [new [Ht Hc]].
  cbn in Ht. rewrite app_nil_r in Ht. unfold all_steps_ok. rewrite Ht. exact Hc.
Qed.
Print Assumptions C04_nil_error_means_all_steps_ok.

(* ... and every Negotiate step that was started returned without an error: run_feature logs
   ENegStart, runs the Negotiate of the selected feature (built-in or custom), and logs ENegOk
   only when it returned no error, so a failed Negotiate leaves an ENegStart without its
   ENegOk; in a run that returns Ok there are as many of the one as of the other. *)
Theorem C04_nil_error_means_negotiates_completed :
  forall cfg pl bits clear tls calls w,
    run cfg pl bits clear tls calls = (ROk tt, w) -> starts (w_trace w) = oks (w_trace w).
Proof.
  intros cfg pl bits clear tls calls w H. rewrite run_unfold in H. apply finish_ok in H.
  destruct (session_spec _ cfg _ _ _ _ _ _ H) as [new [Hn Hb]].
  cbn in Hn. rewrite app_nil_r in Hn. rewrite Hn. exact Hb.
Qed.
Print Assumptions C04_nil_error_means_negotiates_completed.

(* ---- An error result never comes with the Ready bit. *)
Theorem C04_error_state_not_ready :
  forall cfg pl bits clear tls calls r w,
    run cfg pl bits clear tls calls = (r, w) -> r <> ROk tt -> is_ready (w_bits w) = false.
Proof. exact run_err_not_ready. Qed.
Print Assumptions C04_error_state_not_ready.

(* The same holds before negotiateSession's final clearing of the bit (which the model has as
   [finish], and which no scenario can observe any more since features.go stopped applying a
   feature's Ready bit early): no call of a negotiator ever sets Ready; negotiateSession sets
   it from the mask of a successful call, after its ctx test, and the loop ends there. *)
Theorem C04_error_state_not_ready_before_clearing :
  forall cfg pl bits clear tls calls r w,
    interp pl (the_session cfg clear tls) (init_world bits clear tls calls) = (r, w) ->
    r <> ROk tt -> is_ready (w_bits w) = false.
Proof.
  intros cfg pl bits clear tls calls r w H Hr. apply session_ends in H.
  destruct r as [[]| | |]; [destruct Hr; reflexivity | exact H..].
Qed.
Print Assumptions C04_error_state_not_ready_before_clearing.

(* ... and inside feature negotiation the mask a step returns is applied only when the step
   returned no error (features.go `if err == nil { ... s.state |= mask &^ Ready }`): a step that does not
   return Ok leaves the state bits as they were, whatever mask it wanted to set. *)
Theorem C04_failed_step_mask_not_applied :
  forall pl n recv f ft pre w r w',
    interp pl (run_feature n recv f ft pre) w = (r, w') -> (forall o, r <> ROk o) ->
    w_bits w' = w_bits w.
Proof.
  intros pl n recv f ft pre w r w'. unfold run_feature, logev, or_bits. cbn [bind interp]. rewrite interp_bind.
  pose proof (no_orbits_bits pl (no_orbits_feed (negotiate_feature_nob n recv ft) pre) (set_trace w (ENegStart f))) as Hb.
  destruct (interp pl (feed pre (negotiate_feature n recv ft)) (set_trace w (ENegStart f))) as [[o| | |] w1];
    cbn [interp res_abort snd] in *; intros H Hr; inversion H; subst; try exact Hb.
  destruct (Hr o eq_refl).
Qed.
Print Assumptions C04_failed_step_mask_not_applied.

(* ---- Cut: the connection is cut at operation k (that operation and every later one fails).
   For every configuration (standard negotiator in either role and framing, component
   negotiator; any feature list), initial bits, peer scripts, callback values, handshake
   verdict, cancellation instant and every k smaller than the number of operations the
   un-faulted run performs: the cut run does not return Ok, and its Ready bit is clear. *)
Theorem C04_cut_fails_closed :
  forall cfg cl c e d x hs bits clear tls calls k ru wu rc wc,
    run cfg (mkPlan FNone cl c e d x hs) bits clear tls calls = (ru, wu) ->
    run cfg (mkPlan (FCut k) cl c e d x hs) bits clear tls calls = (rc, wc) ->
    k < w_ops wu ->
    failed rc /\ is_ready (w_bits wc) = false.
Proof.
  intros cfg cl c e d x hs bits clear tls calls k ru wu rc wc Hu Hc Hk.
  eapply fails_closed; [apply fault_agrees | left | exact Hu | exact Hc | exact Hk].
  - intros i Hi. apply Nat.leb_gt. exact Hi.
  - unfold p_fail. cbn [p_fault fault_fail]. rewrite Nat.leb_refl. reflexivity.
Qed.
Print Assumptions C04_cut_fails_closed.

(* ---- Transient: exactly operation k returns an error. Same conclusion: no read or write
   error is swallowed anywhere on a path that ends in a nil error. *)
Theorem C04_transient_fails_closed :
  forall cfg cl c e d x hs bits clear tls calls k ru wu rc wc,
    run cfg (mkPlan FNone cl c e d x hs) bits clear tls calls = (ru, wu) ->
    run cfg (mkPlan (FTransient k) cl c e d x hs) bits clear tls calls = (rc, wc) ->
    k < w_ops wu ->
    failed rc /\ is_ready (w_bits wc) = false.
Proof.
  intros cfg cl c e d x hs bits clear tls calls k ru wu rc wc Hu Hc Hk.
  eapply fails_closed; [apply fault_agrees | left | exact Hu | exact Hc | exact Hk].
  - intros i Hi. apply Nat.eqb_neq. lia.
  - unfold p_fail. cbn [p_fault fault_fail]. rewrite Nat.eqb_refl. reflexivity.
Qed.
Print Assumptions C04_transient_fails_closed.

(* ---- Cancellation. The context is cancelled at operation c: when c is entered or while it
   is blocked (entry = true) or when it has succeeded, i.e. between two operations (entry =
   false); on a transport with deadlines (deadline = true) session.go's setDeadline keeps the
   deadline expired from then on, so operation c (if it had not completed) and every later
   operation fail; on any transport every later ctx test (Expect, the SASL loop and List, the
   component negotiator, negotiateSession after each call of the negotiator) sees it.
   Under any fault plan f, for every c smaller than the number of operations of the
   un-cancelled run: the result is an error and the Ready bit is clear. *)
Theorem C04_cancel_before_step :
  forall cfg f cl e d x hs bits clear tls calls c ru wu rc wc,
    run cfg (mkPlan f cl None e d x hs) bits clear tls calls = (ru, wu) ->
    c < w_ops wu ->
    run cfg (mkPlan f cl (Some c) e d x hs) bits clear tls calls = (rc, wc) ->
    failed rc /\ is_ready (w_bits wc) = false.
Proof.
  intros cfg f cl e d x hs bits clear tls calls c ru wu rc wc Hu Hk Hc.
  eapply fails_closed; [apply cancel_agrees | right; reflexivity | exact Hu | exact Hc | exact Hk].
Qed.
Print Assumptions C04_cancel_before_step.

(* the instance "operation c was blocked on a transport with deadlines" *)
Theorem C04_cancel_while_blocked_fails :
  forall cfg f cl x hs bits clear tls calls c ru wu rc wc,
    run cfg (mkPlan f cl None true true x hs) bits clear tls calls = (ru, wu) ->
    c < w_ops wu ->
    run cfg (mkPlan f cl (Some c) true true x hs) bits clear tls calls = (rc, wc) ->
    failed rc /\ is_ready (w_bits wc) = false.
Proof. intros cfg f cl x hs. apply C04_cancel_before_step. Qed.
Print Assumptions C04_cancel_while_blocked_fails.

(* ---- The standard fuel always suffices: no run ends "out of fuel". Hence [failed r] above
   means: an error was returned - or (RStuck) the scripted callback values do not fit the run,
   a case outside the model that the correspondence check reports as a mismatch. *)
Theorem C04_run_total :
  forall cfg pl bits clear tls calls, fst (run cfg pl bits clear tls calls) <> RFuel.
Proof. exact run_nofuel. Qed.
Print Assumptions C04_run_total.
