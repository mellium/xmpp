(* C04/Steps.v — in a run that returns Ok every Negotiate step that was started also
   returned without an error: the trace holds as many [ENegOk] as [ENegStart] events
   (run_feature logs ENegStart, runs the feature's Negotiate, and logs ENegOk only when it
   returned no error; a Negotiate that fails leaves an ENegStart without its ENegOk).
   Together with Generic.ok_clean (every scripted callback value of an Ok run - List, Parse,
   custom Negotiate, mechanism Step, bind callback - is not an error) this is "a nil error
   means that every executed List/Parse/Negotiate step returned no error". *)
From XV Require Import lib.Bytes C04.Model C04.Generic C04.Walk.

Definition is_start (e : event) : bool := match e with ENegStart _ => true | _ => false end.
Definition is_ok (e : event) : bool := match e with ENegOk _ _ _ => true | _ => false end.
Definition starts (T : list event) : nat := length (filter is_start T).
Definition oks (T : list event) : nat := length (filter is_ok T).

Definition bal (T : list event) : Prop := starts T = oks T.

Lemma starts_app a b : starts (a ++ b) = starts a + starts b.
Proof. unfold starts. rewrite filter_app, app_length. reflexivity. Qed.
Lemma oks_app a b : oks (a ++ b) = oks a + oks b.
Proof. unfold oks. rewrite filter_app, app_length. reflexivity. Qed.

Lemma bal_app a b : bal a -> bal b -> bal (a ++ b).
Proof. unfold bal. rewrite starts_app, oks_app. lia. Qed.

Lemma bal_nil : bal [].
Proof. reflexivity. Qed.

Definition plain (e : event) : Prop := is_start e = false /\ is_ok e = false.

Lemma bal_plain l : Forall plain l -> bal l.
Proof.
  induction 1 as [|e l [H1 H2] _ IH]; [reflexivity|].
  unfold bal, starts, oks in *. cbn [filter]. rewrite H1, H2. exact IH.
Qed.

Definition spec {A} (p : prog A) : Prop :=
  forall pl w a w', interp pl p w = (ROk a, w') -> exists new, w_trace w' = new ++ w_trace w /\ bal new.

(* programs that log no Negotiate marker at all *)
Inductive quiet {A} : prog A -> Prop :=
| q_ret a : quiet (Ret a)
| q_fail : quiet Fail
| q_stuck : quiet Stuck
| q_fuel : quiet OutOfFuel
| q_rd k : (forall t, quiet (k t)) -> quiet (Rd k)
| q_wr s k : quiet k -> quiet (Wr s k)
| q_wru s k : quiet k -> quiet (WrU s k)
| q_ctx ke k : quiet k -> quiet (Ctx ke k)
| q_call ko ke : (forall v, quiet (ko v)) -> quiet (Call ko ke)
| q_get k : (forall b, quiet (k b)) -> quiet (GetBits k)
| q_or m k : quiet k -> quiet (OrBits m k)
| q_restart rs k : quiet k -> quiet (Restart rs k)
| q_log e k : plain e -> quiet k -> quiet (Log e k).

Lemma quiet_bind A B (p : prog A) (f : A -> prog B) : quiet p -> (forall a, quiet (f a)) -> quiet (bind p f).
Proof. intros Hp Hf. induction Hp; cbn; try (constructor; auto; fail). apply Hf. Qed.

Lemma quiet_feed A (p : prog A) : quiet p -> forall ts, quiet (feed ts p).
Proof. induction 1; intros [|t ts]; cbn; try (constructor; auto; fail); auto. Qed.

Lemma quiet_logic : logic (@quiet) False (fun _ => True) plain (fun _ => True).
Proof. split; [intros A [] H; cbn in H; constructor; tauto | intros; apply quiet_bind; assumption]. Qed.

(* spec is a logic: what the interpreter itself adds to the trace (operations, ctx tests, callback values) is plain *)
Lemma spec_logic : logic (@spec) False (fun _ => True) plain (fun _ => True).
Proof.
  apply logic_forall with (Phi := fun pl => okrel pl (emits bal)). intro pl.
  apply ok_emits; try reflexivity.
  - intros a b. apply bal_app.
  - intros [] Ho _; try destruct Ho; reflexivity.
  - intros e He. apply bal_plain. constructor; [exact He | constructor].
Qed.

Theorem quiet_spec A (p : prog A) : quiet p -> spec p.
Proof. induction 1; apply (lg_rule spec_logic); cbn; auto; tauto. Qed.

Lemma skip_quiet n : forall d, quiet (skip n d).
Proof. apply (skip_walk quiet_logic). Qed.

Lemma expect_quiet n : forall first ws, quiet (expect n first ws).
Proof. apply (expect_walk quiet_logic). Qed.

Lemma sasl_decode_quiet n a t : quiet (sasl_decode n a t).
Proof. apply (sasl_decode_walk quiet_logic). Qed.

Lemma sasl_client_loop_quiet n : forall more success, quiet (sasl_client_loop n more success).
Proof. apply (sasl_client_loop_walk quiet_logic). Qed.

Lemma sasl_server_loop_quiet n : forall sel, quiet (sasl_server_loop n sel).
Proof. apply (sasl_server_loop_walk quiet_logic). Qed.

Lemma list_features_quiet fs : forall i bits acc, quiet (list_features fs i bits acc).
Proof. apply (list_features_walk quiet_logic); split; reflexivity. Qed.

Lemma write_features_quiet cfg : quiet (write_features cfg).
Proof. apply (write_features_walk quiet_logic); split; reflexivity. Qed.

Lemma read_children_quiet n cfg : forall acc, quiet (read_children n cfg acc).
Proof. apply (read_children_walk quiet_logic); split; reflexivity. Qed.

Lemma trim_space_quiet n : quiet (trim_space n).
Proof. apply (trim_space_walk quiet_logic). Qed.

Lemma comp_header_quiet n : forall fp, quiet (comp_header n fp).
Proof. apply (comp_header_walk quiet_logic). Qed.

(* run_feature: ENegStart, the (quiet) Negotiate, and ENegOk when - and only when - it
   returned no error *)
Lemma run_feature_spec n recv f ft pre : spec (run_feature n recv f ft pre).
Proof.
  intros pl w o w'. unfold run_feature, logev, or_bits. cbn [bind interp]. rewrite interp_bind.
  assert (Hq : spec (feed pre (negotiate_feature n recv ft))) by (apply quiet_spec, quiet_feed, (negotiate_feature_walk quiet_logic)).
  destruct (interp pl (feed pre (negotiate_feature n recv ft)) (set_trace w (ENegStart f))) as [[o1| | |] w1] eqn:E;
    try discriminate.
  cbn [interp]. intro H. inversion H; subst. destruct (Hq _ _ _ _ E) as [new [Hn Hb]]. cbn in Hn.
  exists ([ENegOk f (fst o) (snd o)] ++ new ++ [ENegStart f]). split.
  - cbn. rewrite Hn, <- app_assoc. reflexivity.
  - unfold bal in *. rewrite !starts_app, !oks_app. unfold starts at 1 3, oks at 1 3. cbn. lia.
Qed.

Lemma init_loop_spec n cfg l : forall k force negotiated ready, spec (init_loop k n cfg l force negotiated ready).
Proof. apply (init_loop_walk spec_logic); first [exact run_feature_spec | split; reflexivity]. Qed.

Lemma features_initiator_spec n cfg first : spec (features_initiator n cfg first).
Proof. apply (features_initiator_walk spec_logic); first [exact run_feature_spec | split; reflexivity]. Qed.

Lemma recv_loop_spec cfg l : forall n negotiated ready, spec (recv_loop n cfg l negotiated ready).
Proof. apply (recv_loop_walk spec_logic); first [exact run_feature_spec | split; reflexivity]. Qed.

Lemma features_receiver_spec n cfg : spec (features_receiver n cfg).
Proof. apply (features_receiver_walk spec_logic); first [exact run_feature_spec | split; reflexivity]. Qed.

Lemma std_call_spec n cfg ns : spec (std_call n cfg ns).
Proof. apply (std_call_walk spec_logic); first [exact run_feature_spec | split; reflexivity]. Qed.

Lemma comp_call_spec n : spec (comp_call n).
Proof. apply (comp_call_walk spec_logic). Qed.

Lemma session_spec n cfg : forall m ns, spec (session n m cfg ns).
Proof. apply (session_walk spec_logic); first [exact run_feature_spec | exact (fun _ => I) | split; reflexivity]. Qed.
