(* Neg/Proofs.v — lemmas about the shared negotiation model that do not depend
   on a particular property: bit masks, the cache, feature lookup, and that an
   error return of the session loop is never Ready. *)
From XV Require Import lib.Bytes gen.NegTables Neg.Model.

Lemma bytes_eqb_sym a b : bytes_eqb a b = bytes_eqb b a.
Proof. exact (Bytes.bytes_eqb_sym a b). Qed.

Lemma has_true st m : has st m = true <-> N.land st m = m.
Proof. apply N.eqb_eq. Qed.

(* every bit of m is a bit of st: the form in which the facts below are plain logic *)
Lemma has_bits st m : has st m = true <-> forall i, N.testbit m i = true -> N.testbit st i = true.
Proof.
  rewrite has_true. split.
  - intros E i Hi. rewrite <- E, N.land_spec in Hi. apply andb_true_iff in Hi. tauto.
  - intro Hb. apply N.bits_inj. intro i. rewrite N.land_spec.
    destruct (N.testbit m i) eqn:Hi; [rewrite (Hb i Hi); reflexivity | apply andb_false_r].
Qed.

Lemma has_refl x : has x x = true.
Proof. apply has_bits. auto. Qed.

Lemma has_trans a b c : has a b = true -> has b c = true -> has a c = true.
Proof. rewrite !has_bits. auto. Qed.

Lemma has_lor_l st a m : has st m = true -> has (N.lor st a) m = true.
Proof. rewrite !has_bits. intros Hm i Hi. rewrite N.lor_spec, (Hm i Hi). reflexivity. Qed.

Lemma has_lor_r st a : has (N.lor st a) a = true.
Proof. apply has_bits. intros i Hi. rewrite N.lor_spec, Hi. apply orb_true_r. Qed.

Lemma has_lor_self st : has (N.lor st st) st = true.
Proof. apply has_lor_r. Qed.

Lemma has_lor_split st a b : has st (N.lor a b) = true <-> has st a = true /\ has st b = true.
Proof.
  rewrite !has_bits. split.
  - intro Hab. split; intros i Hi; apply Hab; rewrite N.lor_spec, Hi; [reflexivity | apply orb_true_r].
  - intros [Ha Hb] i Hi. rewrite N.lor_spec in Hi. apply orb_true_iff in Hi. destruct Hi; auto.
Qed.

Lemma lor_absorb st m : has st m = true -> N.lor st m = st.
Proof.
  rewrite has_bits. intro Hm. apply N.bits_inj. intro i. rewrite N.lor_spec.
  destruct (N.testbit m i) eqn:Hi; [rewrite (Hm i Hi); apply orb_true_r | apply orb_false_r].
Qed.

Lemma has_lor_ldiff a x m : has (N.lor a (N.ldiff x m)) m = has a m.
Proof. unfold has. rewrite N.land_lor_distr_l, N.land_ldiff, N.lor_0_r. reflexivity. Qed.

Lemma name_eqb_eq a b : name_eqb a b = true <-> a = b.
Proof.
  unfold name_eqb. destruct a as [a1 a2], b as [b1 b2]. simpl. rewrite andb_true_iff, !bytes_eqb_eq.
  split; [intros [-> ->]; reflexivity | intro E; inversion E; auto].
Qed.

Lemma get_feature_spec n fs f : get_feature n fs = Some f -> In f fs /\ fname f = n.
Proof.
  induction fs as [|g r IH]; simpl; [discriminate|].
  destruct (name_eqb (fname g) n) eqn:E.
  - intro X. inversion X; subst. apply name_eqb_eq in E. auto.
  - intro X. destruct (IH X). auto.
Qed.

Lemma find_space_spec s fs f : find_space s fs = Some f -> In f fs /\ f_space f = s.
Proof.
  induction fs as [|g r IH]; simpl; [discriminate|].
  destruct (bytes_eqb (f_space g) s) eqn:E.
  - intro X. inversion X; subst. apply bytes_eqb_eq in E. auto.
  - intro X. destruct (IH X). auto.
Qed.

Lemma mem_In s l : mem s l = true <-> In s l.
Proof.
  induction l as [|x r IH]; simpl; [split; [discriminate|tauto]|].
  rewrite orb_true_iff, IH, bytes_eqb_eq. tauto.
Qed.

Lemma In_cache_remove e s c : In e (cache_remove s c) -> In e c /\ ckey e <> s.
Proof.
  induction c as [|x r IH]; simpl; [tauto|].
  destruct (bytes_eqb (ckey x) s) eqn:E; simpl; [tauto|].
  intros [->|X]; [|tauto]. split; [auto|]. intro Y. rewrite Y, bytes_eqb_refl in E. discriminate.
Qed.

Lemma In_cache_put e e' c : In e (cache_put e' c) -> e = e' \/ In e c /\ ckey e <> ckey e'.
Proof.
  unfold cache_put. rewrite in_app_iff. simpl. intros [X|[X|[]]]; [right; exact (In_cache_remove _ _ _ X) | left; auto].
Qed.

Definition cache_of (l ca : cache) : cache := fold_left (fun ca e => cache_put e ca) l ca.

Lemma In_cache_of e : forall l ca, In e (cache_of l ca) -> In e ca \/ In e l.
Proof.
  induction l as [|x l IH]; intros ca Hin; simpl in *; [left; exact Hin|].
  destruct (IH _ Hin) as [X|X]; [|right; right; exact X].
  apply In_cache_put in X. destruct X as [->|[X _]]; [right; left; reflexivity | left; exact X].
Qed.

Lemma cache_get_In s c e : cache_get s c = Some e -> In e c /\ ckey e = s.
Proof.
  induction c as [|x r IH]; simpl; [discriminate|].
  destruct (bytes_eqb (ckey x) s) eqn:E.
  - intro X. inversion X; subst. apply bytes_eqb_eq in E. auto.
  - intro X. destruct (IH X). auto.
Qed.

Lemma In_cache_get e c : In e c -> cache_get (ckey e) c <> None.
Proof.
  induction c as [|x r IH]; simpl; [tauto|].
  intros [->|X].
  - rewrite bytes_eqb_refl. discriminate.
  - destruct (bytes_eqb (ckey x) (ckey e)); [discriminate | auto].
Qed.

Lemma cache_get_filter p s c e : cache_get s (filter p c) = Some e -> In e c /\ p e = true /\ ckey e = s.
Proof.
  intro X. apply cache_get_In in X. destruct X as [X1 X2]. apply filter_In in X1. tauto.
Qed.

Lemma In_cache_step e st f req ca : In e (cache_step st f req ca) -> e = (req, f) \/ In e ca.
Proof. unfold cache_step. intro X. apply In_cache_put in X. tauto. Qed.

Definition ukeys (c : cache) : Prop := forall e1 e2, In e1 c -> In e2 c -> ckey e1 = ckey e2 -> e1 = e2.

Lemma ukeys_put e c : ukeys c -> ukeys (cache_put e c).
Proof.
  intros U e1 e2 H1 H2 K. apply In_cache_put in H1, H2.
  destruct H1 as [->|[H1 N1]], H2 as [->|[H2 N2]]; auto; congruence.
Qed.

Lemma ukeys_nil : ukeys []. Proof. intros e1 e2 []. Qed.

Lemma m_tr_emit e m : m_tr (emit e m) = e :: m_tr m.
Proof. reflexivity. Qed.

Lemma features_of_some r cs : features_of r = Some cs -> r = Some (mkItem false (PFeatures cs)).
Proof. destruct r as [[[] []]|]; try discriminate. intro E. inversion E. reflexivity. Qed.

Lemma has_clear_ready b : has (clear_ready b) st_Ready = false.
Proof. unfold has, clear_ready. rewrite N.land_ldiff. reflexivity. Qed.

(* negotiateSession clears Ready on every error return: from any state, whatever came before *)
Lemma session_loop_error_not_ready fuel : forall c m ns t e,
  r_class (session_loop fuel c m ns t) = RErr e -> has (r_bits (session_loop fuel c m ns t)) st_Ready = false.
Proof.
  induction fuel as [|k IH]; intros c m ns t e; simpl; [discriminate|].
  destruct (has (m_bits m) st_Ready); [discriminate|].
  destruct (c_tee c && negb t); [apply IH|].
  destruct (negotiator_body c m ns) as [m1 [[[mask restart] ns1]|e'|]]; [apply IH| |discriminate].
  intros _. apply has_clear_ready.
Qed.
