(* C17/ProofsBits.v — single-bit reasoning on Style masks, and the table lemmas
   tying the constants of gen/Styling.v to bit positions. *)
From XV Require Import lib.Bytes gen.Styling C17.Model C17.ProofsScan.

Definition single (b : N) : Prop := exists k, b = (2 ^ k)%N.

Lemma land_pow2 m k : N.land m (2 ^ k) = if N.testbit m k then (2 ^ k)%N else 0%N.
Proof.
  apply N.bits_inj. intros j. rewrite N.land_spec, N.pow2_bits_eqb.
  destruct (N.eqb_spec k j) as [<-|Hn].
  - destruct (N.testbit m k); [symmetry; apply N.pow2_bits_true|symmetry; apply N.bits_0].
  - rewrite andb_false_r. destruct (N.testbit m k); [|symmetry; apply N.bits_0].
    symmetry. apply N.pow2_bits_false. exact Hn.
Qed.

Lemma pow2_nonzero k : (2 ^ k =? 0)%N = false.
Proof. apply N.eqb_neq, N.pow_nonzero. discriminate. Qed.

Lemma anyb_single m b k : b = (2 ^ k)%N -> anyb m b = N.testbit m k.
Proof.
  intros ->. unfold anyb. rewrite land_pow2.
  destruct (N.testbit m k); [rewrite pow2_nonzero|]; reflexivity.
Qed.

Lemma has_anyb m b : single b -> has m b = anyb m b.
Proof.
  intros [k ->]. unfold has. rewrite (anyb_single _ _ k eq_refl), land_pow2.
  destruct (N.testbit m k); [apply N.eqb_refl|]. rewrite N.eqb_sym. apply pow2_nonzero.
Qed.

Lemma anyb_lor m1 m2 b : anyb (N.lor m1 m2) b = anyb m1 b || anyb m2 b.
Proof. unfold anyb. rewrite N.land_lor_distr_l. destruct (N.land m1 b), (N.land m2 b); reflexivity. Qed.

Lemma anyb_ldiff m c b : single b -> anyb (N.ldiff m c) b = anyb m b && negb (anyb c b).
Proof. intros [k E]. rewrite !(anyb_single _ _ _ E). apply N.ldiff_spec. Qed.

Lemma anyb_0 b : anyb 0 b = false.
Proof. reflexivity. Qed.

Lemma anyb_self b b' : single b -> single b' -> anyb b b' = (b =? b')%N.
Proof.
  intros [k ->] [k' E']. rewrite (anyb_single _ _ _ E'). subst b'.
  rewrite N.pow2_bits_eqb.
  destruct (N.eqb_spec k k') as [->|Hn].
  - symmetry. apply N.eqb_refl.
  - symmetry. apply N.eqb_neq. intros H. apply N.pow_inj_r in H; [congruence|lia].
Qed.

Lemma land_zero_anyb m b : single b -> (N.land m b =? 0)%N = negb (anyb m b).
Proof. intros _. unfold anyb. rewrite negb_involutive. reflexivity. Qed.

Lemma single_log2 b : (2 ^ N.log2 b)%N = b -> single b.
Proof. intros H. exists (N.log2 b). symmetry. exact H. Qed.

Lemma single_BlockPre : single sBlockPre.
Proof. apply single_log2. reflexivity. Qed.

Definition all_bits : list N :=
  [sBlockPre; sBlockQuote; sSpanEmph; sSpanStrong; sSpanStrike; sSpanPre;
   sBlockPreStart; sBlockPreEnd; sBlockQuoteStart; sBlockQuoteEnd;
   sSpanEmphStart; sSpanEmphEnd; sSpanStrongStart; sSpanStrongEnd;
   sSpanStrikeStart; sSpanStrikeEnd; sSpanPreStart; sSpanPreEnd].

Lemma all_bits_single : Forall single all_bits.
Proof. repeat (apply Forall_cons; [apply single_log2; reflexivity|]). apply Forall_nil. Qed.

Lemma span_char_directive c : In c span_chars -> is_directive c = true.
Proof. intros H. span4 H; reflexivity. Qed.

Lemma single_style c : In c span_chars -> single (sk_style c).
Proof. intros H. apply single_log2. span4 H; reflexivity. Qed.
Lemma single_start c : In c span_chars -> single (sk_start c).
Proof. intros H. apply single_log2. span4 H; reflexivity. Qed.
Lemma single_end c : In c span_chars -> single (sk_end c).
Proof. intros H. apply single_log2. span4 H; reflexivity. Qed.

Lemma triple_single k : In k dir_triples ->
  single (fst (fst k)) /\ single (snd (fst k)) /\ single (snd k).
Proof.
  revert k. apply Forall_forall. unfold dir_triples, span_chars. cbn [map app].
  repeat (apply Forall_cons; [repeat split; apply single_log2; reflexivity|]). apply Forall_nil.
Qed.

Lemma style_eq c c' : In c span_chars -> In c' span_chars ->
  (sk_style c =? sk_style c')%N = byte_eqb c c'.
Proof.
  intros H H'. span4 H; span4 H'; reflexivity.
Qed.
Lemma start_eq c c' : In c span_chars -> In c' span_chars ->
  (sk_start c =? sk_start c')%N = byte_eqb c c'.
Proof.
  intros H H'. span4 H; span4 H'; reflexivity.
Qed.
Lemma end_eq c c' : In c span_chars -> In c' span_chars ->
  (sk_end c =? sk_end c')%N = byte_eqb c c'.
Proof.
  intros H H'. span4 H; span4 H'; reflexivity.
Qed.

(* a span bit of one class is never a bit of another class, nor a block bit *)
Definition span_bit_classes_disjoint : bool :=
  forallb (fun c => forallb (fun c' =>
     negb (sk_style c =? sk_start c')%N && negb (sk_style c =? sk_end c')%N && negb (sk_start c =? sk_end c')%N
     && negb (sk_start c =? sk_style c')%N && negb (sk_end c =? sk_style c')%N && negb (sk_end c =? sk_start c')%N)
     span_chars
     && forallb (fun b => negb (sk_style c =? b)%N && negb (sk_start c =? b)%N && negb (sk_end c =? b)%N)
          [sBlockPre; sBlockQuote; sBlockPreStart; sBlockPreEnd; sBlockQuoteStart; sBlockQuoteEnd]) span_chars.

Lemma disjoint_tbl : span_bit_classes_disjoint = true.
Proof. vm_compute. reflexivity. Qed.
