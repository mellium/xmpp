(* C17/ProofsLevel.v — one level against the checker: consistency of mask,
   clearMask and spanStack between two tokens ([lv_ok]) and after the prelude
   ([pre_ok]); [accepts]: the token a level returns is accepted by [bstep] from
   the level's open spans, one lemma per kind of token. *)
From XV Require Import lib.Bytes lib.ListAux gen.Styling C17.Model C17.ProofsScan C17.ProofsBits.

Ltac splits := repeat match goal with |- _ /\ _ => split end.

Lemma in_dir_triples k : In k dir_triples ->
  (exists c, In c span_chars /\ k = (sk_style c, sk_start c, sk_end c))
  \/ k = (sBlockPre, sBlockPreStart, sBlockPreEnd) \/ k = (sBlockQuote, sBlockQuoteStart, sBlockQuoteEnd).
Proof.
  unfold dir_triples. intros H. apply in_app_or in H. destruct H as [H|[H|[H|[]]]]; auto.
  apply in_map_iff in H. destruct H as [c [E Hc]]. left. exists c. auto.
Qed.

Lemma span_triple_in c : In c span_chars -> In (sk_style c, sk_start c, sk_end c) dir_triples.
Proof. intros H. unfold dir_triples. apply in_or_app. left. apply in_map_iff. exists c. auto. Qed.

Lemma bp_triple_in : In (sBlockPre, sBlockPreStart, sBlockPreEnd) dir_triples.
Proof. unfold dir_triples. apply in_or_app. right. left. reflexivity. Qed.
Lemma bq_triple_in : In (sBlockQuote, sBlockQuoteStart, sBlockQuoteEnd) dir_triples.
Proof. unfold dir_triples. apply in_or_app. right. right. left. reflexivity. Qed.

(* no start or end directive bit is set in [m] *)
Definition nodir (m : N) : Prop :=
  forall k, In k dir_triples -> anyb m (snd (fst k)) = false /\ anyb m (snd k) = false.

(* A level between two calls.  ok_dirs: a start or end bit in the mask is also
   in clearMask, so the next prelude takes it away; ok_impl: such a bit comes
   with its style bit; ok_spans: the span style bits that are not about to be
   cleared are exactly the open spans; ok_nodup, ok_chars: spanStack holds span
   characters, each at most once. *)
Record lv_ok (d : level) : Prop := mk_lv_ok {
  ok_dirs : forall k, In k dir_triples ->
     (anyb (l_mask d) (snd (fst k)) = true -> anyb (l_clear d) (snd (fst k)) = true) /\
     (anyb (l_mask d) (snd k) = true -> anyb (l_clear d) (snd k) = true);
  ok_impl : dir_implies_style (l_mask d) = true;
  ok_spans : forall c, In c span_chars ->
     anyb (l_mask d) (sk_style c) && negb (anyb (l_clear d) (sk_style c)) = in_bytes c (l_stack d);
  ok_nodup : NoDup (l_stack d);
  ok_chars : forall x, In x (l_stack d) -> In x span_chars }.

(* a level right after the prelude of scan *)
Record pre_ok (d : level) : Prop := mk_pre_ok {
  po_ok : lv_ok d; po_clear : l_clear d = 0%N; po_nl : l_nl d = false; po_nodir : nodir (l_mask d) }.

Lemma dir_implies_spec m : dir_implies_style m = true <->
  forall k, In k dir_triples ->
    (anyb m (snd (fst k)) = true -> anyb m (fst (fst k)) = true) /\
    (anyb m (snd k) = true -> anyb m (fst (fst k)) = true).
Proof.
  unfold dir_implies_style. rewrite forallb_forall.
  split; intros H [[s a] e] Hk; specialize (H _ Hk); cbn [fst snd] in *.
  - rewrite andb_true_iff, !implb_true_iff in H. exact H.
  - rewrite andb_true_iff, !implb_true_iff. exact H.
Qed.

Lemma nodir_implies m : nodir m -> dir_implies_style m = true.
Proof.
  intros H. apply dir_implies_spec. intros k Hk. destruct (H k Hk) as [H1 H2].
  split; intros E; congruence.
Qed.

Lemma dir_implies_lor m1 m2 :
  dir_implies_style m1 = true -> dir_implies_style m2 = true -> dir_implies_style (N.lor m1 m2) = true.
Proof.
  rewrite !dir_implies_spec. intros H1 H2 k Hk. rewrite !anyb_lor.
  destruct (H1 k Hk) as [A1 E1]. destruct (H2 k Hk) as [A2 E2].
  split; intros H; apply orb_true_iff in H; apply orb_true_iff; destruct H as [H|H]; auto.
Qed.

Lemma level0_ok : lv_ok level0.
Proof.
  constructor; cbn.
  - intros k _. split; intros H; discriminate.
  - reflexivity.
  - intros c _. reflexivity.
  - constructor.
  - intros x [].
Qed.

Lemma lv_ok_flags d d' :
  l_mask d' = l_mask d -> l_clear d' = l_clear d -> l_stack d' = l_stack d -> lv_ok d -> lv_ok d'.
Proof.
  intros E1 E2 E3 [H1 H2 H3 H4 H5]. constructor; rewrite ?E1, ?E2, ?E3; assumption.
Qed.

Lemma lv_ok_set_run d : lv_ok d -> lv_ok (set_run d).
Proof. apply lv_ok_flags; reflexivity. Qed.
Lemma lv_ok_set_nl d : lv_ok d -> lv_ok (set_nl d).
Proof. apply lv_ok_flags; reflexivity. Qed.
Lemma lv_ok_reset d : lv_ok d -> lv_ok (reset_lv d).
Proof. apply lv_ok_flags; reflexivity. Qed.

Lemma prelude_mask d b : single b ->
  anyb (l_mask (prelude_lv d)) b =
  anyb (l_mask d) b && negb (if l_nl d then anyb sBlockQuote b else false) && negb (anyb (l_clear d) b).
Proof.
  intros Sb. unfold prelude_lv. destruct d as [m c q nl r s]. cbn [l_nl l_mask l_clear].
  destruct nl; cbn [l_mask l_clear set_mask]; rewrite !anyb_ldiff by exact Sb; [reflexivity|].
  rewrite andb_true_r. reflexivity.
Qed.

Lemma prelude_cleared d b : single b ->
  (anyb (l_mask d) b = true -> anyb (l_clear d) b = true) -> anyb (l_mask (prelude_lv d)) b = false.
Proof.
  intros Sb H. rewrite prelude_mask by exact Sb.
  destruct (anyb (l_mask d) b); [rewrite H by reflexivity; apply andb_false_r|reflexivity].
Qed.

Lemma prelude_ok d : lv_ok d -> pre_ok (prelude_lv d).
Proof.
  intros [H1 H2 H3 H4 H5].
  assert (ND : nodir (l_mask (prelude_lv d))).
  { intros k Hk. destruct (triple_single k Hk) as [_ [Sa Se]]. destruct (H1 k Hk) as [A E].
    split; apply prelude_cleared; assumption. }
  constructor; [|apply prelude_clear|apply prelude_nl|exact ND].
  constructor.
  - intros k Hk. destruct (ND k Hk) as [A E]. split; intros H; congruence.
  - apply nodir_implies, ND.
  - intros c Hc. rewrite prelude_clear, prelude_stack, anyb_0, andb_true_r.
    rewrite prelude_mask by (apply single_style, Hc).
    rewrite <- (H3 c Hc).
    replace (if l_nl d then anyb sBlockQuote (sk_style c) else false) with false
      by (destruct (l_nl d); [span4 Hc|]; reflexivity).
    cbn [negb]. rewrite andb_true_r. reflexivity.
  - rewrite prelude_stack. exact H4.
  - rewrite prelude_stack. exact H5.
Qed.

Lemma prelude_sub d b : single b ->
  anyb (l_mask (prelude_lv d)) b = true -> anyb (l_mask d) b = true.
Proof.
  intros Sb. rewrite prelude_mask by exact Sb. intros H.
  apply andb_true_iff in H. destruct H as [H _]. apply andb_true_iff in H. apply H.
Qed.

Lemma prelude_bp d : anyb (l_mask (prelude_lv d)) sBlockPre = true -> anyb (l_mask d) sBlockPre = true.
Proof. apply prelude_sub, single_BlockPre. Qed.

Lemma pre_ok_spans d c : pre_ok d -> In c span_chars -> anyb (l_mask d) (sk_style c) = in_bytes c (l_stack d).
Proof.
  intros [O C _ _] Hc. pose proof (ok_spans d O c Hc) as H.
  rewrite C, anyb_0, andb_true_r in H. exact H.
Qed.

(* What a step may add to mask (M) and clearMask (C): a start or end bit only
   together with its style bit, and cleared again at the next token.  M and C
   are built from the constants, so callers decide this by evaluation. *)
Definition dirs_ok (M C : N) : bool :=
  dir_implies_style M &&
  forallb (fun k => let '(_, a, e) := k in implb (anyb M a) (anyb C a) && implb (anyb M e) (anyb C e)) dir_triples.

Lemma dirs_ok_spec M C : dirs_ok M C = true ->
  dir_implies_style M = true /\
  forall k, In k dir_triples ->
    (anyb M (snd (fst k)) = true -> anyb C (snd (fst k)) = true) /\
    (anyb M (snd k) = true -> anyb C (snd k) = true).
Proof.
  unfold dirs_ok. rewrite andb_true_iff, forallb_forall. intros [HI H]. split; [exact HI|].
  intros [[s a] e] Hk. specialize (H _ Hk). cbn [fst snd].
  rewrite andb_true_iff, !implb_true_iff in H. exact H.
Qed.

(* a style bit that the mask has already may be counted among the bits a step
   adds: an end directive sets its end bit only *)
Lemma add_mask_style d s M C :
  single s -> anyb (l_mask d) s = true -> add_mask d M C = add_mask d (N.lor s M) C.
Proof.
  intros [k ->] H. rewrite (anyb_single _ _ k eq_refl) in H.
  unfold add_mask. rewrite N.lor_assoc. f_equal. f_equal.
  apply N.bits_inj. intros j. rewrite N.lor_spec, N.pow2_bits_eqb.
  destruct (N.eqb_spec k j) as [<-|_]; [rewrite H; reflexivity|symmetry; apply orb_false_r].
Qed.

(* the nine ways a bit of one span character can meet a bit of another: one
   table, by computation; a field [sb_X_Y] looks for the Y bit in the X bit *)
Record span_bits (c c' : byte) : Prop := mk_span_bits {
  sb_style_style : anyb (sk_style c) (sk_style c') = byte_eqb c' c;
  sb_start_start : anyb (sk_start c) (sk_start c') = byte_eqb c' c;
  sb_end_end : anyb (sk_end c) (sk_end c') = byte_eqb c' c;
  sb_style_start : anyb (sk_style c) (sk_start c') = false;
  sb_style_end : anyb (sk_style c) (sk_end c') = false;
  sb_start_style : anyb (sk_start c) (sk_style c') = false;
  sb_start_end : anyb (sk_start c) (sk_end c') = false;
  sb_end_style : anyb (sk_end c) (sk_style c') = false;
  sb_end_start : anyb (sk_end c) (sk_start c') = false }.

Lemma span_table c c' : In c span_chars -> In c' span_chars -> span_bits c c'.
Proof. intros H H'. span4 H; span4 H'; constructor; reflexivity. Qed.

Lemma in_bytes_cons c x s : in_bytes c (x :: s) = byte_eqb c x || in_bytes c s.
Proof. reflexivity. Qed.

Lemma add_mask_set_stack_same d M C : set_stack (add_mask d M C) (l_stack d) = add_mask d M C.
Proof. destruct d; reflexivity. Qed.

Lemma pre_ok_lv d : pre_ok d -> lv_ok d.
Proof. apply po_ok. Qed.

(* the span bits of [m] as the checker reads them: the start bits, the end
   bits, and as style bits the spans [st] *)
Definition shows (m : N) (a e : byte -> bool) (st : bytes) : Prop :=
  forall c, In c span_chars ->
    anyb m (sk_start c) = a c /\ anyb m (sk_end c) = e c /\ anyb m (sk_style c) = in_bytes c st.

Lemma span_view m a e st : shows m a e st ->
  filter (fun c => anyb m (sk_start c)) span_chars = filter a span_chars /\
  filter (fun c => anyb m (sk_end c)) span_chars = filter e span_chars /\
  spans_match m st = true.
Proof.
  intros H. split; [|split].
  - apply filter_ext_in. intros c Hc. apply (H c Hc).
  - apply filter_ext_in. intros c Hc. apply (H c Hc).
  - apply forallb_forall. intros c Hc. destruct (H c Hc) as [_ [_ ->]]. apply eqb_reflx.
Qed.

Lemma filter_eqb c : In c span_chars -> filter (fun c' => byte_eqb c' c) span_chars = [c].
Proof. intros Hc. span4 Hc; reflexivity. Qed.

Lemma existsb_ext_in {A} (f g : A -> bool) l :
  (forall a, In a l -> f a = g a) -> existsb f l = existsb g l.
Proof.
  induction l as [|x l IH]; intros H; [reflexivity|]. cbn.
  rewrite (H x (or_introl eq_refl)), IH; [reflexivity|]. intros a Ha. apply H. right. exact Ha.
Qed.

Lemma lor_dir_bits md ms s a e : nodir md -> In (s, a, e) dir_triples ->
  anyb (N.lor md ms) a = anyb ms a /\ anyb (N.lor md ms) e = anyb ms e.
Proof. intros ND Hk. destruct (ND _ Hk) as [A E]. cbn [fst snd] in *. rewrite !anyb_lor, A, E. split; reflexivity. Qed.

Lemma any_start_lor md ms : nodir md -> any_start (N.lor md ms) = any_start ms.
Proof.
  intros ND. unfold any_start. apply existsb_ext_in. intros [[s a] e] Hk.
  apply (lor_dir_bits md ms s a e ND Hk).
Qed.

Lemma any_start_false m : nodir m -> any_start m = false.
Proof. intros H. rewrite <- (N.lor_0_r m), (any_start_lor m 0 H). reflexivity. Qed.

Lemma nl_guard (st t : bytes) : st = [] \/ has_nl t = false -> is_nil st || negb (has_nl t) = true.
Proof. intros [ -> | -> ]; [reflexivity|apply orb_true_r]. Qed.

Lemma tick_guard (st : bytes) m : (In c_tick st -> any_start m = false) ->
  negb (in_bytes c_tick st) || negb (any_start m) = true.
Proof.
  intros H. destruct (in_bytes c_tick st) eqn:I; [|reflexivity]. apply in_bytes_In in I. rewrite (H I). reflexivity.
Qed.

Lemma bstep_plain st m t :
  dir_implies_style m = true -> (st = [] \/ has_nl t = false) ->
  (In c_tick st -> any_start m = false) -> shows m (fun _ => false) (fun _ => false) st ->
  bstep st m t = Some st.
Proof.
  intros H1 H2 H3 H4. unfold bstep. rewrite H1, (nl_guard st t H2), (tick_guard st m H3).
  destruct (span_view m (fun _ => false) (fun _ => false) st H4) as [-> [-> ->]]. reflexivity.
Qed.

Lemma bstep_push st m t c :
  In c span_chars -> ~ In c st -> ~ In c_tick st ->
  dir_implies_style m = true -> (st = [] \/ has_nl t = false) ->
  shows m (fun c' => byte_eqb c' c) (fun _ => false) (c :: st) ->
  bstep st m t = Some (c :: st).
Proof.
  intros Hc Hn Ht H1 H2 H4. unfold bstep.
  rewrite H1, (nl_guard st t H2), (proj2 (in_bytes_false _ _) Ht).
  destruct (span_view m (fun c' => byte_eqb c' c) (fun _ => false) (c :: st) H4) as [-> [-> SM]].
  rewrite (filter_eqb c Hc). cbn [filter span_chars]. rewrite (proj2 (in_bytes_false _ _) Hn), SM. reflexivity.
Qed.

Lemma bstep_pop st' m t c :
  In c span_chars ->
  dir_implies_style m = true -> has_nl t = false ->
  (In c_tick (c :: st') -> any_start m = false) ->
  shows m (fun _ => false) (fun c' => byte_eqb c' c) (c :: st') ->
  bstep (c :: st') m t = Some st'.
Proof.
  intros Hc H1 H2 H3 H4. unfold bstep. rewrite H1, H2, (tick_guard _ m H3).
  destruct (span_view m (fun _ => false) (fun c' => byte_eqb c' c) (c :: st') H4) as [-> [-> ->]].
  rewrite (filter_eqb c Hc). cbn [filter span_chars]. rewrite byte_eqb_refl. reflexivity.
Qed.

(* A token that adds [M] to the mask and [C] to clearMask of a level fresh from
   its prelude and leaves the stack [s']; [big] are the spans open while the
   token is shown: those of before and the one it starts. *)
Lemma add_event d M C s' big a e :
  pre_ok d -> dirs_ok M C = true -> NoDup s' -> (forall x, In x s' -> In x span_chars) ->
  (forall c, In c span_chars ->
     anyb M (sk_start c) = a c /\ anyb M (sk_end c) = e c /\
     in_bytes c (l_stack d) || anyb M (sk_style c) = in_bytes c big /\
     in_bytes c big && negb (anyb C (sk_style c)) = in_bytes c s') ->
  lv_ok (set_stack (add_mask d M C) s') /\ shows (N.lor (l_mask d) M) a e big.
Proof.
  intros P HM Nd Ch H. pose proof (po_nodir d P) as ND. destruct (dirs_ok_spec M C HM) as [HI HC]. split.
  - constructor; cbn [set_stack add_mask set_mask l_mask l_clear l_stack]; rewrite ?(po_clear d P); auto.
    + intros k Hk. destruct (ND k Hk) as [A E]. rewrite !anyb_lor, A, E, !anyb_0. exact (HC k Hk).
    + apply dir_implies_lor; [apply nodir_implies, ND|exact HI].
    + intros c Hc. rewrite !anyb_lor, anyb_0, (pre_ok_spans d c P Hc).
      destruct (H c Hc) as (_ & _ & -> & E). exact E.
  - intros c Hc. destruct (H c Hc) as (A & E & S & _). destruct (ND _ (span_triple_in c Hc)) as [A0 E0].
    cbn [fst snd] in *. rewrite !anyb_lor, A0, E0, (pre_ok_spans d c P Hc). auto.
Qed.

(* One step of a level against the checker: the level [d], fresh from its
   prelude, returns the token [t] and is left as [d']; the checker accepts [t]
   from the spans open at [d] and arrives at those open at [d'], and [d'] is
   consistent. *)
Definition accepts (d : level) (t : bytes) (d' : level) : Prop :=
  lv_ok d' /\ bstep (l_stack d) (l_mask d') t = Some (l_stack d').

Lemma accepts_flags d t d' d'' :
  l_mask d'' = l_mask d' -> l_clear d'' = l_clear d' -> l_stack d'' = l_stack d' ->
  accepts d t d' -> accepts d t d''.
Proof. intros E1 E2 E3 [O B]. split; [exact (lv_ok_flags d' d'' E1 E2 E3 O)|rewrite E1, E3; exact B]. Qed.

Lemma accepts_plain d t : pre_ok d -> (l_stack d = [] \/ has_nl t = false) -> accepts d t d.
Proof.
  intros P G. pose proof (po_nodir d P) as ND. split; [apply po_ok, P|].
  apply bstep_plain; auto using nodir_implies, any_start_false.
  intros c Hc. destruct (ND _ (span_triple_in c Hc)). auto using pre_ok_spans.
Qed.

Lemma accepts_push d t c :
  pre_ok d -> In c span_chars -> ~ In c (l_stack d) -> (N.land (l_mask d) sSpanPre =? 0)%N = true ->
  (l_stack d = [] \/ has_nl t = false) -> accepts d t (push_lv d c).
Proof.
  intros P Hc Nin Pre G. pose proof (po_ok d P) as O.
  destruct (add_event d (N.lor (sk_style c) (sk_start c)) (sk_start c) (c :: l_stack d) (c :: l_stack d)
              (fun c' => byte_eqb c' c) (fun _ => false) P) as [O' Sh].
  - span4 Hc; reflexivity.
  - constructor; [exact Nin|apply (ok_nodup d O)].
  - intros x [<-|Hx]; [exact Hc|apply (ok_chars d O), Hx].
  - intros c' Hc'. pose proof (span_table c c' Hc Hc') as T.
    rewrite !anyb_lor, (sb_style_start _ _ T), (sb_start_start _ _ T), (sb_style_end _ _ T),
      (sb_start_end _ _ T), (sb_style_style _ _ T), (sb_start_style _ _ T), in_bytes_cons.
    cbn [orb negb]. rewrite orb_false_r, andb_true_r. auto using orb_comm.
  - split; [exact O'|]. apply bstep_push; auto; [|apply (ok_impl _ O')].
    (* a pre span is open iff its style bit is set *)
    intros Ht. apply in_bytes_In in Ht. rewrite <- (pre_ok_spans d c_tick P) in Ht by (cbn; tauto).
    unfold anyb in Ht. change (sk_style c_tick) with sSpanPre in Ht. rewrite Pre in Ht. discriminate.
Qed.

Lemma accepts_pop d t c st : pre_ok d -> l_stack d = c :: st -> has_nl t = false -> accepts d t (pop_lv d c).
Proof.
  intros P S G. destruct (po_ok d P) as [_ _ _ Nd Ch]. rewrite S in Nd, Ch.
  apply NoDup_cons_iff in Nd. destruct Nd as [Nin Nd].
  assert (Hc : In c span_chars) by (apply Ch; left; reflexivity).
  assert (Hs : anyb (l_mask d) (sk_style c) = true).
  { rewrite (pre_ok_spans d c P Hc), S. apply in_bytes_In. left. reflexivity. }
  unfold pop_lv. rewrite (add_mask_style d _ _ _ (single_style c Hc) Hs), S. cbn [tl].
  destruct (add_event d (N.lor (sk_style c) (sk_end c)) (N.lor (sk_style c) (sk_end c)) st (c :: st)
              (fun _ => false) (fun c' => byte_eqb c' c) P) as [O' Sh].
  - span4 Hc; reflexivity.
  - exact Nd.
  - intros x Hx. apply Ch. right. exact Hx.
  - intros c' Hc'. pose proof (span_table c c' Hc Hc') as T.
    rewrite !anyb_lor, (sb_style_start _ _ T), (sb_end_start _ _ T), (sb_style_end _ _ T),
      (sb_end_end _ _ T), (sb_style_style _ _ T), (sb_end_style _ _ T), S, in_bytes_cons.
    cbn [orb]. rewrite !orb_false_r. destruct (byte_eqb c' c) eqn:E; cbn [orb negb andb].
    + apply byte_eqb_eq in E. subst c'. splits; auto. symmetry. apply in_bytes_false, Nin.
    + rewrite orb_false_r, andb_true_r. auto.
  - split; [exact O'|]. cbn [set_stack add_mask set_mask l_mask l_stack]. rewrite S.
    apply bstep_pop; auto; [apply (ok_impl _ O')|].
    intros _. rewrite (any_start_lor _ _ (po_nodir d P)). span4 Hc; reflexivity.
Qed.

Definition no_span (M C : N) : bool :=
  forallb (fun c => negb (anyb M (sk_start c) || anyb M (sk_end c) || anyb M (sk_style c) || anyb C (sk_style c)))
          span_chars.

Lemma accepts_block d t M C :
  pre_ok d -> l_stack d = [] -> dirs_ok M C = true -> no_span M C = true -> accepts d t (add_mask d M C).
Proof.
  intros P S HM NS. pose proof (po_ok d P) as O. rewrite <- add_mask_set_stack_same.
  destruct (add_event d M C (l_stack d) (l_stack d) (fun _ => false) (fun _ => false) P HM
              (ok_nodup d O) (ok_chars d O)) as [O' Sh].
  - intros c Hc. unfold no_span in NS. rewrite forallb_forall in NS. specialize (NS c Hc).
    rewrite negb_true_iff, !orb_false_iff in NS. destruct NS as [[[-> ->] ->] ->].
    rewrite orb_false_r, andb_true_r. auto.
  - split; [exact O'|]. cbn [set_stack l_stack]. apply bstep_plain; auto; [apply (ok_impl _ O')|].
    rewrite S. intros [].
Qed.

(* OR-ing the mask of an enclosing quote level (no directive bits, no span
   style bits) does not change the verdict *)
Lemma bstep_lor st md ms t st' :
  nodir md -> (forall c, In c span_chars -> anyb md (sk_style c) = false) ->
  bstep st ms t = Some st' -> bstep st (N.lor md ms) t = Some st'.
Proof.
  intros ND NS. unfold bstep.
  destruct (dir_implies_style ms) eqn:D; [|discriminate].
  rewrite (dir_implies_lor md ms (nodir_implies md ND) D), (any_start_lor md ms ND).
  assert (F : forall c, In c span_chars ->
     anyb (N.lor md ms) (sk_start c) = anyb ms (sk_start c) /\ anyb (N.lor md ms) (sk_end c) = anyb ms (sk_end c))
    by (intros c Hc; apply (lor_dir_bits md ms _ _ _ ND (span_triple_in c Hc))).
  rewrite (filter_ext_in _ _ _ (fun c Hc => proj1 (F c Hc))), (filter_ext_in _ _ _ (fun c Hc => proj2 (F c Hc))).
  assert (SM : forall s, spans_match (N.lor md ms) s = spans_match ms s).
  { intros s. apply forallb_ext_in. intros c Hc. rewrite anyb_lor, (NS c Hc). reflexivity. }
  (* SM cannot be rewritten under the match, where the stack is [c :: st] for the pattern variable c *)
  destruct (filter (fun c => anyb ms (sk_start c)) span_chars) as [|c1 [|c2 l1]];
    destruct (filter (fun c => anyb ms (sk_end c)) span_chars) as [|e1 [|e2 l2]];
    rewrite ?SM; exact (fun H => H).
Qed.
