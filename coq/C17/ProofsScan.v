(* C17/ProofsScan.v — lemmas about the split function: UTF-8 helpers, the span
   loop turn by turn, the leaf scanners and the branches of scan; bounds on the
   advance, extension stability, repeatable requests for more data, well-formed
   chains. *)
(* With ZifyBool lia translates every boolean equation in the context: where there
   are several and the goal needs none of them, the proofs clear them first. *)
From Coq Require Import ZifyBool ZifyN.
From XV Require Import lib.Bytes lib.ListAux gen.Styling C17.Model.

Lemma fence_is : fence = [c_tick; c_tick; c_tick].
Proof. vm_compute. reflexivity. Qed.

Lemma is_space_rune_error : is_space rune_error = false.
Proof. vm_compute. reflexivity. Qed.

Definition low (b : byte) : bool := (bN b <? 128)%N.

Lemma is_nl_eq b : is_nl b = true <-> b = c_nl.
Proof. split; [destruct b; intros H; first [discriminate H | reflexivity] | intros ->; reflexivity]. Qed.

Lemma is_nl_low b : is_nl b = true -> low b = true.
Proof. intros H. apply is_nl_eq in H. subst b. reflexivity. Qed.

Lemma directive_span_char c : is_directive c = true -> In c span_chars.
Proof. destruct c; intros H; try discriminate H; cbn; tauto. Qed.

Lemma in_span_chars c : In c span_chars -> c = c_under \/ c = c_star \/ c = c_tilde \/ c = c_tick.
Proof. cbn. intuition. Qed.

Ltac span4 Hc := apply in_span_chars in Hc; destruct Hc as [ -> | [ -> | [ -> | -> ]]].

Lemma is_directive_low b : is_directive b = true -> low b = true.
Proof. intros H. apply directive_span_char in H. span4 H; reflexivity. Qed.

Lemma is_directive_not_nl b : is_directive b = true -> is_nl b = false.
Proof. intros H. apply directive_span_char in H. span4 H; reflexivity. Qed.

Lemma directive_not_x00 b : is_directive b = true -> byte_eqb b x00 = false.
Proof. intros H. apply directive_span_char in H. span4 H; reflexivity. Qed.

Lemma gt_low : low c_gt = true.
Proof. reflexivity. Qed.

Lemma lead_sz b sz lo hi : lead b = Some (sz, lo, hi) ->
  (sz = 2 \/ sz = 3 \/ sz = 4) /\ (128 <= lo)%N.
Proof.
  unfold lead.
  repeat match goal with |- context [if ?c then _ else _] => destruct c end;
    intros H; inversion H; subst; split; auto; lia.
Qed.

(* The lemmas on decode_rune and full_rune go by cases on the class of the lead
   byte (lead_sz) and on how many bytes follow; [ifs] then splits the range
   tests that are left. *)
Ltac ifs :=
  repeat match goal with
         | |- context [if ?c then _ else _] => destruct c eqn:?
         | H : context [if ?c then _ else _] |- _ => destruct c eqn:?
         end.

Lemma full_rune_ext s e : full_rune s = true ->
  decode_rune (s ++ e) = decode_rune s /\ full_rune (s ++ e) = true.
Proof.
  destruct s as [|p0 t]; [discriminate|].
  unfold full_rune, decode_rune. cbn [app].
  destruct (bN p0 <? 128)%N; [split; reflexivity|].
  destruct (lead (bN p0)) as [[[sz lo] hi]|] eqn:L; [|split; reflexivity].
  destruct (lead_sz _ _ _ _ L) as [[ -> | [ -> | -> ]] _];
    destruct t as [|p1 [|p2 [|p3 t3]]]; cbn [shorter app negb Nat.leb];
    intros H; ifs; try discriminate; split; first [reflexivity|assumption].
Qed.

Lemma space_full s : is_space (fst (decode_rune s)) = true -> full_rune s = true.
Proof.
  destruct s as [|p0 t]; [unfold decode_rune; cbn [fst]; rewrite is_space_rune_error; discriminate|].
  unfold full_rune, decode_rune.
  destruct (bN p0 <? 128)%N; [reflexivity|].
  destruct (lead (bN p0)) as [[[sz lo] hi]|] eqn:L; [|reflexivity].
  destruct (shorter (p0 :: t) sz); cbn [negb fst]; [|reflexivity].
  rewrite is_space_rune_error. discriminate.
Qed.

Lemma low_full s : existsb low s = true -> full_rune s = true.
Proof.
  destruct s as [|p0 t]; [discriminate|].
  unfold full_rune. cbn [existsb]. unfold low at 1.
  destruct (bN p0 <? 128)%N; [reflexivity|]. cbn [orb].
  destruct (lead (bN p0)) as [[[sz lo] hi]|] eqn:L; [|reflexivity].
  destruct (lead_sz _ _ _ _ L) as [[ -> | [ -> | -> ]] Hlo];
    destruct t as [|p1 [|p2 [|p3 t3]]]; cbn [shorter negb existsb orb]; intros H;
    try reflexivity; try discriminate;
    unfold not_cont, out_rng, low in *; ifs; lia.
Qed.

Lemma decode_rune_size s : s <> [] ->
  1 <= snd (decode_rune s) /\ snd (decode_rune s) <= length s.
Proof.
  destruct s as [|p0 t]; [congruence|]. intros _.
  unfold decode_rune.
  destruct (bN p0 <? 128)%N; [cbn; lia|].
  destruct (lead (bN p0)) as [[[sz lo] hi]|] eqn:L; [|cbn; lia].
  destruct (lead_sz _ _ _ _ L) as [[ -> | [ -> | -> ]] _];
    destruct t as [|p1 [|p2 [|p3 t3]]]; cbn [shorter Nat.leb]; ifs; clear - p0; cbn; lia.
Qed.

Lemma head_is_app s e b : s <> [] -> head_is (s ++ e) b = head_is s b.
Proof. destruct s; [congruence|reflexivity]. Qed.

Lemma firstn_app_le {A} (l e : list A) n : n <= length l -> firstn n (l ++ e) = firstn n l.
Proof. intros H. rewrite firstn_app. replace (n - length l) with 0 by lia. cbn. apply app_nil_r. Qed.

Lemma skipn_app_le {A} (l e : list A) n : n <= length l -> skipn n (l ++ e) = skipn n l ++ e.
Proof. intros H. rewrite skipn_app. replace (n - length l) with 0 by lia. reflexivity. Qed.

Definition pop_lv (d : level) (c : byte) : level :=
  set_stack (add_mask d (sk_end c) (N.lor (sk_style c) (sk_end c))) (tl (l_stack d)).
Definition push_lv (d : level) (c : byte) : level :=
  set_stack (add_mask d (N.lor (sk_style c) (sk_start c)) (sk_start c)) (c :: l_stack d).

Lemma top_is_cons d k st b : l_stack d = k :: st -> top_is d b = byte_eqb b k.
Proof. unfold top_is. intros ->. reflexivity. Qed.

Lemma top_is_nil d b : l_stack d = [] -> top_is d b = false.
Proof. unfold top_is. intros ->. reflexivity. Qed.

(* One turn of the loop of scanSpan, at byte [b] with index [i], the bytes
   before it reversed in [pr] and those after it in [rest]: the token the loop
   returns, or the start candidate it goes on with.  Only the choice of the
   candidate looks at [rest]. *)
Definition span_step (d : level) (pr : bytes) (b : byte) (rest : bytes) (i : nat)
           (st : option nat) (sd : byte) : lres + option nat * byte :=
  if is_nl b then inl (LTok (S i) d)
  else if negb (is_directive b) then inr (st, sd)
  else if top_is d b then inl (if i =? 0 then LTok 1 (pop_lv d b) else LTok i d)
  else if (match st with None => true | Some _ => false end) && (N.land (l_mask d) sSpanPre =? 0)%N then
    inr (if ((i =? 0) || is_space (fst (decode_last_rune_rev pr)))
            && negb (is_space (fst (decode_rune rest))) && negb (head_is rest b)
         then (Some i, b) else (st, sd))
  else if byte_eqb b sd && negb (is_space (fst (decode_last_rune_rev pr)))
          && (match st with None => 0 <? i | Some s => S s <? i end) then
    inl (match st with Some (S s') => LTok (S s') d | _ => LTok 1 (push_lv d b) end)
  else inr (st, sd).

Lemma span_loop_cons d pr b rest i st sd :
  span_loop d pr (b :: rest) i st sd =
  match span_step d pr b rest i st sd with
  | inl r => Some r
  | inr (st', sd') => span_loop d (b :: pr) rest (S i) st' sd'
  end.
Proof.
  cbn [span_loop]. unfold span_step, pop_lv, push_lv, end_bits, start_bits.
  destruct (is_nl b); [reflexivity|].
  destruct (negb (is_directive b)); [reflexivity|].
  destruct (top_is d b); [destruct (i =? 0); reflexivity|].
  destruct (_ && (N.land _ _ =? 0)%N).
  - destruct (_ || _), (is_space (fst (decode_rune rest))), (head_is rest b); reflexivity.
  - destruct (_ && _ && _); [destruct st as [[|s']|]|]; reflexivity.
Qed.

Lemma span_step_plain d pr b rest i st sd :
  is_nl b = false -> is_directive b = false -> span_step d pr b rest i st sd = inr (st, sd).
Proof. unfold span_step. intros -> ->. reflexivity. Qed.

Lemma span_step_inl d pr b rest rest2 i st sd r :
  span_step d pr b rest i st sd = inl r -> span_step d pr b rest2 i st sd = inl r.
Proof.
  unfold span_step.
  destruct (is_nl b), (negb (is_directive b)), (top_is d b); try exact (fun H => H).
  destruct (_ && (N.land _ _ =? 0)%N); [discriminate|exact (fun H => H)].
Qed.

Lemma span_step_ext d pr b rest e i st sd : full_rune rest = true ->
  span_step d pr b (rest ++ e) i st sd = span_step d pr b rest i st sd.
Proof.
  intros F. unfold span_step. rewrite (proj1 (full_rune_ext _ e F)), head_is_app; [reflexivity|].
  intros ->. discriminate.
Qed.

(* the start candidate: none yet, or one chosen while no pre span is open *)
Definition cand_ok (d : level) (st : option nat) (sd : byte) : Prop :=
  match st with
  | None => sd = x00
  | Some _ => (N.land (l_mask d) sSpanPre =? 0)%N = true
  end.

(* a byte the loop passes *)
Definition quiet (d : level) (x : byte) : Prop :=
  is_nl x = false /\ (is_directive x = true -> top_is d x = false).

(* The byte [c] at index [J] at which the loop returns, and what it returns: a
   newline; the end directive of the innermost open span (the directive itself
   when it comes first, else the text before it); or the end of a span whose
   start was seen at an index s before (the start directive when s = 0, else
   the text before it). *)
Inductive commit (d : level) (J : nat) (c : byte) : lres -> Prop :=
| cm_nl : is_nl c = true -> commit d J c (LTok (S J) d)
| cm_pop : is_nl c = false -> top_is d c = true -> J = 0 -> commit d J c (LTok 1 (pop_lv d c))
| cm_text : is_nl c = false -> top_is d c = true -> 0 < J -> commit d J c (LTok J d)
| cm_push : is_nl c = false -> top_is d c = false -> is_directive c = true ->
            (N.land (l_mask d) sSpanPre =? 0)%N = true -> 1 < J ->
            commit d J c (LTok 1 (push_lv d c))
| cm_before s : is_nl c = false -> top_is d c = false -> is_directive c = true ->
            (N.land (l_mask d) sSpanPre =? 0)%N = true -> 0 < s -> s + 1 < J ->
            commit d J c (LTok s d).

Lemma commit_tok d J c r : commit d J c r ->
  exists n d', r = LTok n d' /\ 0 < n <= S J /\ l_qs d' = l_qs d.
Proof. intros []; eexists _, _; (split; [reflexivity|]); (split; [lia|reflexivity]). Qed.

Lemma span_step_spec d pr b rest i st sd : cand_ok d st sd ->
  match span_step d pr b rest i st sd with
  | inl r => commit d i b r
  | inr (st', sd') => quiet d b /\ cand_ok d st' sd'
  end.
Proof.
  unfold span_step, quiet. intros C.
  destruct (is_nl b) eqn:Nl; [apply cm_nl, Nl|].
  destruct (is_directive b) eqn:Dir; cbn [negb]; [|split; [split; [reflexivity|discriminate]|exact C]].
  destruct (top_is d b) eqn:Top.
  { destruct (Nat.eqb_spec i 0) as [->|]; [apply cm_pop|apply cm_text]; auto; lia. }
  destruct (_ && (N.land _ _ =? 0)%N) eqn:G.
  { apply andb_true_iff in G. destruct G as [_ Pre].
    destruct (_ && _ && _); (split; [auto|]); [exact Pre|exact C]. }
  destruct (_ && _ && _) eqn:M; [|split; [auto|exact C]].
  rewrite !andb_true_iff in M. destruct M as [[Sd _] Lt].
  destruct st as [s|].
  2:{ (* no candidate: the start directive is still the zero byte *)
      rewrite C, (directive_not_x00 _ Dir) in Sd. discriminate. }
  apply Nat.ltb_lt in Lt.
  destruct s as [|s']; [apply cm_push|apply cm_before]; auto; clear - Lt; lia.
Qed.

(* a byte that the loop passes whatever the state *)
Definition plainb (b : byte) : bool := negb (is_nl b) && negb (is_directive b).

Lemma span_loop_plain d : forall rest pr i st sd,
  forallb plainb rest = true -> span_loop d pr rest i st sd = None.
Proof.
  induction rest as [|b rest IH]; intros pr i st sd H; [reflexivity|].
  cbn [forallb] in H. apply andb_true_iff in H. destruct H as [Hb Hr].
  apply andb_true_iff in Hb. destruct Hb as [N D]. apply negb_true_iff in N, D.
  rewrite span_loop_cons, span_step_plain by assumption. apply IH, Hr.
Qed.

Lemma nolow_plain rest : existsb low rest = false -> forallb plainb rest = true.
Proof.
  intros H. apply forallb_forall. intros b Hb. unfold plainb.
  destruct (is_nl b) eqn:N; [apply is_nl_low in N|destruct (is_directive b) eqn:D; [apply is_directive_low in D|reflexivity]].
  all: assert (existsb low rest = true) by (apply existsb_exists; eauto); congruence.
Qed.

Lemma span_loop_ext d : forall rest pr i st sd r e,
  span_loop d pr rest i st sd = Some r -> span_loop d pr (rest ++ e) i st sd = Some r.
Proof.
  induction rest as [|b rest IH]; intros pr i st sd r e; [discriminate|].
  cbn [app]. rewrite !span_loop_cons.
  destruct (span_step d pr b rest i st sd) as [r'|[st' sd']] eqn:St.
  - rewrite (span_step_inl _ _ _ _ (rest ++ e) _ _ _ _ St). exact (fun H => H).
  - (* the token is found further on in [rest], which therefore has a byte
       below 0x80: the rune after [b] is complete *)
    destruct (existsb low rest) eqn:Lw; [|rewrite span_loop_plain by apply nolow_plain, Lw; discriminate].
    rewrite (span_step_ext _ _ _ _ e _ _ _ (low_full _ Lw)), St. apply IH.
Qed.

Lemma span_loop_spec d : forall rest pr i st sd, cand_ok d st sd ->
  match span_loop d pr rest i st sd with
  | Some r => exists rpre c post, rest = rpre ++ c :: post /\
                (forall x, In x rpre -> quiet d x) /\ commit d (i + length rpre) c r
  | None => forall x, In x rest -> quiet d x
  end.
Proof.
  induction rest as [|b rest IH]; intros pr i st sd C; [intros x []|].
  rewrite span_loop_cons. pose proof (span_step_spec d pr b rest i st sd C) as St.
  destruct (span_step d pr b rest i st sd) as [r|[st' sd']].
  - exists [], b, rest. rewrite Nat.add_0_r. split; [reflexivity|]. split; [intros x []|exact St].
  - destruct St as [Qb C'].
    specialize (IH (b :: pr) (S i) st' sd' C').
    destruct (span_loop d (b :: pr) rest (S i) st' sd') as [r|].
    + destruct IH as [rpre [c [post [-> [Q K]]]]]. exists (b :: rpre), c, post.
      cbn [length]. rewrite Nat.add_succ_r. split; [reflexivity|]. split; [|exact K].
      intros x [<-|Hx]; [exact Qb|exact (Q x Hx)].
    + intros x [<-|Hx]; [exact Qb|exact (IH x Hx)].
Qed.

Lemma scan_span_cases d data b :
  (exists rpre c post, data = rpre ++ c :: post /\ (forall x, In x rpre -> quiet d x) /\
                       commit d (length rpre) c (scan_span d data b)) \/
  ((forall x, In x data -> quiet d x) /\
   scan_span d data b = if b then LTok (length data) d else LMore d).
Proof.
  unfold scan_span. pose proof (span_loop_spec d data [] 0 None x00 eq_refl) as H.
  destruct (span_loop d [] data 0 None x00); [left; exact H|right; split; [exact H|reflexivity]].
Qed.

(* What scan needs of the function [f] that delimits a token in the text of a
   level in state [d]: a token found before EOF is found on every extension of
   the data; a request for more data leaves the level alone and comes only
   before EOF; a token is a non-empty prefix of the data and keeps quoteStarted. *)
Record leaf_ok (f : level -> bytes -> bool -> lres) (d : level) : Prop := mk_leaf_ok {
  leaf_ext : forall data n d' e b, f d data false = LTok n d' -> f d (data ++ e) b = LTok n d';
  leaf_res : forall data b,
             match f d data b with
             | LMore d1 => d1 = d /\ b = false
             | LTok n d' => l_qs d' = l_qs d /\ (b && is_nil data = false -> 0 < n <= length data)
             end }.

Lemma span_leaf d : leaf_ok scan_span d.
Proof.
  constructor.
  - intros data n d' e b. unfold scan_span.
    destruct (span_loop d [] data 0 None x00) as [r|] eqn:L; [|discriminate].
    intros ->. rewrite (span_loop_ext _ _ _ _ _ _ _ e L). reflexivity.
  - intros data b.
    destruct (scan_span_cases d data b) as [[rpre [c [post [E [_ K]]]]]|[_ ->]].
    + apply commit_tok in K. destruct K as [n [d' [-> [Hn Q]]]].
      split; [exact Q|]. intros _. rewrite E, app_length. cbn [length]. lia.
    + destruct b; [|auto]. split; [reflexivity|]. destruct data; [discriminate|cbn; lia].
Qed.

Lemma index_where_app_eq {A} (p : A -> bool) l e :
  index_where p (l ++ e) =
  match index_where p l with
  | Some k => Some k
  | None => option_map (fun k => length l + k) (index_where p e)
  end.
Proof.
  induction l as [|x l IH]; cbn; [destruct (index_where p e); reflexivity|].
  destruct (p x); [reflexivity|]. rewrite IH.
  destruct (index_where p l); [reflexivity|]. destruct (index_where p e); reflexivity.
Qed.

Lemma index_where_app {A} (p : A -> bool) l e k :
  index_where p l = Some k -> index_where p (l ++ e) = Some k.
Proof. intros H. rewrite index_where_app_eq, H. reflexivity. Qed.

Lemma index_where_none_app {A} (p : A -> bool) l e :
  index_where p l = None ->
  index_where p (l ++ e) = option_map (fun k => length l + k) (index_where p e).
Proof. intros H. rewrite index_where_app_eq, H. reflexivity. Qed.

Lemma index_where_nth {A} (p : A -> bool) l k :
  index_where p l = Some k -> exists x, nth_error l k = Some x /\ p x = true.
Proof.
  revert k; induction l as [|x l IH]; intros k; [discriminate|].
  cbn. destruct (p x) eqn:P; [intros [= <-]; exists x; auto|].
  destruct (index_where p l) as [j|]; [|discriminate].
  intros [= <-]. exact (IH j eq_refl).
Qed.

Lemma index_where_lt {A} (p : A -> bool) l k : index_where p l = Some k -> k < length l.
Proof.
  intros H. destruct (index_where_nth _ _ _ H) as [x [Hx _]]. apply nth_error_Some. congruence.
Qed.

Lemma index_where_In {A} (p : A -> bool) l k :
  index_where p l = Some k -> exists x, In x l /\ p x = true.
Proof.
  intros H. destruct (index_where_nth _ _ _ H) as [x [Hx P]]. exists x.
  split; [exact (nth_error_In _ _ Hx)|exact P].
Qed.

Lemma nl_index_app data e k : nl_index data = Some k -> nl_index (data ++ e) = Some k.
Proof. apply index_where_app. Qed.

Lemma is_prefix_app_len p s e : length p <= length s -> is_prefix p (s ++ e) = is_prefix p s.
Proof.
  revert s; induction p as [|x p IH]; intros s Hl; [reflexivity|].
  destruct s as [|y s]; [cbn in Hl; lia|]. cbn in *.
  rewrite IH by lia. reflexivity.
Qed.

Lemma is_prefix_len p s : is_prefix p s = true -> length p <= length s.
Proof.
  revert s; induction p as [|x p IH]; intros s; [cbn; lia|].
  destruct s as [|y s]; [discriminate|]. cbn.
  intros H. apply andb_true_iff in H. destruct H as [_ H2]. specialize (IH _ H2). lia.
Qed.

Lemma is_prefix_app p s e : is_prefix p s = true -> is_prefix p (s ++ e) = true.
Proof. intros H. rewrite is_prefix_app_len by apply is_prefix_len, H. exact H. Qed.

Lemma is_prefix_short p s e : is_prefix p s = false -> is_prefix p (s ++ e) = true ->
  length s < length p /\ forall x, In x s -> In x p.
Proof.
  revert s; induction p as [|x p IH]; intros s; [discriminate|].
  destruct s as [|y s]; [intros _ _; split; [cbn; lia|intros z []]|].
  cbn. destruct (byte_eqb x y) eqn:E; [|discriminate]. apply byte_eqb_eq in E. subst y.
  intros H1 H2. destruct (IH s H1 H2) as [L A]. split; [lia|].
  intros z [<-|Hz]; [left; reflexivity|right; exact (A z Hz)].
Qed.

Lemma index_where_after_prefix p s (q : byte -> bool) k :
  is_prefix p s = true -> (forall x, In x p -> q x = false) -> index_where q s = Some k ->
  length p <= k.
Proof.
  revert s k; induction p as [|x p IH]; intros s k; [cbn; lia|].
  destruct s as [|y s]; [discriminate|]. cbn.
  intros H Hq. apply andb_true_iff in H. destruct H as [E H]. apply byte_eqb_eq in E. subst y.
  rewrite (Hq x (or_introl eq_refl)).
  destruct (index_where q s) as [j|] eqn:Hj; [|discriminate]. intros [= <-].
  specialize (IH s j H (fun z Hz => Hq z (or_intror Hz)) Hj). lia.
Qed.

Lemma fence_len : length fence = 3.
Proof. rewrite fence_is. reflexivity. Qed.

Lemma fence_tick x : In x fence -> x = c_tick.
Proof. rewrite fence_is. intros [<-|[<-|[<-|[]]]]; reflexivity. Qed.

Lemma fence_nl_ge3 data k : is_prefix fence data = true -> nl_index data = Some k -> 3 <= k.
Proof.
  intros Hp Hn. rewrite <- fence_len. apply (index_where_after_prefix _ _ is_nl _ Hp); [|exact Hn].
  intros x Hx. rewrite (fence_tick x Hx). reflexivity.
Qed.

Lemma no_fence_after_nl data e k :
  is_prefix fence data = false -> nl_index data = Some k -> is_prefix fence (data ++ e) = false.
Proof.
  intros Hp Hn. destruct (is_prefix fence (data ++ e)) eqn:P; [|reflexivity].
  destruct (is_prefix_short _ _ _ Hp P) as [_ Hall].
  destruct (index_where_In _ _ _ Hn) as [x [Hx Px]].
  rewrite (fence_tick x (Hall x Hx)) in Px. discriminate.
Qed.

Lemma scan_pre_eq d data eof :
  let d_end := add_mask d sBlockPreEnd (N.lor sBlockPre sBlockPreEnd) in
  scan_pre d data eof =
  match nl_index data with
  | Some k => LTok (S k) (if is_prefix fence data && (k =? 3) then d_end else d)
  | None => if negb eof then LMore d
            else if is_prefix fence data then LTok 3 d_end else LTok (length data) d
  end.
Proof.
  unfold scan_pre. rewrite fence_len.
  destruct (nl_index data) as [k|] eqn:Hn; cbn [opt_is opt_none].
  - rewrite andb_false_r, orb_false_r.
    destruct (is_prefix fence data) eqn:Hp; cbn [andb]; [|reflexivity].
    pose proof (fence_nl_ge3 _ _ Hp Hn). pose proof (index_where_lt _ _ _ Hn).
    replace (negb eof && (length data =? 3)) with false by lia.
    destruct (Nat.eqb_spec k 3) as [->|]; reflexivity.
  - destruct eof, (is_prefix fence data); cbn [negb andb orb]; try reflexivity.
    destruct (length data =? 3); reflexivity.
Qed.

Lemma scan_pre_cases d data eof :
  match scan_pre d data eof with
  | LMore d1 => d1 = d /\ eof = false
  | LTok n d' => (d' = d \/ d' = add_mask d sBlockPreEnd (N.lor sBlockPre sBlockPreEnd)) /\
                 (eof && is_nil data = false -> 0 < n <= length data)
  end.
Proof.
  rewrite scan_pre_eq. destruct (nl_index data) as [k|] eqn:Hn.
  { pose proof (index_where_lt _ _ _ Hn). split; [destruct (_ && _); auto|lia]. }
  destruct eof; cbn [negb andb]; [|auto].
  destruct (is_prefix fence data) eqn:Hp; (split; [auto|]).
  - apply is_prefix_len in Hp. rewrite fence_len in Hp. lia.
  - destruct data; [discriminate|cbn; lia].
Qed.

Lemma pre_leaf d : leaf_ok scan_pre d.
Proof.
  constructor.
  - intros data n d' e b. rewrite !scan_pre_eq.
    destruct (nl_index data) as [k|] eqn:Hn; [|discriminate].
    rewrite (nl_index_app _ e _ Hn).
    destruct (is_prefix fence data) eqn:Hp;
      [rewrite (is_prefix_app _ _ e Hp)|rewrite (no_fence_after_nl _ e _ Hp Hn)]; auto.
  - intros data b. pose proof (scan_pre_cases d data b) as C.
    destruct (scan_pre d data b); [exact C|]. destruct C as [[->| ->] B]; auto.
Qed.

Lemma scan_span_short_ticks d data : l_stack d = [] ->
  length data < 3 -> (forall x, In x data -> x = c_tick) -> scan_span d data false = LMore d.
Proof.
  intros Hs Hl Hall.
  destruct (scan_span_cases d data false) as [[rpre [c [post [E [_ K]]]]]|[_ E]]; [exfalso|exact E].
  assert (Hc : c = c_tick) by (apply Hall; rewrite E; apply in_elt). subst c.
  apply (f_equal (@length byte)) in E. rewrite app_length in E. cbn [length] in E.
  pose proof (top_is_nil d c_tick Hs) as T.
  inversion K; try discriminate; try congruence; lia.
Qed.

(* a newline after a fence is not the first byte *)
Lemma scan_own_eq d data eof : scan_own d data eof =
  if is_prefix fence data then
    match nl_index data with
    | Some k => LTok (S k) (pre_start d)
    | None => if eof then LTok (length data) (pre_start d) else LMore d
    end
  else scan_span d data eof.
Proof.
  unfold scan_own. destruct (is_prefix fence data) eqn:Hp; [|reflexivity].
  destruct (nl_index data) as [k|] eqn:Hn; [|reflexivity].
  pose proof (fence_nl_ge3 _ _ Hp Hn). replace (0 <? k) with true by lia. reflexivity.
Qed.

Lemma own_leaf d : l_stack d = [] -> leaf_ok scan_own d.
Proof.
  intros Hs. pose proof (span_leaf d) as L. constructor.
  - intros data n d' e b. rewrite !scan_own_eq.
    destruct (is_prefix fence data) eqn:Hp.
    + rewrite (is_prefix_app _ _ e Hp).
      destruct (nl_index data) as [k|] eqn:Hn; [|discriminate].
      rewrite (nl_index_app _ e _ Hn). auto.
    + intros H. destruct (is_prefix fence (data ++ e)) eqn:Hp'.
      * (* the data is a proper prefix of the fence *)
        destruct (is_prefix_short _ _ _ Hp Hp') as [Hl Hall]. rewrite fence_len in Hl.
        rewrite (scan_span_short_ticks d data Hs Hl (fun x Hx => fence_tick x (Hall x Hx))) in H.
        discriminate.
      * apply (leaf_ext _ _ L), H.
  - intros data b. rewrite scan_own_eq.
    destruct (is_prefix fence data) eqn:Hp; [|exact (leaf_res _ _ L _ _)].
    apply is_prefix_len in Hp. rewrite fence_len in Hp.
    destruct (nl_index data) as [k|] eqn:Hn.
    + pose proof (index_where_lt _ _ _ Hn). split; [reflexivity|lia].
    + destruct b; [|auto]. split; [reflexivity|lia].
Qed.

Lemma sbq_loop_acc : forall fuel data l, sbq_loop fuel data l = sbq_loop fuel data 0 + l.
Proof.
  induction fuel as [|f IH]; intros data l; cbn [sbq_loop]; [reflexivity|].
  destruct data as [|x t]; [reflexivity|].
  destruct (decode_rune (x :: t)) as [r size].
  destruct (is_space r); [|reflexivity].
  rewrite (IH _ (size + l)), (IH _ (size + 0)). lia.
Qed.

Lemma sbq_loop_le : forall fuel data, sbq_loop fuel data 0 <= length data.
Proof.
  induction fuel as [|f IH]; intros data; cbn [sbq_loop]; [lia|].
  destruct data as [|x t]; [cbn; lia|].
  pose proof (decode_rune_size (x :: t) ltac:(congruence)) as Hsz.
  destruct (decode_rune (x :: t)) as [r size]. cbn [snd] in Hsz.
  destruct (is_space r); [|lia].
  specialize (IH (skipn size (x :: t))).
  rewrite sbq_loop_acc. rewrite skipn_length in IH. lia.
Qed.

Lemma sbq_loop_ext : forall fuel data e fuel',
  length data <= fuel -> length (data ++ e) <= fuel' ->
  full_rune (skipn (sbq_loop fuel data 0) data) = true ->
  sbq_loop fuel' (data ++ e) 0 = sbq_loop fuel data 0.
Proof.
  induction fuel as [|f IH]; intros data e fuel' Hf Hf' Hfull.
  { destruct data; [discriminate|cbn in Hf; lia]. }
  destruct data as [|x t]; [discriminate|].
  destruct fuel' as [|f']; [cbn in Hf'; lia|].
  cbn [sbq_loop] in *. cbn [app].
  change (x :: t ++ e) with ((x :: t) ++ e).
  pose proof (decode_rune_size (x :: t) ltac:(congruence)) as Hsz.
  destruct (decode_rune (x :: t)) as [r size] eqn:D. cbn [snd] in Hsz.
  destruct (is_space r) eqn:Sp.
  - assert (Hfr : full_rune (x :: t) = true) by (apply space_full; rewrite D; exact Sp).
    rewrite (proj1 (full_rune_ext _ e Hfr)), D, Sp, skipn_app_le by (clear - Hsz; lia).
    rewrite sbq_loop_acc, Nat.add_0_r, (Nat.add_comm _ size), skipn_add in Hfull.
    rewrite (sbq_loop_acc f'), (sbq_loop_acc f). f_equal.
    rewrite app_length in Hf'. apply IH; [| |exact Hfull].
    + rewrite skipn_length. cbn [length] in *. clear - Hf Hsz. lia.
    + rewrite app_length, skipn_length. cbn [length] in *. clear - Hf' Hsz. lia.
  - cbn [skipn] in Hfull.
    rewrite (proj1 (full_rune_ext _ e Hfull)), D, Sp. reflexivity.
Qed.

Lemma sbq_cons x t :
  starts_block_quote (x :: t) = if byte_eqb x c_gt then S (sbq_loop (length t) t 0) else 0.
Proof. cbn [starts_block_quote]. rewrite sbq_loop_acc, Nat.add_1_r. reflexivity. Qed.

Lemma sbq_pos data : (0 <? starts_block_quote data) = head_is data c_gt.
Proof.
  destruct data as [|x t]; [reflexivity|].
  rewrite sbq_cons. cbn [head_is]. destruct (byte_eqb x c_gt); reflexivity.
Qed.

Lemma sbq_le data : starts_block_quote data <= length data.
Proof.
  destruct data as [|x t]; [cbn; lia|].
  rewrite sbq_cons. pose proof (sbq_loop_le (length t) t).
  destruct (byte_eqb x c_gt); cbn [length]; lia.
Qed.

Lemma sbq_ext data e b :
  0 < starts_block_quote data ->
  quote_undecided data (starts_block_quote data) false = false ->
  starts_block_quote (data ++ e) = starts_block_quote data /\
  quote_undecided (data ++ e) (starts_block_quote data) b = false.
Proof.
  unfold quote_undecided. cbn [negb andb]. intros Hpos Hu.
  apply orb_false_iff in Hu. destruct Hu as [Hl Hf].
  apply negb_false_iff in Hf. apply Nat.eqb_neq in Hl.
  pose proof (sbq_le data) as Hle.
  split.
  - destruct data as [|x t]; [cbn in Hpos; lia|]. cbn [app].
    rewrite !sbq_cons in *. destruct (byte_eqb x c_gt); [|lia].
    cbn [length skipn] in *. f_equal. apply sbq_loop_ext; [lia|lia|exact Hf].
  - destruct b; [reflexivity|]. cbn [negb andb].
    apply orb_false_iff. split.
    + apply Nat.eqb_neq. rewrite app_length. lia.
    + apply negb_false_iff. rewrite skipn_app_le by exact Hle. apply full_rune_ext, Hf.
Qed.

Lemma prelude_lv_eq d : prelude_lv d =
  mklevel (N.ldiff (if l_nl d then N.ldiff (l_mask d) sBlockQuote else l_mask d) (l_clear d)) 0
          (negb (l_nl d) && l_qs d) false (negb (l_nl d) && l_run d) (l_stack d).
Proof. unfold prelude_lv. destruct d as [m c q nl r s]. destruct nl; reflexivity. Qed.

Lemma prelude_nl d : l_nl (prelude_lv d) = false.
Proof. rewrite prelude_lv_eq. reflexivity. Qed.

Lemma prelude_clear d : l_clear (prelude_lv d) = 0%N.
Proof. rewrite prelude_lv_eq. reflexivity. Qed.

Lemma prelude_stack d : l_stack (prelude_lv d) = l_stack d.
Proof. rewrite prelude_lv_eq. reflexivity. Qed.

Lemma prelude_qs d : l_qs (prelude_lv d) = negb (l_nl d) && l_qs d.
Proof. rewrite prelude_lv_eq. reflexivity. Qed.

Lemma prelude_run d : l_run (prelude_lv d) = negb (l_nl d) && l_run d.
Proof. rewrite prelude_lv_eq. reflexivity. Qed.

Lemma prelude_fix d : l_nl d = false -> l_clear d = 0%N -> prelude_lv d = d.
Proof.
  unfold prelude_lv. destruct d as [m c q nl r s]. cbn. intros -> ->.
  unfold set_mask. cbn. rewrite N.ldiff_0_r. reflexivity.
Qed.

Lemma prelude_idem d : prelude_lv (prelude_lv d) = prelude_lv d.
Proof. apply prelude_fix; [apply prelude_nl|apply prelude_clear]. Qed.

Lemma prelude_inner_id d inner : l_nl d = false -> prelude_inner d inner = inner.
Proof. unfold prelude_inner. intros ->. reflexivity. Qed.

Lemma prelude_qs_inner d inner : l_qs (prelude_lv d) = true -> prelude_inner d inner = inner.
Proof.
  rewrite prelude_qs. intros H. apply andb_true_iff in H. destruct H as [H _].
  apply negb_true_iff in H. apply prelude_inner_id, H.
Qed.

Lemma set_run_idem d : set_run (set_run d) = set_run d.
Proof. reflexivity. Qed.

(* the deferred lastNewline = true *)
Definition nl_if (b : bool) (d : level) : level := if b then set_nl d else d.

Definition fin (data : bytes) (n : nat) (ds : dec) : dec :=
  match ds with
  | d :: inner => nl_if (ends_nl data n) d :: inner
  | [] => []
  end.

Lemma finish_tok_eq data n ds : finish data (STok n ds) = STok n (fin data n ds).
Proof. unfold finish, fin, nl_if. destruct ds; [reflexivity|]. destruct (ends_nl data n); reflexivity. Qed.

Lemma finish_more data r ds1 : finish data r = SMore ds1 -> r = SMore ds1.
Proof. destruct r as [x|n x|]; [auto|rewrite finish_tok_eq; discriminate|auto]. Qed.

Lemma finish_more_eq data ds : finish data (SMore ds) = SMore ds.
Proof. reflexivity. Qed.

Lemma finish_tok data r n ds' :
  finish data r = STok n ds' -> exists ds0, r = STok n ds0 /\ ds' = fin data n ds0.
Proof.
  destruct r as [x|m ds0|]; try discriminate.
  rewrite finish_tok_eq. intros H; inversion H; subst. eauto.
Qed.

Lemma finish_panic data r : finish data r = SPanic -> r = SPanic.
Proof. destruct r as [x|n x|]; [discriminate|rewrite finish_tok_eq; discriminate|auto]. Qed.

Lemma ends_nl_app data e n : n <= length data -> ends_nl (data ++ e) n = ends_nl data n.
Proof.
  unfold ends_nl. destruct n as [|k]; [reflexivity|]. intros H.
  rewrite nth_error_app1 by lia. reflexivity.
Qed.

Lemma fin_app data e n ds : n <= length data -> fin (data ++ e) n ds = fin data n ds.
Proof. intros H. unfold fin. rewrite ends_nl_app by exact H. reflexivity. Qed.

Lemma lift_l_tok r inner n ds' : lift_l r inner = STok n ds' -> exists d, r = LTok n d /\ ds' = d :: inner.
Proof. destruct r; cbn; [discriminate|]. intros H; inversion H; eauto. Qed.

Lemma lift_l_more r inner ds1 : lift_l r inner = SMore ds1 -> exists d, r = LMore d /\ ds1 = d :: inner.
Proof. destruct r; cbn; [|discriminate]. intros H; inversion H; eauto. Qed.

Lemma lift_l_panic r inner : lift_l r inner <> SPanic.
Proof. destruct r; discriminate. Qed.

Lemma cons_l_tok d r n ds' : cons_l d r = STok n ds' -> exists x, r = STok n x /\ ds' = d :: x.
Proof. destruct r; cbn; try discriminate. intros H; inversion H; eauto. Qed.

Lemma cons_l_more d r ds1 : cons_l d r = SMore ds1 -> exists x, r = SMore x /\ ds1 = d :: x.
Proof. destruct r; cbn; try discriminate. intros H; inversion H; eauto. Qed.

Lemma scan_cons d inner data b : b && is_nil data = false ->
  scan (d :: inner) data b =
  finish data (scan_body (prelude_lv d) (prelude_inner d inner) (fun _ => scan inner data b) data b).
Proof. intros H. cbn [scan]. rewrite H. reflexivity. Qed.

Lemma scan_cons_fix d inner data b :
  b && is_nil data = false -> l_nl d = false -> l_clear d = 0%N ->
  scan (d :: inner) data b = finish data (scan_body d inner (fun _ => scan inner data b) data b).
Proof.
  intros H N C. rewrite scan_cons, (prelude_fix d N C), (prelude_inner_id _ _ N) by exact H.
  reflexivity.
Qed.

Lemma quote_undecided_eof data l : quote_undecided data l true = false.
Proof. reflexivity. Qed.

(* What the two switch statements of scan do with the level [d1] and the chain
   [inner1] below it, given whether the data starts with '>': leave the text to
   the function [f] with the level in state [dd] above the chain [inn]; start a
   block quote; or hand the data to the chain below. *)
Inductive branch :=
| BLeaf (f : level -> bytes -> bool -> lres) (dd : level) (inn : dec)
| BQuote
| BRec.

Definition body_branch (d1 : level) (inner1 : dec) (gt : bool) : branch :=
  match l_stack d1 with
  | _ :: _ => BLeaf scan_span d1 inner1
  | [] =>
      if has (l_mask d1) sBlockPre then BLeaf scan_pre (set_run d1) inner1
      else if l_qs d1 && (gt || negb (is_nil inner1)) then BRec
      else if gt then BQuote
      else BLeaf scan_own (set_run d1) []
  end.

Lemma scan_body_eq d1 inner1 rec data eof :
  scan_body d1 inner1 rec data eof =
  match body_branch d1 inner1 (head_is data c_gt) with
  | BLeaf f dd inn => lift_l (f dd data eof) inn
  | BQuote =>
      if quote_undecided data (starts_block_quote data) eof then SMore (d1 :: inner1)
      else STok (starts_block_quote data)
                (quote_start d1 :: match inner1 with [] => [level0] | _ => inner1 end)
  | BRec => cons_l d1 (rec tt)
  end.
Proof.
  unfold scan_body, body_branch. rewrite sbq_pos.
  destruct (l_stack d1), (has (l_mask d1) sBlockPre), (head_is data c_gt), (l_qs d1), inner1; reflexivity.
Qed.

(* what the tests established, per branch; a leaf branch is taken again from
   the state it leaves behind, a delegating level delegates to whatever
   non-empty chain is below *)
Lemma body_branch_spec d1 inner1 gt :
  match body_branch d1 inner1 gt with
  | BLeaf f dd inn =>
      leaf_ok f dd /\ (dd = d1 \/ dd = set_run d1) /\ (inn = inner1 \/ inn = [] /\ l_qs d1 = false) /\
      body_branch dd inn gt = BLeaf f dd inn
  | BQuote => gt = true /\ l_qs d1 = false
  | BRec => l_qs d1 = true /\ forall x, x <> [] -> body_branch d1 x gt = BRec
  end.
Proof.
  unfold body_branch. destruct (l_stack d1) eqn:Hs; [|rewrite Hs; auto using span_leaf].
  destruct (has (l_mask d1) sBlockPre) eqn:Hp.
  { cbn [set_run l_stack l_mask]. rewrite Hs, Hp. auto using pre_leaf. }
  destruct (l_qs d1) eqn:Hq, gt, inner1; cbn [andb orb negb is_nil set_run l_stack l_mask l_qs];
    rewrite ?Hs, ?Hp, ?Hq; auto 6 using own_leaf.
  all: split; [reflexivity|]; intros [|y x] Hx; [congruence|]; rewrite ?orb_true_r; reflexivity.
Qed.

Lemma scan_body_delegates d1 inner1 rec data b :
  l_stack d1 = [] -> has (l_mask d1) sBlockPre = false -> l_qs d1 = true -> inner1 <> [] ->
  scan_body d1 inner1 rec data b = cons_l d1 (rec tt).
Proof.
  intros Hs Hp Hq Hi. rewrite scan_body_eq. unfold body_branch. rewrite Hs, Hp, Hq.
  destruct inner1; [congruence|]. rewrite orb_true_r. reflexivity.
Qed.

Lemma scan_body_rec_irrel d1 inner1 rec rec' data b :
  (l_qs d1 = true -> rec tt = rec' tt) ->
  scan_body d1 inner1 rec data b = scan_body d1 inner1 rec' data b.
Proof.
  intros H. rewrite !scan_body_eq. pose proof (body_branch_spec d1 inner1 (head_is data c_gt)) as B.
  destruct (body_branch _ _ _); try reflexivity. rewrite (H (proj1 B)). reflexivity.
Qed.

(* quoteStarted holds on a proper prefix of the chain: a level that hands the
   data down has a quoteSplit to hand it to, and Quote() never follows a nil
   quoteSplit (scan_no_panic, quote_chain_wf) *)
Fixpoint wf (ds : dec) : Prop :=
  match ds with
  | [] => False
  | d :: inner => if l_qs d then wf inner else Forall (fun x => l_qs x = false) inner
  end.

Lemma wf_dec0 : wf dec0.
Proof. cbn. constructor. Qed.

Lemma wf_nonempty ds : wf ds -> ds <> [].
Proof. destruct ds; [intros []|congruence]. Qed.

Lemma wf_all_false ds : ds <> [] -> Forall (fun x => l_qs x = false) ds -> wf ds.
Proof.
  destruct ds as [|d inner]; [congruence|]. intros _ H. inversion H; subst. cbn. rewrite H2. exact H3.
Qed.

Lemma Forall_reset inner : Forall (fun x => l_qs x = false) (map reset_lv inner).
Proof. induction inner; constructor; auto. Qed.

Lemma wf_prelude d inner : wf (d :: inner) -> wf (prelude_lv d :: prelude_inner d inner).
Proof.
  cbn [wf]. rewrite prelude_qs. unfold prelude_inner.
  destruct (l_nl d); cbn [negb andb]; [intros _; apply Forall_reset|auto].
Qed.

Lemma wf_head_irrel d d' inner : l_qs d' = l_qs d -> wf (d :: inner) -> wf (d' :: inner).
Proof. cbn [wf]. intros ->. auto. Qed.

Lemma wf_fin data n ds : wf ds -> wf (fin data n ds).
Proof.
  unfold fin. destruct ds as [|d inner]; [auto|].
  apply wf_head_irrel. destruct (ends_nl data n); reflexivity.
Qed.

(* What scan returns on the chain [ds], as leaf_res says it of a leaf: a token
   is a non-empty prefix of the data; a request for more data comes only before
   EOF, or at EOF with no data at all; a token leaves a well-formed chain
   well-formed, and only a chain that is not well-formed panics. *)
Definition res_ok (ds : dec) (data : bytes) (b : bool) (r : sres) : Prop :=
  match r with
  | STok n ds' => 0 < n <= length data /\ (wf ds -> wf ds')
  | SMore ds1 => (b = false \/ data = []) /\ ds1 <> []
  | SPanic => ~ wf ds
  end.

Lemma res_ok_finish ds data b r : res_ok ds data b r -> res_ok ds data b (finish data r).
Proof.
  destruct r as [x|n x|]; [auto| |auto]. rewrite finish_tok_eq. intros [B W].
  split; [exact B|]. intros H. apply wf_fin, W, H.
Qed.

Theorem scan_res : forall ds data b, res_ok ds data b (scan ds data b).
Proof.
  induction ds as [|d inner IH]; intros data b; [exact (fun W => W)|].
  destruct (b && is_nil data) eqn:Hne.
  { cbn [scan]. rewrite Hne. apply andb_true_iff in Hne.
    split; [right; destruct data; [reflexivity|destruct Hne; discriminate]|discriminate]. }
  rewrite scan_cons by exact Hne. apply res_ok_finish.
  pose proof (wf_prelude d inner) as W. pose proof (prelude_qs_inner d inner) as Hinner.
  set (d1 := prelude_lv d) in *. set (inner1 := prelude_inner d inner) in *.
  rewrite scan_body_eq. pose proof (body_branch_spec d1 inner1 (head_is data c_gt)) as B.
  destruct (body_branch _ _ _) as [f dd inn| |].
  - destruct B as [L [Hd [Hi _]]].
    assert (Q : l_qs dd = l_qs d1) by (destruct Hd as [->| ->]; reflexivity).
    assert (W' : wf (d :: inner) -> wf (dd :: inn)).
    { intros H. apply W in H. destruct Hi as [->|[-> Hq]]; [exact (wf_head_irrel _ _ _ Q H)|].
      cbn [wf]. rewrite Q, Hq. constructor. }
    pose proof (leaf_res _ _ L data b) as R.
    destruct (f dd data b) as [dm|n dt]; cbn [lift_l res_ok].
    + destruct R as [-> ->]. split; [auto|discriminate].
    + destruct R as [Qt Bn]. split; [exact (Bn Hne)|]. intros H. exact (wf_head_irrel _ _ _ Qt (W' H)).
  - destruct B as [G Hq].
    destruct (quote_undecided _ _ _) eqn:U; cbn [res_ok].
    + split; [left; destruct b; [discriminate U|reflexivity]|discriminate].
    + rewrite <- sbq_pos in G. apply Nat.ltb_lt in G. split; [split; [exact G|apply sbq_le]|].
      intros H. apply W in H. cbn [wf quote_start l_qs]. cbn [wf] in H. rewrite Hq in H.
      destruct inner1; [apply wf_dec0|apply wf_all_false; [congruence|exact H]].
  - destruct B as [Hq _]. specialize (IH data b).
    assert (Wi : wf (d :: inner) -> wf inner).
    { intros H. apply W in H. cbn [wf] in H. rewrite Hq, (Hinner Hq) in H. exact H. }
    destruct (scan inner data b); cbn [cons_l res_ok wf] in *; rewrite ?Hq.
    + split; [apply IH|discriminate].
    + destruct IH as [Bn Wx]. split; [exact Bn|auto].
    + intros H. exact (IH (Wi H)).
Qed.

Lemma scan_bounds ds data b n ds' : scan ds data b = STok n ds' -> 0 < n /\ n <= length data.
Proof. intros H. pose proof (scan_res ds data b) as R. rewrite H in R. apply R. Qed.

Lemma scan_tok_nonempty ds r b adv ds' : scan ds r b = STok adv ds' -> r <> [].
Proof. intros H ->. apply scan_bounds in H. cbn in H. lia. Qed.

Lemma scan_more_nonempty ds data b ds1 : scan ds data b = SMore ds1 -> ds1 <> [].
Proof. intros H. pose proof (scan_res ds data b) as R. rewrite H in R. apply R. Qed.

Lemma scan_eof_tok ds data ds1 : data <> [] -> scan ds data true <> SMore ds1.
Proof.
  intros Hne H. pose proof (scan_res ds data true) as R. rewrite H in R.
  destruct R as [[E|E] _]; [discriminate|contradiction].
Qed.

Lemma scan_no_panic ds data b : wf ds -> scan ds data b <> SPanic.
Proof. intros W H. pose proof (scan_res ds data b) as R. rewrite H in R. exact (R W). Qed.

Lemma scan_tok_wf ds data b n ds' : wf ds -> scan ds data b = STok n ds' -> wf ds'.
Proof. intros W H. pose proof (scan_res ds data b) as R. rewrite H in R. apply R, W. Qed.

Lemma is_nil_app_ne {A} (l e : list A) : l <> [] -> is_nil (l ++ e) = false.
Proof. destruct l; [congruence|reflexivity]. Qed.

(* What leaf_ext says of a leaf, of scan on a chain and for both results: a
   token found before EOF is found on every extension of the data, at EOF or
   not; the chain that a request for more data leaves behind does on every
   extension what the chain did. *)
Theorem scan_stable : forall ds data e b, data <> [] ->
  match scan ds data false with
  | STok n ds' => scan ds (data ++ e) b = STok n ds'
  | SMore ds1 => scan ds1 (data ++ e) b = scan ds (data ++ e) b
  | SPanic => True
  end.
Proof.
  induction ds as [|d inner IH]; intros data e b Hne; [exact I|].
  assert (HX : b && is_nil (data ++ e) = false) by (rewrite (is_nil_app_ne _ e Hne); apply andb_false_r).
  pose proof (head_is_app _ e c_gt Hne) as GX.
  pose proof (prelude_nl d) as Hnl. pose proof (prelude_clear d) as Hcl.
  rewrite (scan_cons d inner data false eq_refl), (scan_cons d inner _ b HX).
  set (d1 := prelude_lv d) in *. set (inner1 := prelude_inner d inner) in *.
  rewrite !scan_body_eq, GX.
  (* the level that a request for more data leaves behind takes the same branch *)
  pose proof (body_branch_spec d1 inner1 (head_is data c_gt)) as BS.
  destruct (body_branch d1 inner1 (head_is data c_gt)) as [f dd inn| |] eqn:B.
  - destruct BS as [L [Hd [_ Fix]]].
    pose proof (leaf_res _ _ L data false) as R. pose proof (leaf_ext _ _ L data) as X.
    destruct (f dd data false) as [dm|n dt]; cbn [lift_l].
    + destruct R as [-> _]. cbn [finish].
      rewrite scan_cons_fix by (try exact HX; destruct Hd as [->| ->]; assumption).
      rewrite scan_body_eq, GX, Fix. reflexivity.
    + rewrite (X n dt e b eq_refl). cbn [lift_l]. rewrite !finish_tok_eq, fin_app; [reflexivity|].
      apply (proj2 R eq_refl).
  - destruct BS as [G _]. rewrite <- sbq_pos in G. apply Nat.ltb_lt in G.
    destruct (quote_undecided data _ false) eqn:U.
    + cbn [finish]. rewrite scan_cons_fix by assumption. rewrite scan_body_eq, GX, B. reflexivity.
    + destruct (sbq_ext data e b G U) as [-> ->]. rewrite !finish_tok_eq, fin_app; [reflexivity|apply sbq_le].
  - specialize (IH data e b Hne).
    pose proof (scan_more_nonempty inner data false) as Nx. pose proof (scan_bounds inner data false) as Bx.
    destruct (scan inner data false) as [x|n x|]; cbn [cons_l]; [cbn [finish]| |exact I].
    + rewrite scan_cons_fix by assumption.
      rewrite scan_body_eq, GX, (proj2 BS x (Nx x eq_refl)), IH. reflexivity.
    + rewrite IH. cbn [cons_l]. rewrite !finish_tok_eq, fin_app; [reflexivity|apply (Bx _ _ eq_refl)].
Qed.

Theorem scan_ext ds data n ds' e b :
  scan ds data false = STok n ds' -> scan ds (data ++ e) b = STok n ds'.
Proof.
  intros H. pose proof (scan_stable ds data e b (scan_tok_nonempty _ _ _ _ _ H)) as S.
  rewrite H in S. exact S.
Qed.

Theorem scan_more_idem ds data ds1 :
  scan ds data false = SMore ds1 -> data <> [] ->
  forall e b, scan ds1 (data ++ e) b = scan ds (data ++ e) b.
Proof. intros H Hne e b. pose proof (scan_stable ds data e b Hne) as S. rewrite H in S. exact S. Qed.

Lemma quote_chain_wf ds : wf ds -> exists q, quote_chain ds = Some q.
Proof.
  induction ds as [|d inner IH]; [intros []|]. cbn [wf quote_chain].
  destruct (l_qs d); [|eauto]. intros W. destruct (IH W) as [q ->]. eauto.
Qed.
