(* C17/Proofs.v — the proof files of C17 together and, at the real limit
   (bufio.MaxScanTokenSize), every run as a prefix of the ideal sequence; what
   the Decoder does with a line of plain text as long as the limit, and the
   line that shows it at the real limit. *)
From XV Require Import lib.Bytes gen.Styling C17.Model.
From XV Require Export C17.ProofsScan C17.ProofsRun C17.ProofsBits C17.ProofsSpan C17.ProofsLevel C17.ProofsBrackets.

Lemma decode_prefix input reads deof os e : decode input reads deof = (os, e) ->
  exists t, ideal input = os ++ t /\ (e = EEOF -> t = []).
Proof.
  intros D. pose proof (decode_ideal limit input reads deof limit_pos) as C.
  fold (decode input reads deof) in C. rewrite D in C. destruct C as [t [E [Full _]]].
  exists t. split; [exact E|intros Ee; apply (Full Ee)].
Qed.

(* text without a newline or a directive that does not start with '>' *)
Definition plain_line (l : bytes) : bool :=
  negb (is_nil l) && forallb plainb l && negb (head_is l c_gt).

Lemma plain_line_app l e : plain_line l = true -> forallb plainb e = true -> plain_line (l ++ e) = true.
Proof.
  unfold plain_line. intros H Pe. destruct l as [|x l]; [discriminate|].
  rewrite forallb_app, Pe, andb_true_r. exact H.
Qed.

Lemma plain_line_firstn n l : 1 <= n -> plain_line l = true -> plain_line (firstn n l) = true.
Proof.
  unfold plain_line. rewrite !andb_true_iff, !negb_true_iff. intros L [[Ne P] Gt].
  destruct n; [inversion L|]. destruct l as [|x l]; [discriminate|]. split; [split; [reflexivity|]|exact Gt].
  apply forallb_forall. intros y Hy. apply (In_firstn y (S n)) in Hy. rewrite forallb_forall in P. auto.
Qed.

Lemma plain_no_nl l n : forallb plainb l = true -> ends_nl l n = false.
Proof.
  intros P. destruct (ends_nl l n) eqn:E; [|reflexivity].
  apply ends_nl_has_nl in E. unfold has_nl in E. apply existsb_exists in E.
  destruct E as [x [Hx Nx]]. apply In_firstn in Hx.
  rewrite forallb_forall in P. specialize (P x Hx). unfold plainb in P. rewrite Nx in P. discriminate.
Qed.

(* on such text the split function of a fresh Decoder waits for the end of the
   line: at EOF all of it is the token *)
Lemma scan_plain_line l b : plain_line l = true ->
  scan dec0 l b = if b then STok (length l) [set_run level0] else SMore [set_run level0].
Proof.
  unfold plain_line. rewrite !andb_true_iff, !negb_true_iff. intros [[Ne P] Gt].
  unfold dec0. rewrite scan_cons_fix; [|rewrite Ne; apply andb_false_r|reflexivity|reflexivity].
  rewrite scan_body_eq, Gt. cbn [body_branch level0 l_stack l_mask l_qs andb].
  change (has 0 sBlockPre) with false. cbn iota. rewrite scan_own_eq.
  replace (is_prefix fence l) with false.
  2:{ rewrite fence_is. destruct l as [|x l]; [reflexivity|]. cbn [forallb] in P. cbn [is_prefix].
      destruct (byte_eqb c_tick x) eqn:E; [|reflexivity]. apply byte_eqb_eq in E. subst x. discriminate. }
  unfold scan_span. rewrite span_loop_plain by exact P.
  destruct b; cbn [lift_l]; [|reflexivity].
  rewrite finish_tok_eq. unfold fin, nl_if. rewrite plain_no_nl by exact P. reflexivity.
Qed.

(* the Scanner of a fresh Decoder after its first read, from a reader that
   hands out everything at once *)
Lemma first_read lim f l deof : 1 <= lim -> l <> [] ->
  let n := Nat.min (length l) lim in
  scan_next lim (S f) (mksc dec0 [] l false [] deof) =
  scan_next lim f (mksc dec0 (firstn n l) (skipn n l) (is_nil (skipn n l) && deof) [] deof).
Proof.
  intros L Ne n. rewrite scan_next_S. cbn [s_buf s_eof is_nil negb orb length s_ds].
  replace (lim <=? 0) with false by (symmetry; apply Nat.leb_gt; lia).
  unfold refill. cbn [s_rest s_buf s_reads s_deof tl app]. destruct l as [|x l']; [congruence|].
  replace (read_size lim _) with n; [reflexivity|]. subst n. unfold read_size. cbn [s_reads s_rest s_buf length]. lia.
Qed.

(* The finding behind C17_lossless_refuted and C17_chunk_independent_refuted,
   at every limit: a line that fills the buffer is ErrTooLong when io.EOF comes
   by a read of its own, ... *)
Theorem plain_line_too_long lim l : 1 <= lim -> lim <= length l -> plain_line l = true ->
  decode_lim lim l [] false = ([], ETooLong).
Proof.
  intros L1 L2 PL. assert (Ne : l <> []) by (intros ->; discriminate PL).
  unfold decode_lim. rewrite (Nat.add_comm _ 2), (Nat.add_comm _ 2). cbn [Nat.add run].
  unfold next, init. cbn [d_insert d_sc s_ds dec0 quote_chain level0 l_qs].
  rewrite (first_read lim _ l false L1 Ne), Nat.min_r by exact L2.
  pose proof (plain_line_firstn lim l L1 PL) as PF.
  rewrite scan_next_S. cbn [s_buf s_eof s_ds]. rewrite andb_false_r, orb_false_r.
  replace (is_nil (firstn lim l)) with false by (destruct (firstn lim l); [discriminate PF|reflexivity]).
  cbn [negb]. rewrite (scan_plain_line _ false PF). cbn zeta.
  rewrite firstn_length, Nat.min_l, Nat.leb_refl by exact L2. reflexivity.
Qed.

(* ... and returned as one token when io.EOF comes with the data *)
Theorem plain_line_eof lim l : length l <= lim -> plain_line l = true ->
  decode_lim lim l [] true = ([mkobs l [] 0 0], EEOF).
Proof.
  intros L2 PL. assert (Ne : l <> []) by (intros ->; discriminate PL).
  assert (L1 : 1 <= length l) by (destruct l; [congruence|cbn; lia]).
  unfold decode_lim. rewrite (Nat.add_comm _ 2), (Nat.add_comm _ 2).
  destruct (length l) as [|k] eqn:Len; [lia|]. rewrite Nat.mul_succ_r, (Nat.add_comm _ 2). cbn [Nat.add run].
  unfold next at 1, init. cbn [d_insert d_sc s_ds dec0 quote_chain level0 l_qs].
  rewrite (first_read lim _ l true ltac:(lia) Ne), Len, Nat.min_l, <- Len, firstn_all, skipn_all by exact L2.
  rewrite scan_next_S. cbn [s_buf s_eof s_ds is_nil andb]. rewrite orb_true_r, (scan_plain_line _ true PL).
  rewrite firstn_all, skipn_all.
  unfold deliver. cbn [s_ds quote_chain set_run level0 l_qs Nat.ltb Nat.leb style_chain l_run l_mask].
  unfold info_of. change (has 0 sBlockPreStart) with false. cbn [andb].
  unfold next. cbn [d_insert d_sc s_ds quote_chain set_run level0 l_qs].
  rewrite scan_next_S. reflexivity.
Qed.

Fixpoint dbl (n : nat) (l : bytes) : bytes :=
  match n with O => l | S n' => dbl n' (l ++ l) end.

Lemma dbl_length n : forall l, length (dbl n l) = 2 ^ n * length l.
Proof.
  induction n as [|n IH]; intros l; cbn [dbl]; [cbn; lia|].
  rewrite IH, app_length, Nat.pow_succ_r'. lia.
Qed.

Lemma dbl_plain n : forall l, plain_line l = true -> plain_line (dbl n l) = true.
Proof.
  induction n as [|n IH]; intros l P; [exact P|]. apply IH, plain_line_app; [exact P|].
  unfold plain_line in P. rewrite !andb_true_iff in P. apply P.
Qed.

(* 65536 times the letter a, one line without an end *)
Definition long_line : bytes := dbl 16 ["a"%byte].

Lemma long_line_length : length long_line = limit.
Proof.
  unfold long_line, limit. rewrite dbl_length. change 65536%N with (2 ^ 16)%N.
  rewrite N2Nat.inj_pow. apply Nat.mul_1_r.
Qed.

Lemma long_line_plain : plain_line long_line = true.
Proof. apply dbl_plain. reflexivity. Qed.

Lemma long_line_too_long : decode long_line [] false = ([], ETooLong).
Proof.
  apply plain_line_too_long; [apply limit_pos|rewrite long_line_length; apply le_n|apply long_line_plain].
Qed.

Lemma long_line_eof_run :
  length (fst (decode long_line [] true)) = 1 /\ snd (decode long_line [] true) = EEOF.
Proof.
  unfold decode. rewrite plain_line_eof; [split; reflexivity|rewrite long_line_length; apply le_n|apply long_line_plain].
Qed.
