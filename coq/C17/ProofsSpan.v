(* C17/ProofsSpan.v — [closes]: every open span is closed before its line ends;
   one call of scanSpan on all remaining input keeps it, and the checker accepts
   the token ([scan_span_step]). *)
From XV Require Import lib.Bytes gen.Styling C17.Model C17.ProofsScan C17.ProofsBits C17.ProofsLevel.

Fixpoint closes (stack : bytes) (r : bytes) : Prop :=
  match stack with
  | [] => True
  | k :: st =>
      exists p q, r = p ++ k :: q /\
                  (forall x, In x p -> is_nl x = false /\ ~ In x (k :: st)) /\
                  closes st q
  end.

Lemma closes_nil_input stack : closes stack [] -> stack = [].
Proof.
  destruct stack as [|k st]; [reflexivity|]. cbn. intros [p [q [E _]]].
  destruct p; discriminate.
Qed.

Lemma has_nl_false_iff s : has_nl s = false <-> forall x, In x s -> is_nl x = false.
Proof.
  unfold has_nl. split.
  - intros H x Hx. destruct (is_nl x) eqn:E; [|reflexivity].
    assert (existsb is_nl s = true) by (apply existsb_exists; eauto). congruence.
  - intros H. destruct (existsb is_nl s) eqn:E; [|reflexivity].
    apply existsb_exists in E. destruct E as [x [Hx Ex]]. rewrite (H x Hx) in Ex. discriminate.
Qed.

Lemma In_firstn {A} (x : A) n l : In x (firstn n l) -> In x l.
Proof. intros H. rewrite <- (firstn_skipn n l). apply in_or_app. left. exact H. Qed.

Lemma ends_nl_has_nl r n : ends_nl r n = true -> has_nl (firstn n r) = true.
Proof.
  unfold ends_nl. destruct n as [|k]; [discriminate|].
  destruct (nth_error r k) as [b|] eqn:E; [|discriminate]. intros Hb.
  unfold has_nl. apply existsb_exists. exists b. split; [|exact Hb].
  assert (k < length r) by (apply nth_error_Some; congruence).
  rewrite <- (firstn_skipn (S k) r) in E.
  rewrite nth_error_app1 in E by (rewrite firstn_length; lia).
  eapply nth_error_In; eauto.
Qed.

Lemma closes_app st l r :
  (forall x, In x l -> is_nl x = false /\ ~ In x st) -> closes st r -> closes st (l ++ r).
Proof.
  destruct st as [|k st]; [intros _ _; exact I|]. intros Hl (p & q & -> & Hp & Hq).
  exists (l ++ p), q. split; [apply app_assoc|]. split; [|exact Hq].
  intros x Hx. apply in_app_or in Hx. destruct Hx; auto.
Qed.

Lemma closes_pop k st q : closes (k :: st) (k :: q) -> closes st q.
Proof.
  intros (p & q' & E & Hp & Hq). destruct p as [|x p]; [injection E as <-; exact Hq|].
  injection E as <- _. destruct (Hp k (or_introl eq_refl)) as [_ N]. exfalso. apply N. left; reflexivity.
Qed.

Lemma closes_pass st c post : closes st (c :: post) -> hd_error st <> Some c ->
  closes st post /\ (st <> [] -> is_nl c = false) /\ ~ In c st.
Proof.
  destruct st as [|k st]; [intros _ _; split; [exact I|split; [congruence|intros []]]|].
  intros (p & q & E & Hp & Hq) Hk. destruct p as [|x p]; injection E as -> ->; [destruct (Hk eq_refl)|].
  destruct (Hp x (or_introl eq_refl)) as [Nx Ix]. split; [|auto].
  exists p, q. split; [reflexivity|]. split; [|exact Hq]. intros y Hy. apply Hp. right. exact Hy.
Qed.

Lemma closes_skip st a b :
  closes st (a ++ b) -> (forall x, In x a -> hd_error st <> Some x) ->
  closes st b /\ forall x, In x a -> ~ In x st.
Proof.
  induction a as [|y a IH]; intros C H; [split; [exact C|intros x []]|].
  destruct (closes_pass _ _ _ C (H y (or_introl eq_refl))) as [C' [_ N]].
  destruct (IH C' (fun x Hx => H x (or_intror Hx))) as [Cb Na].
  split; [exact Cb|]. intros x [<-|Hx]; [exact N|exact (Na x Hx)].
Qed.

Lemma closes_push c st l r : is_nl c = false -> ~ In c st ->
  (forall x, In x l -> is_nl x = false /\ ~ In x st) -> closes st r -> closes (c :: st) (l ++ c :: r).
Proof.
  intros Nc Ic. induction l as [|x l IH]; intros Hl Hr.
  - exists [], r. split; [reflexivity|]. split; [intros x []|exact Hr].
  - destruct (byte_eq_dec x c) as [->|Hx].
    + exists [], (l ++ c :: r). split; [reflexivity|]. split; [intros x []|].
      apply closes_app; [intros x Hx; apply Hl; right; exact Hx|].
      apply (closes_app st [c]); [intros x [<-|[]]; auto|exact Hr].
    + apply (closes_app (c :: st) [x]); [|exact (IH (fun y Hy => Hl y (or_intror Hy)) Hr)].
      intros y [<-|[]]. destruct (Hl x (or_introl eq_refl)) as [Nx Ix].
      split; [exact Nx|]. intros [E'|I']; [congruence|exact (Ix I')].
Qed.

Lemma top_is_hd d x : top_is d x = false -> hd_error (l_stack d) <> Some x.
Proof.
  unfold top_is. destruct (l_stack d); [discriminate|]. intros E [= ->].
  rewrite byte_eqb_refl in E. discriminate.
Qed.

(* One token of scanSpan on all remaining input, from a level fresh from its
   prelude whose open spans are closed on the rest of their line: the checker
   accepts it, the spans then open are closed on what is left, a token with a
   line break leaves no span open, and the flags of the level stay. *)
Lemma scan_span_step d r n d' :
  pre_ok d -> closes (l_stack d) r -> scan_span d r true = LTok n d' ->
  accepts d (firstn n r) d' /\
  closes (l_stack d') (skipn n r) /\
  (has_nl (firstn n r) = true -> l_stack d' = []) /\
  l_run d' = l_run d /\ l_nl d' = l_nl d /\ l_qs d' = l_qs d.
Proof.
  intros P Hcl H. pose proof (po_ok d P) as O.
  assert (Top : forall x, hd_error (l_stack d) = Some x -> is_directive x = true).
  { intros x E. apply span_char_directive, (ok_chars d O).
    destruct (l_stack d); [discriminate|]. injection E as ->. left; reflexivity. }
  (* the loop passes no byte that is the end directive of the innermost open span *)
  assert (Skip : forall x, quiet d x -> hd_error (l_stack d) <> Some x).
  { intros x [_ T] E. exact (top_is_hd d x (T (Top x E)) E). }
  assert (Pass : forall a b, r = a ++ b -> (forall x, In x a -> quiet d x) ->
            closes (l_stack d) b /\ has_nl a = false /\
            forall x, In x a -> is_nl x = false /\ ~ In x (l_stack d)).
  { intros a b E F. rewrite E in Hcl.
    destruct (closes_skip _ _ _ Hcl (fun x Hx => Skip x (F x Hx))) as [C N].
    split; [exact C|]. split; [apply has_nl_false_iff; intros x Hx; apply (F x Hx)|].
    intros x Hx. split; [apply (F x Hx)|exact (N x Hx)]. }
  (* a token of passed bytes leaves the level as it is *)
  assert (Plain : forall m, (forall x, In x (firstn m r) -> quiet d x) ->
            accepts d (firstn m r) d /\ closes (l_stack d) (skipn m r) /\
            (has_nl (firstn m r) = true -> l_stack d = []) /\
            l_run d = l_run d /\ l_nl d = l_nl d /\ l_qs d = l_qs d).
  { intros m F. destruct (Pass _ _ (eq_sym (firstn_skipn m r)) F) as [C [N _]].
    splits; auto using accepts_plain. congruence. }
  destruct (scan_span_cases d r true) as [(rpre & c & post & E & Q & K)|[Q E]]; rewrite H in *.
  2:{ (* the rest of the input is one plain token *)
      injection E as -> ->. apply Plain. rewrite firstn_all. exact Q. }
  assert (Fn : forall m, m <= length rpre -> forall x, In x (firstn m r) -> quiet d x).
  { intros m Hm x Hx. apply Q. rewrite E, firstn_app_le in Hx by exact Hm. eapply In_firstn; eauto. }
  (* the state in front of the byte [c] at which the loop returns *)
  destruct (Pass _ _ E Q) as [C [_ Ok]].
  inversion K as [Nl|Nl Tc J0|Nl Tc Jp|Nl Tc Dir Pre J1|s Nl Tc Dir Pre S0 S1]; subst n d'.
  - (* a newline: no span is open *)
    assert (S0 : l_stack d = []).
    { destruct (closes_pass _ _ _ C) as [_ [N _]].
      - intros Hd. rewrite (is_directive_not_nl c (Top c Hd)) in Nl. discriminate.
      - destruct (l_stack d); [reflexivity|]. rewrite N in Nl; discriminate. }
    splits; auto using accepts_plain. rewrite S0. exact I.
  - (* the end directive of the innermost span is the token *)
    destruct rpre; [|discriminate J0]. rewrite E. cbn [app skipn firstn].
    unfold top_is in Tc. destruct (l_stack d) as [|k st] eqn:S; [discriminate|].
    apply byte_eqb_eq in Tc. subst k.
    assert (N1 : has_nl [c] = false) by (cbn; rewrite Nl; reflexivity).
    splits; auto; [apply (accepts_pop d _ c st); auto| |congruence].
    unfold pop_lv. cbn [l_stack set_stack]. rewrite S. exact (closes_pop _ _ _ C).
  - (* the text in front of that end directive *)
    apply Plain, Fn, le_n.
  - (* a span starts *)
    destruct (closes_pass _ _ _ C (top_is_hd _ _ Tc)) as [Cp [_ Ic]].
    destruct rpre as [|x0 rpre]; [inversion J1|]. rewrite E. cbn [app skipn firstn].
    assert (N1 : has_nl [x0] = false) by (cbn; rewrite (proj1 (Ok x0 (or_introl eq_refl))); reflexivity).
    splits; auto; [apply accepts_push; auto using directive_span_char| |congruence].
    cbn [push_lv l_stack set_stack]. apply closes_push; auto. intros x Hx. apply Ok. right. exact Hx.
  - (* the text in front of a span start *)
    apply Plain, Fn. clear - S1. lia.
Qed.
