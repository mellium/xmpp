(* C17/ProofsBrackets.v — the bracket discipline: an invariant over the chain of
   decoders and the remaining input that every token of the chunk-free reading
   preserves, and from which the checker [brackets_from] accepts the token
   sequence of every run. *)
From XV Require Import lib.Bytes gen.Styling C17.Model C17.ProofsScan C17.ProofsBits C17.ProofsSpan
  C17.ProofsLevel C17.ProofsRun.

(* a level that has not run on the current line *)
Definition dlevel (d : level) : Prop :=
  l_qs d = false /\ l_run d = false /\ l_stack d = [] /\ lv_ok d.

Definition dormant (ds : dec) : Prop := Forall dlevel ds.

(* The chain between two tokens.  A quote level that has run on the current
   line delegates to the chain below it; the first level that is no quote level
   owns the blocks and spans once it has run, and what is below it has not run
   on this line.  [f] is lastNewline of the levels that have run. *)
Fixpoint chain_ok (f : bool) (ds : dec) : Prop :=
  match ds with
  | [] => False
  | d :: inner =>
      lv_ok d /\
      if l_qs d
      then l_nl d = f /\ l_run d = true /\ l_stack d = [] /\ anyb (l_mask d) sBlockPre = false /\
           chain_ok f inner
      else dormant inner /\ (l_run d = true -> l_nl d = f) /\ (l_run d = false -> l_stack d = [])
  end.

(* the stack of open spans of the whole chain *)
Fixpoint gstack (ds : dec) : bytes :=
  match ds with
  | [] => []
  | d :: inner => if l_qs d then gstack inner else l_stack d
  end.

Lemma dormant_gstack ds : dormant ds -> gstack ds = [].
Proof. intros [|d inner [Q [_ [S _]]] _]; [reflexivity|]. cbn. rewrite Q. exact S. Qed.

Lemma dormant_style ds : dormant ds -> style_chain ds = 0%N.
Proof. intros [|d inner [_ [R _]] _]; [reflexivity|]. cbn. rewrite R. reflexivity. Qed.

Lemma dormant_level0 : dormant [level0].
Proof.
  constructor; [unfold dlevel; splits; auto using level0_ok|constructor].
Qed.

Lemma dormant_chain_ok f ds : ds <> [] -> dormant ds -> chain_ok f ds.
Proof.
  intros Ne D. destruct D as [|d inner (Q & R & S & O) D]; [congruence|].
  cbn [chain_ok]. rewrite Q. splits; auto. intros R'. congruence.
Qed.

Lemma dlevel_reset d : lv_ok d -> l_stack d = [] -> dlevel (reset_lv d).
Proof. intros O S. unfold dlevel. splits; auto using lv_ok_reset. Qed.

Lemma dormant_reset ds : dormant ds -> dormant (map reset_lv ds).
Proof.
  intros D. apply Forall_map. revert D. apply Forall_impl. intros d (_ & _ & S & O). exact (dlevel_reset d O S).
Qed.

Lemma reset_dormant f : forall ds, chain_ok f ds -> gstack ds = [] -> dormant (map reset_lv ds).
Proof.
  induction ds as [|d inner IH]; [intros []|]. cbn [chain_ok gstack map]. intros [O H] G.
  destruct (l_qs d).
  - destruct H as (_ & _ & S & _ & Sub). constructor; [exact (dlevel_reset d O S)|exact (IH Sub G)].
  - constructor; [exact (dlevel_reset d O G)|apply dormant_reset, H].
Qed.

Lemma gstack_nl_if b d inner : gstack (nl_if b d :: inner) = gstack (d :: inner).
Proof. destruct b; reflexivity. Qed.

Lemma style_nl_if b d inner : style_chain (nl_if b d :: inner) = style_chain (d :: inner).
Proof. destruct b; reflexivity. Qed.

Lemma quote_nl_if b d inner : quote_chain (nl_if b d :: inner) = quote_chain (d :: inner).
Proof. destruct b; reflexivity. Qed.

Lemma chain_fin b d inner :
  lv_ok d -> l_nl d = false -> l_run d = true ->
  (if l_qs d then l_stack d = [] /\ anyb (l_mask d) sBlockPre = false /\ chain_ok b inner else dormant inner) ->
  chain_ok b (nl_if b d :: inner).
Proof.
  intros O N R H. destruct b; cbn [nl_if set_nl chain_ok l_qs l_nl l_run l_stack l_mask].
  all: split; [auto using lv_ok_set_nl|]; destruct (l_qs d); splits; try tauto; congruence.
Qed.

Lemma pre_ok_set_run d : pre_ok d -> pre_ok (set_run d).
Proof. intros [O C N D]. constructor; auto. apply lv_ok_set_run, O. Qed.

(* The invariant of the chunk-free reading between two tokens, with [r] still
   to read: right after a line end no span is open; every open span is closed
   on the rest of its line. *)
Definition chain_inv (f : bool) (ds : dec) (r : bytes) : Prop :=
  chain_ok f ds /\ (f = true -> gstack ds = []) /\ closes (gstack ds) r.

(* the token [firstn adv r], which leaves the chain [ds'], keeps the invariant
   and is accepted by the checker from the stack [gst] *)
Definition step_ok (gst : bytes) (r : bytes) (adv : nat) (ds' : dec) : Prop :=
  chain_inv (ends_nl r adv) ds' (skipn adv r) /\
  bstep gst (style_chain ds') (firstn adv r) = Some (gstack ds').

(* the level [d], above a chain that has not run, returns a token and is left
   as [d']; as a quote level only when it starts the quote *)
Lemma level_step_ok d d' inner r adv :
  dormant inner -> accepts d (firstn adv r) d' -> l_run d' = true -> l_nl d' = false ->
  (l_qs d' = false \/ l_stack d' = [] /\ anyb (l_mask d') sBlockPre = false /\ inner <> []) ->
  closes (l_stack d') (skipn adv r) -> (ends_nl r adv = true -> l_stack d' = []) ->
  step_ok (l_stack d) r adv (fin r adv (d' :: inner)).
Proof.
  intros Dm [O B] R N Q C E.
  assert (G : gstack (d' :: inner) = l_stack d').
  { cbn [gstack]. destruct (l_qs d'); [|reflexivity]. rewrite (dormant_gstack _ Dm).
    destruct Q as [Q|Q]; [discriminate|]. symmetry. apply Q. }
  assert (St : style_chain (d' :: inner) = l_mask d').
  { cbn [style_chain]. rewrite R. destruct inner; [reflexivity|]. rewrite (dormant_style _ Dm). apply N.lor_0_r. }
  unfold step_ok, chain_inv. cbn [fin]. rewrite gstack_nl_if, style_nl_if, G, St. splits; auto.
  apply chain_fin; auto. destruct (l_qs d'); [|exact Dm].
  destruct Q as [Q|(S & BP & Ne)]; [discriminate|]. splits; auto using dormant_chain_ok.
Qed.

Lemma span_branch d inner r adv d' :
  dormant inner -> pre_ok d -> l_run d = true -> l_qs d = false ->
  closes (l_stack d) r -> scan_span d r true = LTok adv d' ->
  step_ok (l_stack d) r adv (fin r adv (d' :: inner)).
Proof.
  intros Dm P R Q Cl H.
  destruct (scan_span_step d r adv d' P Cl H) as (A & Cl' & Nl & R' & N' & Q').
  apply level_step_ok; auto; try congruence.
  - rewrite N'. exact (po_nl d P).
  - left. congruence.
  - intros E. exact (Nl (ends_nl_has_nl _ _ E)).
Qed.

Lemma block_step_ok d inner r adv M C :
  dormant inner -> pre_ok d -> l_stack d = [] -> l_run d = true -> l_qs d = false ->
  dirs_ok M C = true -> no_span M C = true ->
  step_ok [] r adv (fin r adv (add_mask d M C :: inner)).
Proof.
  intros Dm P S R Q HM NS. rewrite <- S.
  assert (S' : l_stack (add_mask d M C) = []) by exact S.
  apply level_step_ok; rewrite ?S'; auto using accepts_block; [exact (po_nl d P)|exact I].
Qed.

(* a level that is no quote level after its prelude *)
Lemma own_step d1 inner1 rec r adv ds0 :
  pre_ok d1 -> l_qs d1 = false -> chain_ok false (d1 :: inner1) -> closes (l_stack d1) r ->
  scan_body d1 inner1 rec r true = STok adv ds0 ->
  step_ok (l_stack d1) r adv (fin r adv ds0).
Proof.
  intros P Q A Cl. cbn [chain_ok] in A. rewrite Q in A. destruct A as (_ & Dm & _ & St).
  pose proof (pre_ok_set_run d1 P) as P'.
  rewrite scan_body_eq. unfold body_branch. rewrite Q. cbn [andb].
  destruct (l_stack d1) as [|k st] eqn:S.
  2:{ (* inside a span *)
      assert (R : l_run d1 = true) by (destruct (l_run d1); [reflexivity|discriminate (St eq_refl)]).
      intros H. apply lift_l_tok in H. destruct H as [d' [H ->]].
      rewrite <- S. apply span_branch; auto. rewrite S. exact Cl. }
  rewrite has_anyb by apply single_BlockPre.
  destruct (anyb (l_mask d1) sBlockPre) eqn:BP.
  { (* inside a preformatted block *)
    intros H. apply lift_l_tok in H. destruct H as [d' [H ->]].
    pose proof (scan_pre_cases (set_run d1) r true) as K. rewrite H in K. destruct K as [[->| ->] _].
    - rewrite <- S. apply (level_step_ok (set_run d1)); auto using accepts_plain; [exact (po_nl _ P')|].
      cbn [set_run l_stack]. rewrite S. exact I.
    - rewrite (add_mask_style (set_run d1) _ _ _ single_BlockPre BP). apply block_step_ok; auto. }
  destruct (head_is r c_gt).
  - (* a block quote starts *)
    rewrite quote_undecided_eof. intros [= <- <-].
    set (inner' := match inner1 with [] => [level0] | _ :: _ => inner1 end).
    assert (Dm' : dormant inner') by (unfold inner'; destruct inner1; [apply dormant_level0|exact Dm]).
    assert (Ne' : inner' <> []) by (unfold inner'; destruct inner1; congruence).
    assert (A : accepts d1 (firstn (starts_block_quote r) r) (quote_start d1)).
    { apply (accepts_flags _ _ (add_mask d1 (N.lor sBlockQuote sBlockQuoteStart) sBlockQuoteStart));
        try reflexivity. apply accepts_block; auto. }
    assert (BPd : anyb (l_mask (quote_start d1)) sBlockPre = false).
    { cbn [quote_start add_mask set_mask l_mask]. rewrite anyb_lor, BP. reflexivity. }
    assert (Sd : l_stack (quote_start d1) = []) by exact S.
    rewrite <- S. apply level_step_ok; rewrite ?Sd; cbn [closes]; auto. exact (po_nl d1 P).
  - (* the tail of scan at this level *)
    intros H. apply lift_l_tok in H. destruct H as [d' [H ->]]. rewrite scan_own_eq in H.
    destruct (is_prefix fence r).
    + (* a fence starts a preformatted block *)
      assert (d' = pre_start (set_run d1)) as -> by (destruct (nl_index r); injection H as _ <-; reflexivity).
      apply block_step_ok; auto. constructor.
    + pose proof (span_branch (set_run d1) [] r adv d' (Forall_nil _) P' eq_refl Q) as SB.
      cbn [set_run l_stack] in SB. rewrite S in SB. apply SB; [exact I|exact H].
Qed.

(* the quote depth does not drop *)
Definition depth_le (ds ds' : dec) : Prop :=
  forall q q', quote_chain ds = Some q -> quote_chain ds' = Some q' -> q <= q'.

Lemma depth_own d inner ds' : l_qs d = false -> depth_le (d :: inner) ds'.
Proof. intros Q q q' Hq _. cbn [quote_chain] in Hq. rewrite Q in Hq. injection Hq as <-. apply Nat.le_0_l. Qed.

Lemma depth_quote d inner b d1 x :
  l_qs d = true -> l_qs d1 = true -> depth_le inner x -> depth_le (d :: inner) (nl_if b d1 :: x).
Proof.
  unfold depth_le. intros Q Q1 M q q'. rewrite quote_nl_if. cbn [quote_chain]. rewrite Q, Q1.
  destruct (quote_chain inner); [|discriminate]. destruct (quote_chain x); [|discriminate].
  intros [= <-] [= <-]. apply le_n_S, M; reflexivity.
Qed.

Lemma quote_step_ok gst r adv d1 x :
  pre_ok d1 -> l_run d1 = true -> l_qs d1 = true -> l_stack d1 = [] ->
  anyb (l_mask d1) sBlockPre = false ->
  step_ok gst r adv x -> step_ok gst r adv (fin r adv (d1 :: x)).
Proof.
  intros P R Q S B [(Ax & Ex & Cx) Bx].
  unfold step_ok, chain_inv. cbn [fin]. rewrite gstack_nl_if, style_nl_if. cbn [gstack style_chain]. rewrite Q, R.
  destruct x as [|x0 xt]; [destruct Ax|].
  splits; auto.
  - apply chain_fin; auto; [apply po_ok, P|apply (po_nl _ P)|]. rewrite Q. auto.
  - apply bstep_lor; auto; [apply (po_nodir _ P)|].
    intros c Hc. rewrite (pre_ok_spans _ c P Hc), S. reflexivity.
Qed.

(* The prelude of scan keeps the chain predicate and consumes lastNewline:
   after a line end, where no span is open, every level starts afresh. *)
Lemma prelude_chain f d inner :
  chain_ok f (d :: inner) -> (f = true -> gstack (d :: inner) = []) ->
  pre_ok (prelude_lv d) /\
  chain_ok false (prelude_lv d :: prelude_inner d inner) /\
  gstack (prelude_lv d :: prelude_inner d inner) = gstack (d :: inner) /\
  (f = false -> l_qs (prelude_lv d) = l_qs d).
Proof.
  cbn [chain_ok gstack]. intros [O A] Fg. pose proof (prelude_ok d O) as P.
  rewrite prelude_qs, prelude_run, prelude_stack, prelude_nl. unfold prelude_inner.
  split; [exact P|]. destruct (l_qs d).
  - destruct A as (N & R & S & B & Sub). rewrite N, R. destruct f; cbn [negb andb].
    + specialize (Fg eq_refl). splits; auto using (po_ok _ P), (reset_dormant true); congruence.
    + splits; auto using (po_ok _ P).
      destruct (anyb (l_mask (prelude_lv d)) sBlockPre) eqn:E; [|reflexivity]. apply prelude_bp in E. congruence.
  - destruct A as (Dm & Rn & Sn). rewrite andb_false_r.
    splits; auto using (po_ok _ P); [destruct (l_nl d); auto using dormant_reset|].
    destruct (l_run d); [|auto]. destruct (l_nl d) eqn:Nl; [|discriminate].
    intros _. apply Fg. rewrite <- Rn; auto.
Qed.

(* One token of the chunk-free reading keeps the invariant: after the prelude,
   a running quote level delegates to the chain below, any other level delimits
   the token itself. *)
Theorem chain_step : forall ds r adv ds' f,
  chain_inv f ds r -> scan ds r true = STok adv ds' ->
  step_ok (gstack ds) r adv ds' /\
  (f = false -> depth_le ds ds').
Proof.
  induction ds as [|d inner IH]; intros r adv ds' f (A & Fg & Cl) H; [discriminate|].
  pose proof (scan_tok_nonempty _ _ _ _ _ H) as Hne.
  rewrite scan_cons in H by (destruct r; [congruence|reflexivity]).
  apply finish_tok in H. destruct H as [ds0 [H ->]].
  destruct (prelude_chain f d inner A Fg) as (P & A1 & G1 & Qf). rewrite <- G1 in *.
  pose proof (prelude_qs_inner d inner) as Hi.
  set (d1 := prelude_lv d) in *. set (inner1 := prelude_inner d inner) in *.
  destruct (l_qs d1) eqn:Q1.
  - (* delegated to the chain below *)
    cbn [chain_ok gstack] in A1, Cl |- *. rewrite Q1 in *. destruct A1 as (_ & _ & R & S & B & Sub).
    rewrite (Hi eq_refl) in *.
    rewrite scan_body_delegates in H; auto;
      [|rewrite has_anyb by apply single_BlockPre; exact B|intros ->; exact Sub].
    apply cons_l_tok in H. destruct H as [x [Hx ->]].
    destruct (IH r adv x false) as [Sx Mx]; [unfold chain_inv; splits; auto; discriminate|exact Hx|].
    split; [apply quote_step_ok; auto|].
    intros F. apply depth_quote; auto. symmetry. exact (Qf F).
  - replace (gstack (d1 :: inner1)) with (l_stack d1) in * by (cbn [gstack]; rewrite Q1; reflexivity).
    split; [exact (own_step _ _ _ r adv ds0 P Q1 A1 Cl H)|].
    intros F. apply depth_own. symmetry. exact (Qf F).
Qed.

Lemma bstep_virtual : bstep [] bq_end_style [] = Some [].
Proof. vm_compute. reflexivity. Qed.

Theorem trace_brackets ds r os : trace ds r os ->
  forall f, chain_inv f ds r -> brackets_from (gstack ds) os = Some [].
Proof.
  induction 1; intros f J.
  { cbn [brackets_from]. f_equal. apply closes_nil_input, J. }
  destruct (chain_step ds r adv ds' f J Hs) as [[J' B'] Mono]. specialize (IHtrace _ J').
  unfold shown. destruct (curr <? prev) eqn:Hlt; cbn [app brackets_from o_style o_data].
  - (* the quote level can only drop right after the end of a line, where no span is open *)
    assert (G0 : gstack ds = []).
    { destruct f; [apply J; reflexivity|].
      apply Nat.ltb_lt in Hlt. pose proof (Mono eq_refl _ _ Hp Hc). lia. }
    rewrite G0 in *. rewrite bstep_virtual, B'. exact IHtrace.
  - rewrite B'. exact IHtrace.
Qed.

Lemma brackets_from_app st a b :
  brackets_from st (a ++ b)
  = match brackets_from st a with Some st' => brackets_from st' b | None => None end.
Proof.
  revert st. induction a as [|o a IH]; intros st; cbn [app brackets_from]; [reflexivity|].
  destruct (bstep st (o_style o) (o_data o)); [apply IH|reflexivity].
Qed.

(* the checker accepts the ideal sequence with no span left open, hence every
   cut of it: all of it, or a prefix that ends with ErrTooLong *)
Theorem cut_brackets input a : cut_of a (ideal input, EEOF) -> brackets_ok (fst a) (snd a) = true.
Proof.
  intros [t [E [Full End]]]. cbn [fst] in E.
  assert (J : chain_inv false dec0 input).
  { split; [apply dormant_chain_ok; [discriminate|exact dormant_level0]|]. split; [discriminate|exact I]. }
  pose proof (trace_brackets _ _ _ (proj2 (ideal_run input)) false J) as B. change (gstack dec0) with (@nil byte) in B.
  rewrite E, brackets_from_app in B. unfold brackets_ok.
  destruct (brackets_from [] (fst a)) as [st|]; [|discriminate].
  destruct End as [Ee|Ee]; rewrite Ee; [|apply orb_true_r].
  destruct (Full Ee) as [-> _]. injection B as ->. reflexivity.
Qed.
