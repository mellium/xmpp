(* C17/ProofsRun.v — the bufio.Scanner driver and Decoder.Next against the
   chunk-free reading: every token a chunked run returns is the token the split
   function returns on all remaining input at EOF.  Hence every run is a cut of
   the ideal run, which no limit cuts, and the chunk-free run at the same limit
   is a cut of every run ([decode_cut]). *)
From XV Require Import lib.Bytes C17.Model C17.ProofsScan.

Lemma ref_scan_too_long lim ds r ds1 : 1 <= lim -> lim <= length r ->
  scan ds (firstn lim r) false = SMore ds1 -> ref_scan lim ds r = FTooLong.
Proof.
  intros Hlim L R. unfold ref_scan. destruct r; [cbn in L; lia|].
  apply Nat.leb_le in L. rewrite L, R. reflexivity.
Qed.

Lemma ref_scan_tok lim ds r adv ds' : scan ds r true = STok adv ds' ->
  ref_scan lim ds r = FTok adv ds' \/ lim <= length r /\ ref_scan lim ds r = FTooLong.
Proof.
  intros R. pose proof (scan_tok_nonempty _ _ _ _ _ R) as Hne. unfold ref_scan. rewrite R.
  destruct r; [congruence|]. destruct (lim <=? _) eqn:L; [|left; reflexivity].
  apply Nat.leb_le in L. destruct (scan ds _ false); auto.
Qed.

Lemma ref_scan_cases lim ds0 r : wf ds0 ->
  match ref_scan lim ds0 r with
  | FTok adv ds' => scan ds0 r true = STok adv ds'
  | FEnd => r = []
  | FTooLong => lim <= length r
  | FPanic => False
  end.
Proof.
  intros W. destruct r as [|c t] eqn:Er; [reflexivity|]. rewrite <- Er.
  assert (Hne : r <> []) by (rewrite Er; congruence).
  destruct (scan ds0 r true) eqn:R.
  - destruct (scan_eof_tok _ _ _ Hne R).
  - destruct (ref_scan_tok lim _ _ _ _ R) as [->|[L ->]]; auto.
  - destruct (scan_no_panic _ _ _ W R).
Qed.

(* [ds] behaves as [ds0] on every extension of [buf] that holds data (on no
   data at EOF scan hands back the chain it was given) *)
Definition eqv (ds ds0 : dec) (buf : bytes) : Prop :=
  forall e b, buf ++ e <> [] -> scan ds (buf ++ e) b = scan ds0 (buf ++ e) b.

(* the scanner [s] stands at a chunk-free state [ds0] with [r] left to read:
   calls since the last token have only asked for more data *)
Record sim (lim : nat) (s : sc) (ds0 : dec) (r : bytes) : Prop := mksim {
  sim_r : r = s_buf s ++ s_rest s;
  sim_eof : s_eof s = true -> s_rest s = [];
  sim_len : length (s_buf s) <= lim;
  sim_wf0 : wf ds0;
  sim_eqv : eqv (s_ds s) ds0 (s_buf s) }.

(* fuel bound of scan_next: every call reads at least one byte, then the read
   that reports EOF, then the last call of the split function *)
Definition need (s : sc) : nat := if s_eof s then 1 else length (s_rest s) + 2.

Lemma eqv_refl ds buf : eqv ds ds buf.
Proof. intros e b _. reflexivity. Qed.

Lemma eqv_grow ds ds0 buf c : eqv ds ds0 buf -> eqv ds ds0 (buf ++ c).
Proof. intros H e b Hne. rewrite <- !app_assoc in *. apply H. exact Hne. Qed.

Lemma read_size_pos lim s : length (s_buf s) < lim -> s_rest s <> [] ->
  1 <= read_size lim s /\ read_size lim s <= length (s_rest s) /\
  length (s_buf s) + read_size lim s <= lim.
Proof.
  intros Hb Hr. unfold read_size.
  assert (1 <= length (s_rest s)) by (destruct (s_rest s); [congruence|cbn; lia]).
  destruct (s_reads s); lia.
Qed.

(* the scanner after the read that follows a request for more data, which left
   the chain [ds1] *)
Definition refill (lim : nat) (s : sc) (ds1 : dec) : sc :=
  match s_rest s with
  | [] => mksc ds1 (s_buf s) [] true (tl (s_reads s)) (s_deof s)
  | _ => let n := read_size lim s in
         mksc ds1 (s_buf s ++ firstn n (s_rest s)) (skipn n (s_rest s))
              (is_nil (skipn n (s_rest s)) && s_deof s) (tl (s_reads s)) (s_deof s)
  end.

Lemma sim_refill lim s ds0 r ds1 :
  sim lim s ds0 r -> s_eof s = false -> length (s_buf s) < lim -> eqv ds1 ds0 (s_buf s) ->
  sim lim (refill lim s ds1) ds0 r /\ need (refill lim s ds1) < need s.
Proof.
  intros [Hr He Hb W0 E] Eof Hl E1. unfold refill, need. rewrite Eof.
  destruct (s_rest s) as [|c rest1] eqn:Er.
  - split; [|cbn; lia]. split; cbn [s_buf s_rest s_eof s_ds]; auto.
  - rewrite <- Er in *.
    destruct (read_size_pos lim s Hl ltac:(rewrite Er; discriminate)) as [R1 [R2 R3]].
    set (n := read_size lim s) in *. cbn [s_buf s_rest s_eof s_ds]. split.
    + split; cbn [s_buf s_rest s_eof s_ds]; auto using eqv_grow.
      * rewrite <- app_assoc, firstn_skipn. exact Hr.
      * intros H. apply andb_true_iff in H. destruct H as [H _].
        destruct (skipn n (s_rest s)); [reflexivity|discriminate].
      * rewrite app_length, firstn_length. lia.
    + rewrite skipn_length. destruct (is_nil (skipn n (s_rest s)) && s_deof s); lia.
Qed.

(* one turn of the loop of bufio.Scanner.Scan *)
Lemma scan_next_S lim f s : scan_next lim (S f) s =
  let more ds1 :=
    if s_eof s then REnd (mksc ds1 [] (s_rest s) true (s_reads s) (s_deof s))
    else if lim <=? length (s_buf s) then RTooLong else scan_next lim f (refill lim s ds1) in
  if negb (is_nil (s_buf s)) || s_eof s then
    match scan (s_ds s) (s_buf s) (s_eof s) with
    | STok adv ds' => RTok (firstn adv (s_buf s))
                        (mksc ds' (skipn adv (s_buf s)) (s_rest s) (s_eof s) (s_reads s) (s_deof s))
    | SMore ds1 => more ds1
    | SPanic => RPanic
    end
  else more (s_ds s).
Proof.
  cbn [scan_next]. unfold refill.
  destruct (negb (is_nil (s_buf s)) || s_eof s); [destruct (scan _ _ _)|]; try reflexivity;
    destruct (s_eof s), (lim <=? length (s_buf s)), (s_rest s); reflexivity.
Qed.

(* what Scan returns from a scanner that stands at [ds0] with [r] left *)
Definition post (lim : nat) (ds0 : dec) (r : bytes) (res : rres) : Prop :=
  match res with
  | RTok t s' => exists adv, scan ds0 r true = STok adv (s_ds s') /\ t = firstn adv r /\
                             sim lim s' (s_ds s') (skipn adv r)
  | REnd _ => r = []
  | RTooLong => ref_scan lim ds0 r = FTooLong
  | RPanic | RFuel => False
  end.

Lemma scan_next_spec lim : 1 <= lim -> forall fuel s ds0 r,
  sim lim s ds0 r -> need s <= fuel -> post lim ds0 r (scan_next lim fuel s).
Proof.
  intros Hlim. induction fuel as [|f IH]; intros s ds0 r S F.
  { unfold need in F. destruct (s_eof s); lia. }
  (* nothing buffered yet, or the split function returned (0, nil, nil): read, and go on *)
  assert (More : forall ds1, s_eof s = false -> length (s_buf s) < lim ->
                 eqv ds1 ds0 (s_buf s) -> post lim ds0 r (scan_next lim f (refill lim s ds1))).
  { intros ds1 Eof Hl E1. destruct (sim_refill lim s ds0 r ds1 S Eof Hl E1) as [S' F'].
    apply IH; [exact S'|lia]. }
  rewrite scan_next_S. cbv zeta. destruct S as [Hr He Hb W0 E].
  destruct (s_buf s) as [|c0 buf0] eqn:Eb; cbn [is_nil negb orb].
  - destruct (s_eof s) eqn:Eof.
    + (* EOF seen: split gets (nil, true) *)
      destruct (s_ds s) as [|d inner].
      { (* a nil chain would panic where [ds0] does not *)
        destruct (scan_no_panic ds0 [x00] true W0). symmetry. exact (E [x00] true ltac:(discriminate)). }
      cbn [scan andb is_nil]. rewrite (He eq_refl) in Hr. exact Hr.
    + replace (lim <=? length (@nil byte)) with false by (cbn; lia).
      apply More; auto; cbn; lia.
  - rewrite <- Eb in *. assert (Hne : s_buf s <> []) by (rewrite Eb; congruence).
    pose proof (E [] (s_eof s) ltac:(rewrite app_nil_r; exact Hne)) as E0. rewrite app_nil_r in E0. rewrite E0.
    destruct (scan ds0 (s_buf s) (s_eof s)) as [ds1|adv ds'|] eqn:R.
    + destruct (s_eof s) eqn:Eof.
      { exfalso. exact (scan_eof_tok _ _ _ Hne R). }
      destruct (lim <=? length (s_buf s)) eqn:TL.
      { apply Nat.leb_le in TL. apply (ref_scan_too_long _ _ _ ds1 Hlim); rewrite Hr.
        - rewrite app_length. lia.
        - rewrite firstn_app_le by lia. replace lim with (length (s_buf s)) by lia.
          rewrite firstn_all. exact R. }
      apply Nat.leb_gt in TL. apply More; auto.
      intros e b Hx. rewrite (scan_more_idem _ _ _ E0 Hne e b). apply E, Hx.
    + pose proof (scan_bounds _ _ _ _ _ R) as [A1 A2].
      assert (W' : wf ds') by (eapply scan_tok_wf; [exact W0|exact R]).
      exists adv. cbn [s_ds]. split; [|split].
      * rewrite Hr. destruct (s_eof s).
        -- rewrite (He eq_refl), app_nil_r. exact R.
        -- apply scan_ext, R.
      * rewrite Hr. symmetry. apply firstn_app_le, A2.
      * split; cbn [s_buf s_rest s_eof s_ds]; auto using eqv_refl.
        -- rewrite Hr. apply skipn_app_le, A2.
        -- rewrite skipn_length. lia.
    + exfalso. exact (scan_no_panic _ _ _ W0 R).
Qed.

(* [a] is [b] cut by ErrTooLong in front of some token, or all of [b] *)
Definition cut_of (a b : list obs * endst) : Prop :=
  exists t, fst b = fst a ++ t /\ (snd a = EEOF -> t = [] /\ snd b = EEOF) /\
            (snd a = EEOF \/ snd a = ETooLong).

Lemma cut_too_long b : cut_of ([], ETooLong) b.
Proof. exists (fst b). split; [reflexivity|]. split; [discriminate|right; reflexivity]. Qed.

Lemma cut_eof : cut_of ([], EEOF) ([], EEOF).
Proof. exists []. auto. Qed.

Lemma cut_cons o a b : cut_of a b -> cut_of (o :: fst a, snd a) (o :: fst b, snd b).
Proof. intros [t [E H]]. exists t. cbn [fst snd]. rewrite E. split; [reflexivity|exact H]. Qed.

Lemma cut_eof_eq a b : cut_of a b -> snd a <> ETooLong -> b = a.
Proof.
  intros [t [E [Full [End|End]]]] NT; [|contradiction].
  destruct (Full End) as [-> Eb]. rewrite app_nil_r in E.
  rewrite (surjective_pairing a), (surjective_pairing b), E, Eb, End. reflexivity.
Qed.

Lemma cons_run_eq (o : obs) (p : list obs * endst) :
  (let '(os, e) := p in (o :: os, e)) = (o :: fst p, snd p).
Proof. destruct p. reflexivity. Qed.

(* measure: tokens still to come *)
Definition todo (ins : bool) (r : bytes) : nat := 2 * length r + (if ins then 1 else 0).

(* One Next of a Decoder whose scanner stands at the chunk-free state of its own
   chain, with [r] left, is the chunk-free step from there at every limit that
   does not cut it; if it fails, the chunk-free step at the same limit fails. *)
Lemma next_ref lim : 1 <= lim -> forall sfuel s ins last r,
  sim lim s (s_ds s) r -> length r + 2 <= sfuel ->
  match next lim sfuel (mkdst s ins last) with
  | NTok o (mkdst s' ins' last') => exists r',
      sim lim s' (s_ds s') r' /\ todo ins' r' < todo ins r /\
      forall lim',
        ref_next lim' (s_ds s) ins last r = inl (Some (o, (s_ds s', ins', last', r'))) \/
        lim' <= length r /\ ref_next lim' (s_ds s) ins last r = inr ETooLong
  | NEnd e =>
      e = EEOF /\ (forall lim', ref_next lim' (s_ds s) ins last r = inr EEOF) \/
      e = ETooLong /\ ref_next lim (s_ds s) ins last r = inr ETooLong
  end.
Proof.
  intros Hlim sfuel s ins last r S SF. unfold next, ref_next. cbn [d_sc d_insert d_last].
  destruct (quote_chain_wf _ (sim_wf0 _ _ _ _ S)) as [q Hq]. rewrite Hq.
  destruct ins.
  - (* the scanned token after a virtual quote end *)
    exists r. split; [exact S|]. split; [unfold todo; lia|]. intros lim'. left. reflexivity.
  - pose proof (scan_next_spec lim Hlim sfuel s _ r S) as N.
    assert (NF : need s <= sfuel).
    { unfold need. rewrite (sim_r _ _ _ _ S), app_length in SF. destruct (s_eof s); lia. }
    specialize (N NF).
    destruct (scan_next lim sfuel s) as [t s'|s'| | |].
    + destruct N as [adv [R [Et S']]].
      pose proof (scan_bounds _ _ _ _ _ R) as [A1 A2].
      destruct (quote_chain_wf _ (sim_wf0 _ _ _ _ S')) as [curr Hc].
      unfold deliver. rewrite Hc.
      destruct (curr <? q) eqn:Drop; exists (skipn adv r).
      all: split; [exact S'|].
      all: split; [unfold todo; rewrite skipn_length; lia|].
      all: intros lim'; destruct (ref_scan_tok lim' _ _ _ _ R) as [->|[L ->]]; [left|right; auto].
      all: rewrite Hc, Drop, Et; reflexivity.
    + left. split; [reflexivity|]. intros lim'. rewrite N. reflexivity.
    + right. split; [reflexivity|]. rewrite N. reflexivity.
    + destruct N.
    + destruct N.
Qed.

Lemma run_cut lim : 1 <= lim -> forall fuel sfuel s ins last r,
  sim lim s (s_ds s) r -> length r + 2 <= sfuel -> todo ins r < fuel ->
  cut_of (ref_run lim fuel (s_ds s) ins last r) (run lim fuel sfuel (mkdst s ins last)) /\
  forall lim', length r < lim' ->
    cut_of (run lim fuel sfuel (mkdst s ins last)) (ref_run lim' fuel (s_ds s) ins last r).
Proof.
  intros Hlim. induction fuel as [|f IH]; intros sfuel s ins last r S SF F; [lia|].
  cbn [run ref_run]. pose proof (next_ref lim Hlim sfuel s ins last r S SF) as N.
  destruct (next lim sfuel (mkdst s ins last)) as [o [s' ins' last']|e].
  - destruct N as [r' [S' [T N]]].
    assert (Lr : length r' <= length r) by (unfold todo in T; destruct ins', ins; lia).
    destruct (IH sfuel s' ins' last' r' S' ltac:(lia) ltac:(lia)) as [C1 C2]. rewrite cons_run_eq. split.
    + destruct (N lim) as [->|[_ ->]]; [rewrite cons_run_eq; apply cut_cons, C1|apply cut_too_long].
    + intros lim' L. destruct (N lim') as [->|[L' _]]; [|lia].
      rewrite cons_run_eq. apply cut_cons, C2. lia.
  - destruct N as [[-> N]|[-> N]].
    + split; [|intros lim' _]; rewrite N; apply cut_eof.
    + rewrite N. split; [|intros lim' _]; apply cut_too_long.
Qed.

Theorem decode_cut lim input reads deof : 1 <= lim ->
  cut_of (ref_decode_lim lim input) (decode_lim lim input reads deof) /\
  forall lim', length input < lim' ->
    cut_of (decode_lim lim input reads deof) (ref_decode_lim lim' input).
Proof.
  intros Hlim. apply (run_cut lim Hlim _ _ (mksc dec0 [] input false reads deof) false [] input).
  - split; cbn; auto using wf_dec0, eqv_refl; try lia.
  - lia.
  - unfold todo. lia.
Qed.

(* what Next shows for the scanned token [t], which takes the quote depth from
   [prev] to [curr]: when the depth drops, a virtual quote end first and then
   the token, without its info string *)
Definition shown (prev curr : nat) (style : N) (t : bytes) : list obs :=
  if curr <? prev then [mkobs [] [] bq_end_style (S curr); mkobs t [] style curr]
  else [mkobs t (info_of style t) style curr].

(* [trace ds r os]: a Decoder whose chain is [ds], with all of [r] still to
   read, shows the observations [os] and then io.EOF, when every token is
   delimited on all remaining input. *)
Inductive trace : dec -> bytes -> list obs -> Prop :=
| tr_eof ds : trace ds [] []
| tr_tok ds r adv ds' prev curr os
    (Hp : quote_chain ds = Some prev) (Hs : scan ds r true = STok adv ds')
    (Hc : quote_chain ds' = Some curr) :
    trace ds' (skipn adv r) os ->
    trace ds r (shown prev curr (style_chain ds') (firstn adv r) ++ os).

(* where the quote depth drops the chunk-free run takes two steps (the pending
   virtual quote end is a state of its own) and the trace one: hence the
   induction over all smaller fuels *)
Lemma ref_trace lim : forall fuel ds last r,
  wf ds -> length r < lim -> todo false r < fuel ->
  exists os, ref_run lim fuel ds false last r = (os, EEOF) /\ trace ds r os.
Proof.
  induction fuel as [fuel IH] using lt_wf_ind. intros ds last r W L F.
  destruct fuel as [|f]; [lia|].
  cbn [ref_run]. unfold ref_next. destruct (quote_chain_wf _ W) as [q Hq]. rewrite Hq.
  pose proof (ref_scan_cases lim ds r W) as C.
  destruct (ref_scan lim ds r) as [adv ds'| | |].
  - pose proof (scan_bounds _ _ _ _ _ C) as [A1 A2].
    assert (W' : wf ds') by (eapply scan_tok_wf; eassumption).
    destruct (quote_chain_wf _ W') as [curr Hc]. rewrite Hc.
    assert (L' : length (skipn adv r) < lim) by (rewrite skipn_length; lia).
    assert (F' : todo false (skipn adv r) + 1 < f) by (unfold todo in *; rewrite skipn_length; lia).
    pose proof (tr_tok ds r adv ds' q curr) as T. unfold shown in T.
    destruct (curr <? q).
    + destruct f as [|f']; [clear - F'; lia|]. cbn [ref_run]. unfold ref_next. rewrite Hc.
      destruct (IH f' (le_S _ _ (le_n _)) ds' (firstn adv r) _ W' L' ltac:(clear - F'; lia)) as [os [-> T']].
      eexists. split; [reflexivity|exact (T _ Hq C Hc T')].
    + destruct (IH f (le_n _) ds' (firstn adv r) _ W' L' ltac:(clear - F'; lia)) as [os [-> T']].
      eexists. split; [reflexivity|exact (T _ Hq C Hc T')].
  - subst r. exists []. split; [reflexivity|apply tr_eof].
  - lia.
  - destruct C.
Qed.

Lemma trace_lossless ds r os : trace ds r os -> r = flat_map o_data os.
Proof.
  induction 1; [reflexivity|]. rewrite flat_map_app, <- IHtrace.
  unfold shown. destruct (curr <? prev); cbn [flat_map o_data app]; rewrite app_nil_r; symmetry; apply firstn_skipn.
Qed.

(* what the Decoder shows on [input] when no limit interferes *)
Definition ideal (input : bytes) : list obs := fst (ref_decode_lim (S (length input)) input).

Lemma ideal_run input :
  ref_decode_lim (S (length input)) input = (ideal input, EEOF) /\ trace dec0 input (ideal input).
Proof.
  destruct (ref_trace (S (length input)) (2 * length input + 2) dec0 [] input wf_dec0 (le_n _)
              ltac:(unfold todo; lia)) as [os [E T]].
  unfold ideal, ref_decode_lim. rewrite E. split; [reflexivity|exact T].
Qed.

Corollary decode_ideal lim input reads deof : 1 <= lim ->
  cut_of (decode_lim lim input reads deof) (ideal input, EEOF).
Proof.
  intros Hlim. rewrite <- (proj1 (ideal_run input)). apply decode_cut; [exact Hlim|apply le_n].
Qed.

Lemma limit_pos : 1 <= limit.
Proof. unfold limit. lia. Qed.
