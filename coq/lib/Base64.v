(* Base64.v — encoding/base64 StdEncoding (RFC 4648 alphabet, '=' padding,
   non-strict trailing bits) on byte strings.

   encode : bytes -> bytes                      (EncodeToString)
   decode : bytes -> option bytes               (DecodeString on newline-free input:
                                                 None = CorruptInputError)
   Bits are handled as tuples of booleans (Byte.to_bits / Byte.of_bits), so the
   round trip needs no arithmetic: a 64-case sweep for the alphabet and
   Byte.of_bits_to_bits for the regrouping. No axioms. *)
From XV Require Import lib.Bytes.

Definition sextet := (bool * bool * bool * bool * bool * bool)%type. (* most significant bit first *)

Definition b64_alphabet : bytes :=
  str "ABCDEFGHIJKLMNOPQRSTUVWXYZabcdefghijklmnopqrstuvwxyz0123456789+/".

Definition b64_pad : byte := "="%byte.

Definition b2n (b : bool) : nat := if b then 1 else 0.

Definition sx_val (s : sextet) : nat :=
  let '(x5, x4, x3, x2, x1, x0) := s in
  b2n x5 * 32 + b2n x4 * 16 + b2n x3 * 8 + b2n x2 * 4 + b2n x1 * 2 + b2n x0.

Definition sx_of (n : nat) : sextet :=
  (Nat.testbit n 5, Nat.testbit n 4, Nat.testbit n 3, Nat.testbit n 2, Nat.testbit n 1, Nat.testbit n 0).

Definition enc6 (s : sextet) : byte := nth (sx_val s) b64_alphabet "A"%byte.

Definition dec6 (c : byte) : option sextet :=
  option_map sx_of (index_where (byte_eqb c) b64_alphabet).

(* bits of a byte, most significant first *)
Definition bits8 (b : byte) : bool * bool * bool * bool * bool * bool * bool * bool :=
  let '(b0, (b1, (b2, (b3, (b4, (b5, (b6, b7))))))) := Byte.to_bits b in
  (b7, b6, b5, b4, b3, b2, b1, b0).

Definition of_bits8 (t : bool * bool * bool * bool * bool * bool * bool * bool) : byte :=
  let '(b7, b6, b5, b4, b3, b2, b1, b0) := t in
  Byte.of_bits (b0, (b1, (b2, (b3, (b4, (b5, (b6, b7))))))).

Definition enc3 (a b c : byte) : bytes :=
  let '(a7, a6, a5, a4, a3, a2, a1, a0) := bits8 a in
  let '(b7, b6, b5, b4, b3, b2, b1, b0) := bits8 b in
  let '(c7, c6, c5, c4, c3, c2, c1, c0) := bits8 c in
  [enc6 (a7, a6, a5, a4, a3, a2); enc6 (a1, a0, b7, b6, b5, b4);
   enc6 (b3, b2, b1, b0, c7, c6); enc6 (c5, c4, c3, c2, c1, c0)].

Definition enc2 (a b : byte) : bytes :=
  let '(a7, a6, a5, a4, a3, a2, a1, a0) := bits8 a in
  let '(b7, b6, b5, b4, b3, b2, b1, b0) := bits8 b in
  [enc6 (a7, a6, a5, a4, a3, a2); enc6 (a1, a0, b7, b6, b5, b4);
   enc6 (b3, b2, b1, b0, false, false); b64_pad].

Definition enc1 (a : byte) : bytes :=
  let '(a7, a6, a5, a4, a3, a2, a1, a0) := bits8 a in
  [enc6 (a7, a6, a5, a4, a3, a2); enc6 (a1, a0, false, false, false, false); b64_pad; b64_pad].

Fixpoint encode (s : bytes) : bytes :=
  match s with
  | [] => []
  | [a] => enc1 a
  | [a; b] => enc2 a b
  | a :: b :: c :: rest => enc3 a b c ++ encode rest
  end.

Definition dec3 (s1 s2 s3 s4 : sextet) : bytes :=
  let '(p5, p4, p3, p2, p1, p0) := s1 in
  let '(q5, q4, q3, q2, q1, q0) := s2 in
  let '(r5, r4, r3, r2, r1, r0) := s3 in
  let '(t5, t4, t3, t2, t1, t0) := s4 in
  [of_bits8 (p5, p4, p3, p2, p1, p0, q5, q4); of_bits8 (q3, q2, q1, q0, r5, r4, r3, r2);
   of_bits8 (r1, r0, t5, t4, t3, t2, t1, t0)].

Definition dec2 (s1 s2 s3 : sextet) : bytes :=
  let '(p5, p4, p3, p2, p1, p0) := s1 in
  let '(q5, q4, q3, q2, q1, q0) := s2 in
  let '(r5, r4, r3, r2, r1, r0) := s3 in
  [of_bits8 (p5, p4, p3, p2, p1, p0, q5, q4); of_bits8 (q3, q2, q1, q0, r5, r4, r3, r2)].

Definition dec1 (s1 s2 : sextet) : bytes :=
  let '(p5, p4, p3, p2, p1, p0) := s1 in
  let '(q5, q4, q3, q2, q1, q0) := s2 in
  [of_bits8 (p5, p4, p3, p2, p1, p0, q5, q4)].

Definition is_nil {A} (l : list A) : bool := match l with [] => true | _ => false end.

(* One-shot decoding of newline-free input. Padding is accepted only in the
   last quantum; any other character outside the alphabet, a quantum cut short
   by the end of the input, or data after the padding is an error. Unused
   trailing bits of a padded quantum are not checked (StdEncoding is not
   Strict). *)
Fixpoint decode (s : bytes) : option bytes :=
  match s with
  | [] => Some []
  | c1 :: c2 :: c3 :: c4 :: rest =>
      match dec6 c1, dec6 c2 with
      | Some s1, Some s2 =>
          match dec6 c3 with
          | Some s3 =>
              match dec6 c4 with
              | Some s4 => option_map (app (dec3 s1 s2 s3 s4)) (decode rest)
              | None => if byte_eqb c4 b64_pad && is_nil rest then Some (dec2 s1 s2 s3) else None
              end
          | None => if byte_eqb c3 b64_pad && byte_eqb c4 b64_pad && is_nil rest
                    then Some (dec1 s1 s2) else None
          end
      | _, _ => None
      end
  | _ => None
  end.

(* Go's decoders skip '\r' and '\n' wherever they occur. *)
Definition is_newline (c : byte) : bool := byte_eqb c "010"%byte || byte_eqb c "013"%byte.
Definition strip_newlines (s : bytes) : bytes := filter (fun c => negb (is_newline c)) s.
Definition decode_go (s : bytes) : option bytes := decode (strip_newlines s).

(* DecodedLen for a padded encoding: the size test of a receiver uses it *)
Definition decoded_len (n : nat) : nat := n / 4 * 3.

Fixpoint decode_pieces (ps : list bytes) : option bytes :=
  match ps with
  | [] => Some []
  | p :: rest =>
      match decode p, decode_pieces rest with
      | Some a, Some b => Some (a ++ b)
      | _, _ => None
      end
  end.

Lemma dec6_enc6 : forall s, dec6 (enc6 s) = Some s.
Proof.
  intros [[[[[x5 x4] x3] x2] x1] x0].
  destruct x5, x4, x3, x2, x1, x0; vm_compute; reflexivity.
Qed.

Lemma dec6_pad : dec6 b64_pad = None.
Proof. vm_compute. reflexivity. Qed.

Lemma enc6_not_pad : forall s, byte_eqb (enc6 s) b64_pad = false.
Proof.
  intros [[[[[x5 x4] x3] x2] x1] x0].
  destruct x5, x4, x3, x2, x1, x0; vm_compute; reflexivity.
Qed.

Lemma of_bits8_bits8 : forall b, of_bits8 (bits8 b) = b.
Proof.
  intro b. unfold bits8, of_bits8.
  destruct (Byte.to_bits b) as [b0 [b1 [b2 [b3 [b4 [b5 [b6 b7]]]]]]] eqn:E.
  rewrite <- E. apply Byte.of_bits_to_bits.
Qed.

Lemma decode_enc3 : forall a b c rest,
  decode (enc3 a b c ++ rest) = option_map (app [a; b; c]) (decode rest).
Proof.
  intros a b c rest. unfold enc3.
  pose proof (of_bits8_bits8 a) as Ha. pose proof (of_bits8_bits8 b) as Hb. pose proof (of_bits8_bits8 c) as Hc.
  destruct (bits8 a) as [[[[[[[a7 a6] a5] a4] a3] a2] a1] a0].
  destruct (bits8 b) as [[[[[[[b7 b6] b5] b4] b3] b2] b1] b0].
  destruct (bits8 c) as [[[[[[[c7 c6] c5] c4] c3] c2] c1] c0].
  cbn [app decode]. rewrite !dec6_enc6. cbn [dec3]. rewrite Ha, Hb, Hc. reflexivity.
Qed.

Lemma decode_enc2 : forall a b, decode (enc2 a b) = Some [a; b].
Proof.
  intros a b. unfold enc2.
  pose proof (of_bits8_bits8 a) as Ha. pose proof (of_bits8_bits8 b) as Hb.
  destruct (bits8 a) as [[[[[[[a7 a6] a5] a4] a3] a2] a1] a0].
  destruct (bits8 b) as [[[[[[[b7 b6] b5] b4] b3] b2] b1] b0].
  cbn [decode]. rewrite !dec6_enc6, dec6_pad. cbn [byte_eqb is_nil andb dec2].
  replace (Byte.eqb b64_pad b64_pad) with true by reflexivity. cbn [andb].
  rewrite Ha, Hb. reflexivity.
Qed.

Lemma decode_enc1 : forall a, decode (enc1 a) = Some [a].
Proof.
  intros a. unfold enc1.
  pose proof (of_bits8_bits8 a) as Ha.
  destruct (bits8 a) as [[[[[[[a7 a6] a5] a4] a3] a2] a1] a0].
  cbn [decode]. rewrite !dec6_enc6, dec6_pad. cbn [byte_eqb is_nil andb dec1].
  replace (Byte.eqb b64_pad b64_pad) with true by reflexivity. cbn [andb].
  rewrite Ha. reflexivity.
Qed.

Lemma list_ind3 {A} (P : list A -> Prop) :
  P [] -> (forall a, P [a]) -> (forall a b, P [a; b]) ->
  (forall a b c l, P l -> P (a :: b :: c :: l)) -> forall l, P l.
Proof.
  intros H0 H1 H2 H3.
  assert (H : forall n l, length l <= n -> P l).
  { induction n as [|n IH]; intros l Hl.
    - destruct l; [exact H0|cbn in Hl; lia].
    - destruct l as [|a [|b [|c l]]]; [exact H0|apply H1|apply H2|].
      apply H3. apply IH. cbn in Hl. lia. }
  intro l. apply (H (length l)). lia.
Qed.

Lemma encode_cons3 : forall a b c l, encode (a :: b :: c :: l) = enc3 a b c ++ encode l.
Proof. reflexivity. Qed.

Theorem decode_encode : forall b, decode (encode b) = Some b.
Proof.
  induction b as [|a|a b|a b c l IH] using list_ind3.
  - reflexivity.
  - apply decode_enc1.
  - apply decode_enc2.
  - rewrite encode_cons3, decode_enc3, IH. reflexivity.
Qed.

Definition no_newline (s : bytes) : bool := forallb (fun c => negb (is_newline c)) s.

Lemma enc6_not_newline : forall s, negb (is_newline (enc6 s)) = true.
Proof.
  intros [[[[[x5 x4] x3] x2] x1] x0].
  destruct x5, x4, x3, x2, x1, x0; vm_compute; reflexivity.
Qed.

Lemma enc3_group : forall a b c, length (enc3 a b c) = 4 /\ no_newline (enc3 a b c) = true.
Proof.
  intros a b c. unfold enc3, no_newline.
  destruct (bits8 a) as [[[[[[[a7 a6] a5] a4] a3] a2] a1] a0].
  destruct (bits8 b) as [[[[[[[b7 b6] b5] b4] b3] b2] b1] b0].
  destruct (bits8 c) as [[[[[[[c7 c6] c5] c4] c3] c2] c1] c0].
  cbn [forallb]. rewrite !enc6_not_newline. split; reflexivity.
Qed.

Lemma enc2_group : forall a b, length (enc2 a b) = 4 /\ no_newline (enc2 a b) = true.
Proof.
  intros a b. unfold enc2, no_newline.
  destruct (bits8 a) as [[[[[[[a7 a6] a5] a4] a3] a2] a1] a0].
  destruct (bits8 b) as [[[[[[[b7 b6] b5] b4] b3] b2] b1] b0].
  cbn [forallb]. rewrite !enc6_not_newline. split; reflexivity.
Qed.

Lemma enc1_group : forall a, length (enc1 a) = 4 /\ no_newline (enc1 a) = true.
Proof.
  intros a. unfold enc1, no_newline.
  destruct (bits8 a) as [[[[[[[a7 a6] a5] a4] a3] a2] a1] a0].
  cbn [forallb]. rewrite !enc6_not_newline. split; reflexivity.
Qed.

(* EncodedLen *)
Theorem encode_length : forall b, length (encode b) = 4 * ((length b + 2) / 3).
Proof.
  induction b as [|a|a b|a b c l IH] using list_ind3.
  - reflexivity.
  - cbn [encode]. rewrite (proj1 (enc1_group a)). reflexivity.
  - cbn [encode]. rewrite (proj1 (enc2_group a b)). reflexivity.
  - rewrite encode_cons3, app_length, (proj1 (enc3_group a b c)), IH.
    cbn [length]. replace (S (S (S (length l))) + 2) with (1 * 3 + (length l + 2)) by lia.
    rewrite Nat.div_add_l by lia. lia.
Qed.

Theorem encode_app : forall a b, length a mod 3 = 0 -> encode (a ++ b) = encode a ++ encode b.
Proof.
  induction a as [|x|x y|x y z l IH] using list_ind3; intros b H.
  - reflexivity.
  - cbn in H. discriminate.
  - cbn in H. discriminate.
  - cbn [app]. rewrite !encode_cons3, <- app_assoc. f_equal. apply IH.
    cbn [length] in H. replace (S (S (S (length l)))) with (length l + 1 * 3) in H by lia.
    rewrite Nat.mod_add in H by lia. exact H.
Qed.

(* The chunk lemma. A sender may cut the byte string anywhere and encode every
   chunk on its own (only the last one can need padding when the cuts are at
   multiples of three, but the statement does not even need that): decoding the
   pieces one by one gives back the concatenation. *)
Theorem decode_pieces_encode : forall chunks : list bytes,
  decode_pieces (map encode chunks) = Some (concat chunks).
Proof.
  induction chunks as [|c rest IH]; [reflexivity|].
  cbn [map decode_pieces concat]. rewrite decode_encode, IH. reflexivity.
Qed.

(* ... and when all cuts but the last are at multiples of three the pieces are
   exactly the cuts, at multiples of four, of the encoding of the whole. *)
Theorem encode_concat : forall chunks : list bytes,
  Forall (fun c => length c mod 3 = 0) (removelast chunks) ->
  concat (map encode chunks) = encode (concat chunks).
Proof.
  induction chunks as [|c rest IH]; intro H; [reflexivity|].
  destruct rest as [|c2 rest].
  - cbn. rewrite !app_nil_r. reflexivity.
  - cbn [removelast] in H. inversion H as [|? ? Hc Hr]; subst.
    cbn [map concat]. rewrite encode_app by exact Hc. f_equal. apply IH. exact Hr.
Qed.

Lemma strip_newlines_id : forall s, no_newline s = true -> strip_newlines s = s.
Proof.
  induction s as [|c s IH]; intro H; [reflexivity|].
  apply andb_true_iff in H. destruct H as [Hc Hs].
  cbn [strip_newlines filter]. rewrite Hc. f_equal. apply IH. exact Hs.
Qed.

Lemma encode_no_newline : forall b, no_newline (encode b) = true.
Proof.
  induction b as [|a|a b|a b c l IH] using list_ind3.
  - reflexivity.
  - apply enc1_group.
  - apply enc2_group.
  - rewrite encode_cons3. unfold no_newline in *. rewrite forallb_app, IH, andb_true_r. apply enc3_group.
Qed.

Theorem decode_go_encode : forall b, decode_go (encode b) = Some b.
Proof.
  intro b. unfold decode_go. rewrite strip_newlines_id by apply encode_no_newline.
  apply decode_encode.
Qed.

Example b64_ex1 : encode (str "hello world") = str "aGVsbG8gd29ybGQ=".
Proof. vm_compute. reflexivity. Qed.
Example b64_ex2 : decode (str "QUJD") = Some (str "ABC") /\ decode (str "QUJDR") = None /\
                  decode (str "QQ==QUJD") = None /\ decode (str "QR==") = Some (str "A") /\
                  decode (str "QUJD!A==") = None /\ decode (str "Q===") = None.
Proof. vm_compute. repeat split; reflexivity. Qed.

Lemma dec3_length : forall a b c d, length (dec3 a b c d) = 3.
Proof.
  intros [[[[[a5 a4] a3] a2] a1] a0] [[[[[b5 b4] b3] b2] b1] b0]
         [[[[[c5 c4] c3] c2] c1] c0] [[[[[d5 d4] d3] d2] d1] d0]. reflexivity.
Qed.

Lemma dec2_length : forall a b c, length (dec2 a b c) = 2.
Proof.
  intros [[[[[a5 a4] a3] a2] a1] a0] [[[[[b5 b4] b3] b2] b1] b0]
         [[[[[c5 c4] c3] c2] c1] c0]. reflexivity.
Qed.

Lemma dec1_length : forall a b, length (dec1 a b) = 1.
Proof.
  intros [[[[[a5 a4] a3] a2] a1] a0] [[[[[b5 b4] b3] b2] b1] b0]. reflexivity.
Qed.

Lemma decoded_len_step : forall n, decoded_len (4 + n) = 3 + decoded_len n.
Proof.
  intro n. unfold decoded_len.
  replace (4 + n) with (n + 1 * 4) by lia. rewrite Nat.div_add by discriminate. lia.
Qed.

Lemma decoded_len_mono : forall a b, a <= b -> decoded_len a <= decoded_len b.
Proof.
  intros a b H. unfold decoded_len.
  apply Nat.mul_le_mono_r. apply Nat.div_le_mono; [discriminate|exact H].
Qed.

Lemma decode_length_le : forall s d,
  decode s = Some d -> length d <= decoded_len (length s).
Proof.
  intro s. induction s as [s IH] using (induction_ltof1 _ (@length byte)). intros d H.
  destruct s as [|c1 [|c2 [|c3 [|c4 rest]]]]; cbn [decode] in H; try discriminate.
  - injection H as <-. cbn. lia.
  - change (length (c1 :: c2 :: c3 :: c4 :: rest)) with (4 + length rest).
    rewrite decoded_len_step.
    destruct (dec6 c1) as [s1|]; [|discriminate].
    destruct (dec6 c2) as [s2|]; [|discriminate].
    destruct (dec6 c3) as [s3|].
    + destruct (dec6 c4) as [s4|].
      * destruct (decode rest) as [d'|] eqn:Er; [|discriminate].
        cbn [option_map] in H. injection H as <-.
        rewrite app_length, dec3_length.
        assert (length d' <= decoded_len (length rest)) by (apply IH; [unfold ltof; cbn; lia|exact Er]).
        lia.
      * destruct (byte_eqb c4 b64_pad && is_nil rest); [|discriminate].
        injection H as <-. rewrite dec2_length. lia.
    + destruct (byte_eqb c3 b64_pad && byte_eqb c4 b64_pad && is_nil rest); [|discriminate].
      injection H as <-. rewrite dec1_length. lia.
Qed.

Lemma strip_newlines_length : forall s, length (strip_newlines s) <= length s.
Proof.
  unfold strip_newlines. induction s as [|c s IH]; cbn [filter length]; [lia|].
  destruct (negb (is_newline c)); cbn [length]; lia.
Qed.

(* DecodedLen of the text as received, newlines and all, bounds what decoding it gives *)
Lemma decode_go_length_le : forall p a,
  decode_go p = Some a -> length a <= decoded_len (length p).
Proof.
  intros p a H. unfold decode_go in H.
  pose proof (decode_length_le _ _ H) as H1.
  pose proof (decoded_len_mono _ _ (strip_newlines_length p)). lia.
Qed.
