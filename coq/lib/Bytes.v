(* Bytes.v — byte strings shared by all models.
   bytes := list byte (Coq.Init.Byte.byte, 256 constructors).
   The tables of gen/*.v and the examples write byte strings as hex [string]s;
   [hex] decodes them, [to_hex] prints them (case files written by the harness
   use the literals of lib/Pack.v instead). *)
From Coq Require Export Strings.Byte String Ascii.
From Coq Require Export List Arith NArith Lia Bool.
Export ListNotations.
From XV Require Import lib.ListAux.

Definition bytes := list byte.

Definition byte_eqb (a b : byte) : bool := Byte.eqb a b.

Lemma byte_eqb_eq a b : byte_eqb a b = true <-> a = b.
Proof. unfold byte_eqb.
  split.
  - intro H. apply Byte.byte_dec_bl in H. exact H.
  - intro H. apply Byte.byte_dec_lb. exact H.
Qed.

Lemma byte_eqb_refl a : byte_eqb a a = true.
Proof. apply byte_eqb_eq. reflexivity. Qed.

Lemma byte_eqb_neq a b : byte_eqb a b = false <-> a <> b.
Proof. rewrite <- not_true_iff_false, byte_eqb_eq. reflexivity. Qed.

Definition byte_eq_dec (a b : byte) : {a = b} + {a <> b}.
Proof. destruct (byte_eqb a b) eqn:E.
  - left. apply byte_eqb_eq. exact E.
  - right. apply byte_eqb_neq. exact E.
Defined.

Fixpoint bytes_eqb (a b : bytes) : bool :=
  match a, b with
  | [], [] => true
  | x :: a', y :: b' => byte_eqb x y && bytes_eqb a' b'
  | _, _ => false
  end.

Lemma bytes_eqb_eq a b : bytes_eqb a b = true <-> a = b.
Proof.
  revert b; induction a as [|x a IH]; intros [|y b]; simpl; split; intro H;
    try reflexivity; try discriminate.
  - apply andb_true_iff in H. destruct H as [H1 H2].
    apply byte_eqb_eq in H1. apply IH in H2. congruence.
  - inversion H; subst. rewrite byte_eqb_refl. simpl. apply IH. reflexivity.
Qed.

Lemma bytes_eqb_refl a : bytes_eqb a a = true.
Proof. apply bytes_eqb_eq. reflexivity. Qed.

Lemma bytes_eqb_neq a b : bytes_eqb a b = false <-> a <> b.
Proof. rewrite <- not_true_iff_false, bytes_eqb_eq. reflexivity. Qed.

Lemma bytes_eqb_sym a b : bytes_eqb a b = bytes_eqb b a.
Proof. apply eq_true_iff_eq. rewrite !bytes_eqb_eq. split; congruence. Qed.

Definition bN (b : byte) : N := Byte.to_N b.

Definition byte_of_N (n : N) : byte :=
  match Byte.of_N (n mod 256) with Some b => b | None => x00 end.

Lemma byte_of_N_bN b : byte_of_N (bN b) = b.
Proof. destruct b; reflexivity. Qed.

Lemma bN_inj a b : bN a = bN b -> a = b.
Proof. intro H. rewrite <- (byte_of_N_bN a), <- (byte_of_N_bN b), H. reflexivity. Qed.

Definition in_bytes (c : byte) (s : bytes) : bool := existsb (byte_eqb c) s.

Lemma in_bytes_In c s : in_bytes c s = true <-> In c s.
Proof. exact (existsb_eqb_In byte_eqb byte_eqb_eq c s). Qed.

Lemma in_bytes_false c s : in_bytes c s = false <-> ~ In c s.
Proof. rewrite <- not_true_iff_false, in_bytes_In. reflexivity. Qed.

Definition hexdigit (n : N) : byte :=
  match n with
  | 0 => "0" | 1 => "1" | 2 => "2" | 3 => "3" | 4 => "4" | 5 => "5" | 6 => "6" | 7 => "7"
  | 8 => "8" | 9 => "9" | 10 => "a" | 11 => "b" | 12 => "c" | 13 => "d" | 14 => "e" | _ => "f"
  end%N%byte.

Definition hexval (c : byte) : option N :=
  let n := bN c in
  (if (48 <=? n) && (n <=? 57) then Some (n - 48)
  else if (97 <=? n) && (n <=? 102) then Some (n - 87)
  else if (65 <=? n) && (n <=? 70) then Some (n - 55)
  else None)%N.

Fixpoint unhex_bytes (s : bytes) : bytes :=
  match s with
  | a :: b :: rest =>
      match hexval a, hexval b with
      | Some x, Some y => byte_of_N (x * 16 + y)%N :: unhex_bytes rest
      | _, _ => []
      end
  | _ => []
  end.

Definition hex (s : string) : bytes := unhex_bytes (list_byte_of_string s).

Definition to_hex (s : bytes) : string :=
  string_of_list_byte (flat_map (fun b => [hexdigit (bN b / 16)%N; hexdigit (bN b mod 16)%N]) s).

Definition str (s : string) : bytes := list_byte_of_string s.

Fixpoint index_where {A} (p : A -> bool) (l : list A) : option nat :=
  match l with
  | [] => None
  | x :: r => if p x then Some 0 else option_map S (index_where p r)
  end.

Fixpoint is_prefix (p s : bytes) : bool :=
  match p, s with
  | [], _ => true
  | x :: p', y :: s' => byte_eqb x y && is_prefix p' s'
  | _, [] => false
  end.
