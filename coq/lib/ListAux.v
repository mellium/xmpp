(* ListAux.v — facts about lists that the standard library of Coq 8.16 does not
   have; nothing of any model. *)
From Coq Require Import List Bool.
Import ListNotations.

Lemma skipn_add {A} a b (l : list A) : skipn (a + b) l = skipn b (skipn a l).
Proof.
  revert l; induction a as [|a IH]; intro l; [reflexivity|].
  destruct l as [|x l]; cbn [plus skipn]; [rewrite skipn_nil; reflexivity|apply IH].
Qed.

Lemma firstn_app_exact {A} (a b : list A) : firstn (length a) (a ++ b) = a.
Proof. induction a as [|x a IH]; cbn [length firstn app]; [reflexivity|rewrite IH; reflexivity]. Qed.

Lemma skipn_app_exact {A} (a b : list A) : skipn (length a) (a ++ b) = b.
Proof. induction a as [|x a IH]; [reflexivity|exact IH]. Qed.

Lemma existsb_eqb_In {A} (eqb : A -> A -> bool) :
  (forall a b, eqb a b = true <-> a = b) -> forall x l, existsb (eqb x) l = true <-> In x l.
Proof.
  intros eqb_eq x l. rewrite existsb_exists. split.
  - intros [y [Hy E]]. apply eqb_eq in E. subst y. exact Hy.
  - intro H. exists x. split; [exact H|apply eqb_eq; reflexivity].
Qed.

Lemma forallb_map {A B} (p : B -> bool) (f : A -> B) l :
  forallb p (map f l) = forallb (fun x => p (f x)) l.
Proof. induction l as [|x r IH]; cbn [map forallb]; [reflexivity|rewrite IH; reflexivity]. Qed.

Lemma forallb_ext_in {A} (p q : A -> bool) l :
  (forall x, In x l -> p x = q x) -> forallb p l = forallb q l.
Proof.
  induction l as [|x r IH]; intro H; cbn [forallb]; [reflexivity|].
  rewrite (H x (or_introl eq_refl)), IH; [reflexivity|]. intros y Hy. apply H. right. exact Hy.
Qed.

Lemma forallb_true {A} (p : A -> bool) l : (forall x, p x = true) -> forallb p l = true.
Proof. intro H. apply forallb_forall. intros x _. apply H. Qed.

Lemma fold_left_inv {A B} (f : A -> B -> A) (P : A -> Prop) :
  (forall a b, P a -> P (f a b)) -> forall l a, P a -> P (fold_left f l a).
Proof. intros Hf l. induction l as [|b l IH]; intros a Ha; [exact Ha | apply IH, Hf, Ha]. Qed.

Lemma forallb_skipn {A} (p : A -> bool) : forall n l, forallb p l = true -> forallb p (skipn n l) = true.
Proof.
  induction n as [|n IH]; intros [|x l] H; cbn [skipn]; try exact H.
  cbn [forallb] in H. apply andb_prop in H. exact (IH l (proj2 H)).
Qed.

Lemma Forall2_len {A B} (P : A -> B -> Prop) l1 l2 : Forall2 P l1 l2 -> length l1 = length l2.
Proof. induction 1 as [|x y l1 l2 _ _ IH]; [reflexivity|]. cbn [length]. rewrite IH. reflexivity. Qed.

Lemma Forall2_mono {A B} (P Q : A -> B -> Prop) l l' :
  (forall a b, P a b -> Q a b) -> Forall2 P l l' -> Forall2 Q l l'.
Proof. induction 2; auto. Qed.

Lemma Forall2_nth {A B} (P : A -> B -> Prop) da db l l' :
  Forall2 P l l' -> P da db -> forall i, P (nth i l da) (nth i l' db).
Proof. induction 1; intros Hd [|i]; cbn; auto. Qed.

Lemma Forall2_nth_error {A B} (P : A -> B -> Prop) l1 l2 i a db :
  Forall2 P l1 l2 -> nth_error l1 i = Some a -> P a (nth i l2 db).
Proof.
  intro H. revert i. induction H as [|x y r1 r2 Hxy Hr IH]; intros [|i] Hi; cbn in Hi |- *; try discriminate.
  - injection Hi as <-. exact Hxy.
  - apply IH. exact Hi.
Qed.

Lemma forallb_rev {A} (p : A -> bool) l : forallb p (rev l) = forallb p l.
Proof.
  induction l as [|c r IH]; [reflexivity|].
  cbn [rev forallb]. rewrite forallb_app, IH. cbn [forallb]. rewrite andb_true_r, andb_comm. reflexivity.
Qed.
