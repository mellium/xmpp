(* Xml.v — XML at the level at which the library works: encoding/xml tokens.
   A [tree] is a well-bracketed token sequence; [Text] nodes correspond one to
   one to CharData tokens (they are never merged here), [Misc] to comments,
   processing instructions and directives.

   Two readings of a tree are used:
   * the tokens a hand-written TokenReader yields (element names carry the name
     space only where the code sets it, no xmlns attributes);
   * the tokens an encoding/xml Decoder yields for a document (name spaces
     resolved, xmlns attributes present in the attribute list).
   [wire] models the passage from the first to the second through
   xml.Encoder.EncodeToken and xml.Decoder.Token (validated differentially by
   the harnesses; text is assumed to consist of characters XML can carry). *)
From XV Require Import lib.Bytes.

Record name := mkname { nspace : bytes; nlocal : bytes }.

Definition name_eqb (a b : name) : bool :=
  bytes_eqb (nspace a) (nspace b) && bytes_eqb (nlocal a) (nlocal b).

Lemma name_eqb_eq a b : name_eqb a b = true <-> a = b.
Proof.
  destruct a as [s l], b as [s' l']; unfold name_eqb; cbn.
  rewrite andb_true_iff, !bytes_eqb_eq. split.
  - intros [-> ->]; reflexivity.
  - intros E; inversion E; auto.
Qed.

Lemma name_eqb_refl n : name_eqb n n = true.
Proof. apply name_eqb_eq. reflexivity. Qed.

Record attr := mkattr { aname : name; aval : bytes }.

Inductive tree :=
| Elem (n : name) (attrs : list attr) (kids : list tree)
| Text (b : bytes)
| Misc (k : nat) (b : bytes).

Inductive token :=
| TStart (n : name) (a : list attr)
| TEnd (n : name)
| TChar (b : bytes)
| TMisc (k : nat) (b : bytes).

Definition is_nil {A} (l : list A) : bool := match l with [] => true | _ => false end.

(* local-name element without name space, as most child elements are written *)
Definition ln (local : bytes) : name := mkname [] local.
Definition at_ (local v : bytes) : attr := mkattr (ln local) v.

Fixpoint tokens_of_tree (t : tree) : list token :=
  match t with
  | Elem n a kids => TStart n a :: flat_map tokens_of_tree kids ++ [TEnd n]
  | Text b => [TChar b]
  | Misc k b => [TMisc k b]
  end.

Definition tokens_of_forest (f : list tree) : list token := flat_map tokens_of_tree f.

(* stack discipline of xml.Decoder: every end tag closes the innermost open
   start tag of the same name; the sequence ends with nothing open *)
Fixpoint balanced_from (stk : list name) (l : list token) : bool :=
  match l with
  | [] => is_nil stk
  | TStart n _ :: r => balanced_from (n :: stk) r
  | TEnd n :: r => match stk with
                   | m :: stk' => name_eqb m n && balanced_from stk' r
                   | [] => false
                   end
  | _ :: r => balanced_from stk r
  end.

Definition balanced (l : list token) : bool := balanced_from [] l.

(* fuelled parser, inverse of tokens_of_forest *)
Fixpoint parse_forest (fuel : nat) (l : list token) : option (list tree * list token) :=
  match fuel with
  | O => None
  | S fuel' =>
      match l with
      | [] => Some ([], [])
      | TEnd _ :: _ => Some ([], l)
      | TChar b :: r =>
          match parse_forest fuel' r with Some (f, rest) => Some (Text b :: f, rest) | None => None end
      | TMisc k b :: r =>
          match parse_forest fuel' r with Some (f, rest) => Some (Misc k b :: f, rest) | None => None end
      | TStart n a :: r =>
          match parse_forest fuel' r with
          | Some (kids, TEnd m :: rest) =>
              if name_eqb n m then
                match parse_forest fuel' rest with
                | Some (f, rest') => Some (Elem n a kids :: f, rest')
                | None => None
                end
              else None
          | _ => None
          end
      end
  end.

Fixpoint elem_names (t : tree) : list name :=
  match t with
  | Elem n a kids => n :: flat_map elem_names kids
  | _ => []
  end.

Fixpoint attr_names (t : tree) : list name :=
  match t with
  | Elem n a kids => map aname a ++ flat_map attr_names kids
  | _ => []
  end.

Definition name_ok (n : name) : bool := negb (is_nil (nlocal n)).

Definition names_within (els ats : list name) (t : tree) : bool :=
  forallb (fun n => existsb (name_eqb n) els) (elem_names t) &&
  forallb (fun n => existsb (name_eqb n) ats) (attr_names t).

Definition names_nonempty (t : tree) : bool :=
  forallb name_ok (elem_names t) && forallb name_ok (attr_names t).

Definition is_elem (t : tree) : bool := match t with Elem _ _ _ => true | _ => false end.

(* the character data directly inside an element: what encoding/xml
   accumulates for a string / number / chardata destination *)
Fixpoint direct_text (kids : list tree) : bytes :=
  match kids with
  | [] => []
  | Text b :: r => b ++ direct_text r
  | _ :: r => direct_text r
  end.

Definition elem_text (t : tree) : bytes :=
  match t with Elem _ _ kids => direct_text kids | _ => [] end.

Definition tree_name (t : tree) : name :=
  match t with Elem n _ _ => n | _ => mkname [] [] end.

Definition tree_attrs (t : tree) : list attr :=
  match t with Elem _ a _ => a | _ => [] end.

Definition tree_kids (t : tree) : list tree :=
  match t with Elem _ _ k => k | _ => [] end.

(* first attribute with the given local name, whatever its name space: the
   `for _, attr := range start.Attr { if attr.Name.Local == ... }` idiom *)
Fixpoint attr_local (local : bytes) (a : list attr) : option bytes :=
  match a with
  | [] => None
  | x :: r => if bytes_eqb (nlocal (aname x)) local then Some (aval x) else attr_local local r
  end.

Definition xml_ns : bytes := str "http://www.w3.org/XML/1998/namespace".
Definition xmlns_attr (ns : bytes) : attr := mkattr (mkname [] (str "xmlns")) ns.

Fixpoint merge_text (l : list tree) : list tree :=
  match l with
  | Text a :: r =>
      match merge_text r with
      | Text b :: r' => Text (a ++ b) :: r'
      | r' => Text a :: r'
      end
  | x :: r => x :: merge_text r
  | [] => []
  end.

(* attributes the encoder writes: those without a local name are dropped;
   only the empty and the xml name space are within the model *)
Definition wire_attrs (a : list attr) : list attr :=
  filter (fun x => negb (is_nil (nlocal (aname x)))) a.

Definition attrs_in_model (a : list attr) : bool :=
  forallb (fun x => is_nil (nspace (aname x)) || bytes_eqb (nspace (aname x)) xml_ns) a.

Fixpoint wire (dflt : bytes) (t : tree) : list tree :=
  match t with
  | Elem n a kids =>
      let ns := if is_nil (nspace n) then dflt else nspace n in
      let decl := if is_nil (nspace n) then [] else [xmlns_attr (nspace n)] in
      [Elem (mkname ns (nlocal n)) (decl ++ wire_attrs a) (merge_text (flat_map (wire ns) kids))]
  | Text b => if is_nil b then [] else [Text b]
  | Misc k b => [Misc k b]
  end.

Definition wire1 (t : tree) : tree :=
  match wire [] t with [x] => x | _ => t end.

Fixpoint tree_in_model (t : tree) : bool :=
  match t with
  | Elem n a kids => name_ok n && attrs_in_model a && forallb tree_in_model kids
  | _ => true
  end.

Lemma tree_ind_kids (P : tree -> Prop) :
  (forall n a kids, Forall P kids -> P (Elem n a kids)) -> (forall b, P (Text b)) -> (forall k b, P (Misc k b)) ->
  forall t, P t.
Proof.
  intros HE HT HM. fix IH 1. intros [n a kids|b|k b]; [|apply HT|apply HM].
  apply HE. induction kids as [|k0 ks IHk]; constructor; [apply IH|exact IHk].
Qed.

Lemma balanced_from_app_tree : forall t stk rest,
  balanced_from stk (tokens_of_tree t ++ rest) = balanced_from stk rest.
Proof.
  induction t as [n a kids IH|b|k b] using tree_ind_kids; intros stk rest;
    cbn [tokens_of_tree app balanced_from]; try reflexivity.
  assert (H : forall rest', balanced_from (n :: stk) (flat_map tokens_of_tree kids ++ rest') = balanced_from (n :: stk) rest').
  { induction IH as [|k ks Hk _ IHk]; intro rest'; cbn [flat_map app]; [reflexivity|].
    rewrite <- app_assoc, Hk. apply IHk. }
  rewrite <- app_assoc, H. cbn [app balanced_from]. rewrite name_eqb_refl. reflexivity.
Qed.

Lemma balanced_tree t : balanced (tokens_of_tree t) = true.
Proof.
  unfold balanced. rewrite <- (app_nil_r (tokens_of_tree t)), balanced_from_app_tree. reflexivity.
Qed.

Lemma balanced_forest f : balanced (tokens_of_forest f) = true.
Proof.
  unfold balanced, tokens_of_forest. induction f as [|t f IH]; cbn [flat_map]; [reflexivity|].
  rewrite balanced_from_app_tree. exact IH.
Qed.

Definition closes (rest : list token) : Prop :=
  rest = [] \/ exists m r, rest = TEnd m :: r.

Fixpoint tsize (t : tree) : nat :=
  match t with
  | Elem _ _ kids => S (S (list_sum (map tsize kids)))
  | _ => 1
  end.

Definition fsize (f : list tree) : nat := list_sum (map tsize f).

Lemma tsize_pos t : 1 <= tsize t.
Proof. destruct t; cbn; lia. Qed.

Lemma parse_forest_tokens : forall fuel f rest,
  closes rest -> fsize f < fuel ->
  parse_forest fuel (tokens_of_forest f ++ rest) = Some (f, rest).
Proof.
  induction fuel as [|fuel IH]; intros f rest Hc Hf; [lia|].
  destruct f as [|t f].
  - cbn [tokens_of_forest flat_map app parse_forest].
    destruct Hc as [->|[m [r ->]]]; reflexivity.
  - unfold tokens_of_forest in *. cbn [flat_map].
    assert (Hsz : fsize (t :: f) = tsize t + fsize f) by reflexivity.
    pose proof (tsize_pos t) as Hp.
    assert (Hf' : fsize f < fuel) by lia.
    destruct t as [n a kids|b|k b]; cbn [tokens_of_tree].
    + assert (Hk : fsize kids < fuel).
      { assert (tsize (Elem n a kids) = S (S (fsize kids))) by reflexivity. lia. }
      cbn [app parse_forest].
      replace (((flat_map tokens_of_tree kids ++ [TEnd n]) ++ flat_map tokens_of_tree f) ++ rest)
        with (flat_map tokens_of_tree kids ++ TEnd n :: flat_map tokens_of_tree f ++ rest)
        by (rewrite <- !app_assoc; reflexivity).
      rewrite (IH kids (TEnd n :: flat_map tokens_of_tree f ++ rest)).
      * rewrite name_eqb_refl, (IH f rest Hc Hf'). reflexivity.
      * right. eexists; eexists; reflexivity.
      * exact Hk.
    + cbn [app parse_forest]. rewrite (IH f rest Hc Hf'). reflexivity.
    + cbn [app parse_forest]. rewrite (IH f rest Hc Hf'). reflexivity.
Qed.

(* the token sequence of a tree parses back to that tree: the sequence is
   well-bracketed and determines the tree *)
Lemma parse_tokens_of_tree t :
  parse_forest (S (tsize t)) (tokens_of_tree t) = Some ([t], []).
Proof.
  assert (Hs : fsize [t] < S (tsize t)).
  { assert (fsize [t] = tsize t + 0) by reflexivity. lia. }
  pose proof (parse_forest_tokens (S (tsize t)) [t] [] (or_introl eq_refl) Hs) as H.
  unfold tokens_of_forest in H. cbn [flat_map] in H.
  rewrite !app_nil_r in H. exact H.
Qed.
