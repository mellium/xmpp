(* Lts.v — labelled transition systems given by a partial step function.

   step : state -> label -> option state      (None: the label is not enabled)
   run  : fold of step over a label sequence (a schedule / history)
   reachable, the invariant induction principles (plain and history-indexed),
   a computable bounded enumeration of the accepted label sequences, from
   which a harness can derive schedules (none does so far), and what the state
   reached says about the history ([provenance], [persistence]).  No axioms. *)
From Coq Require Import List.
Import ListNotations.

(* A concrete schedule is best replayed without writing out the state it ends
   in: that it is accepted is [defined o = true], and a fact about the final
   state is evaluated through the projection it mentions.  [o] is meant to be
   [run step i tr]; it is left general so that the lemmas also apply, without a
   conversion (which would evaluate the run), to a name a model gives to its runs. *)
Definition defined {A} (o : option A) : bool := match o with Some _ => true | None => false end.

Lemma defined_some {A} (o : option A) : defined o = true -> exists a, o = Some a.
Proof. destruct o as [a|]; [exists a; reflexivity|discriminate]. Qed.

Lemma run_proj {A B} (f : A -> B) o s v : o = Some s -> option_map f o = Some v -> f s = v.
Proof. intros -> H. injection H as H. exact H. Qed.

Lemma run_witness {A} (P : A -> Prop) o :
  defined o = true -> (forall s, o = Some s -> P s) -> exists s, o = Some s /\ P s.
Proof. intros D H. destruct (defined_some _ D) as [s E]. exists s. split; [exact E|exact (H s E)]. Qed.

Section Lts.
  Variable state label : Type.
  Variable step : state -> label -> option state.

  Fixpoint run (s : state) (tr : list label) : option state :=
    match tr with
    | [] => Some s
    | l :: rest => match step s l with
                   | Some s' => run s' rest
                   | None => None
                   end
    end.

  Definition reachable (init s : state) : Prop := exists tr, run init tr = Some s.

  Lemma run_nil : forall s, run s [] = Some s.
  Proof. reflexivity. Qed.

  Lemma run_app : forall tr1 tr2 s,
    run s (tr1 ++ tr2) = match run s tr1 with Some s1 => run s1 tr2 | None => None end.
  Proof.
    induction tr1 as [|l tr1 IH]; intros tr2 s; cbn [run app].
    - reflexivity.
    - destruct (step s l) as [s'|]; [apply IH|reflexivity].
  Qed.

  Lemma run_snoc : forall tr l s,
    run s (tr ++ [l]) = match run s tr with Some s1 => step s1 l | None => None end.
  Proof.
    intros tr l s. rewrite run_app. destruct (run s tr) as [s1|]; [|reflexivity].
    cbn [run]. destruct (step s1 l); reflexivity.
  Qed.

  Lemma run_then_step i tr s l s' :
    run i tr = Some s -> step s l = Some s' -> run i (tr ++ [l]) = Some s'.
  Proof. intros E E'. rewrite run_snoc, E. exact E'. Qed.

  Lemma run_app_some : forall tr1 tr2 s s2,
    run s (tr1 ++ tr2) = Some s2 -> exists s1, run s tr1 = Some s1 /\ run s1 tr2 = Some s2.
  Proof.
    intros tr1 tr2 s s2 H. rewrite run_app in H.
    destruct (run s tr1) as [s1|]; [|discriminate]. exists s1. split; [reflexivity|exact H].
  Qed.

  Lemma run_snoc_some : forall tr l s s2,
    run s (tr ++ [l]) = Some s2 -> exists s1, run s tr = Some s1 /\ step s1 l = Some s2.
  Proof.
    intros tr l s s2 H. rewrite run_snoc in H.
    destruct (run s tr) as [s1|]; [|discriminate]. exists s1. split; [reflexivity|exact H].
  Qed.

  Theorem invariant_run_guarded : forall (G : label -> Prop) (Inv : state -> Prop),
    (forall s l s', G l -> Inv s -> step s l = Some s' -> Inv s') ->
    forall tr init s, (forall l, In l tr -> G l) -> Inv init -> run init tr = Some s -> Inv s.
  Proof.
    intros G Inv Hstep. induction tr as [|l tr IH]; intros init s HG H0 Hrun; cbn [run] in Hrun.
    - injection Hrun as <-. exact H0.
    - destruct (step init l) as [s'|] eqn:E; [|discriminate].
      apply (IH s'); [intros l' Hl'; apply HG; right; exact Hl'| |exact Hrun].
      apply (Hstep init l s'); [apply HG; left; reflexivity|exact H0|exact E].
  Qed.

  Theorem invariant_run : forall (Inv : state -> Prop) init,
    Inv init ->
    (forall s l s', Inv s -> step s l = Some s' -> Inv s') ->
    forall tr s, run init tr = Some s -> Inv s.
  Proof.
    intros Inv init H0 Hstep tr s.
    exact (invariant_run_guarded (fun _ => True) Inv (fun s0 l s' _ => Hstep s0 l s') tr init s (fun _ _ => I) H0).
  Qed.

  Theorem invariant_reachable : forall (Inv : state -> Prop) init,
    Inv init ->
    (forall s l s', Inv s -> step s l = Some s' -> Inv s') ->
    forall s, reachable init s -> Inv s.
  Proof. intros Inv init H0 Hs s [tr Hr]. exact (invariant_run Inv init H0 Hs tr s Hr). Qed.

  Theorem invariant_hist : forall (Inv : list label -> state -> Prop) init,
    Inv [] init ->
    (forall h s l s', run init h = Some s -> Inv h s -> step s l = Some s' -> Inv (h ++ [l]) s') ->
    forall tr s, run init tr = Some s -> Inv tr s.
  Proof.
    intros Inv init H0 Hstep tr.
    induction tr as [|l tr IH] using rev_ind; intros s Hrun.
    - cbn [run] in Hrun. injection Hrun as <-. exact H0.
    - apply run_snoc_some in Hrun. destruct Hrun as [s1 [Hr1 Hs1]].
      exact (Hstep tr s1 l s Hr1 (IH s1 Hr1) Hs1).
  Qed.

  Lemma run_prefix : forall tr1 tr2 s s2,
    run s (tr1 ++ tr2) = Some s2 -> exists s1, run s tr1 = Some s1.
  Proof.
    intros tr1 tr2 s s2 H. apply run_app_some in H. destruct H as [s1 [H _]]. exists s1. exact H.
  Qed.

  (* Bounded enumeration of accepted label sequences over a finite label
     alphabet offered per state: all sequences of length <= n (prefix closed). *)
  Variable offers : state -> list label.

  Fixpoint enumerate_traces (n : nat) (s : state) : list (list label) :=
    match n with
    | O => [[]]
    | S n' =>
        [] :: flat_map (fun l => match step s l with
                                 | Some s' => map (cons l) (enumerate_traces n' s')
                                 | None => []
                                 end) (offers s)
    end.

  Lemma enumerate_traces_sound : forall n s tr,
    In tr (enumerate_traces n s) -> exists s', run s tr = Some s'.
  Proof.
    induction n as [|n IH]; intros s tr Hin; cbn [enumerate_traces] in Hin.
    - destruct Hin as [<-|[]]. exists s. reflexivity.
    - destruct Hin as [<-|Hin]; [exists s; reflexivity|].
      apply in_flat_map in Hin. destruct Hin as [l [_ Hl]].
      destruct (step s l) as [s'|] eqn:E; [|destruct Hl].
      apply in_map_iff in Hl. destruct Hl as [tr' [<- Hin']].
      destruct (IH s' tr' Hin') as [s2 H2]. exists s2. cbn [run]. rewrite E. exact H2.
  Qed.
End Lts.

Arguments run {state label} step s tr.
Arguments reachable {state label} step init s.
Arguments enumerate_traces {state label} step offers n s.

(* Two theorems that relate the state a transition system has reached to the
   history that led there, each from a premise about one step: what holds now
   was brought about by some step of the history ([provenance]); what a label
   brings about and every step keeps holds for good ([persistence]). *)
Section Hist.
  Variable state label : Type.
  Variable step : state -> label -> option state.
  Variable init : state.

  (* [P] is caused by [E] and kept by [G]: whenever P holds after a history,
     the history has a step that E describes (by the state before it and its
     label) and, after that step, labels of G only. *)
  Definition caused_by (P : state -> Prop) (E : state -> label -> Prop) (G : label -> Prop) : Prop :=
    forall tr s, run step init tr = Some s -> P s ->
    exists h1 l h2 s1, tr = h1 ++ l :: h2 /\ run step init h1 = Some s1 /\ E s1 l /\ Forall G h2.

  (* The premise gives the history of the state before the step: facts about
     reachable states, and finished instances of this theorem at the prefix,
     are at hand there. *)
  Theorem provenance (P : state -> Prop) (E : state -> label -> Prop) (G : label -> Prop) :
    ~ P init ->
    (forall h s l s', run step init h = Some s -> step s l = Some s' -> P s' -> P s /\ G l \/ E s l) ->
    caused_by P E G.
  Proof.
    intros H0 Hstep. unfold caused_by.
    apply (invariant_hist _ _ step (fun tr s => P s -> exists h1 l h2 s1,
             tr = h1 ++ l :: h2 /\ run step init h1 = Some s1 /\ E s1 l /\ Forall G h2)).
    - intro H. destruct (H0 H).
    - intros h s l s' Hr IH Hs HP. destruct (Hstep h s l s' Hr Hs HP) as [[HPs HG]|HE].
      + destruct (IH HPs) as (h1 & x & h2 & s1 & -> & Hr1 & HE & HF).
        exists h1, x, (h2 ++ [l]), s1. rewrite <- app_assoc. repeat split; try assumption.
        apply Forall_app. split; [exact HF|constructor; [exact HG|constructor]].
      + exists h, l, [], s. repeat split; try assumption. constructor.
  Qed.

  Lemma caused_In (P : state -> Prop) (e : label) (G : label -> Prop) :
    caused_by P (fun _ l => l = e) G -> forall tr s, run step init tr = Some s -> P s -> In e tr.
  Proof. intros C tr s H HP. destruct (C tr s H HP) as (h1 & l & h2 & _ & -> & _ & -> & _). apply in_elt. Qed.

  Theorem persistence (Q : state -> Prop) (l : label) :
    (forall s s', step s l = Some s' -> Q s') ->
    (forall h s l' s', run step init h = Some s -> step s l' = Some s' -> Q s -> Q s') ->
    forall tr s, run step init tr = Some s -> In l tr -> Q s.
  Proof.
    intros Hl Hkeep.
    apply (invariant_hist _ _ step (fun tr s => In l tr -> Q s)).
    - intros [].
    - intros h s l' s' Hr IH Hs Hin. apply in_app_or in Hin. destruct Hin as [Hin|[->|[]]].
      + exact (Hkeep h s l' s' Hr Hs (IH Hin)).
      + exact (Hl s s' Hs).
  Qed.
End Hist.

Arguments caused_by {state label} step init P E G.
Arguments provenance {state label} step init P E G.
Arguments caused_In {state label step init P e G}.
Arguments persistence {state label} step init Q l.
