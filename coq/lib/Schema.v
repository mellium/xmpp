(* Schema.v — the part of encoding/xml's reflection unmarshaller the library
   relies on, as an interpreter over struct-tag schemas, plus the text
   conversions of leaf values (strconv, strings.TrimSpace).

   A schema for a destination of type A is a list of [field A]: the struct tag
   (kind, name space, local name) and the effect of assigning one matched
   attribute / child element / accumulated character data to the destination.
   [unmarshal_struct] is the generic algorithm of Decoder.unmarshal for a
   struct destination:
     - the XMLName tag, when there is one, is checked against the start element;
     - every attribute, in document order, is offered to every attr field whose
       tag matches (local name equal, name space equal when the tag has one);
     - every child element is consumed by the first element field whose tag
       matches, else by the first ",any" field, else skipped;
     - character data directly inside the element is accumulated and assigned
       to the ",chardata" field after the last child;
     - the first failing assignment aborts with that error.
   Results are [res]: a value, an error, a panic, or [Miss] (a case file did
   not supply an oracle entry the model needed — never a legitimate outcome). *)
From Coq Require Import DecimalN DecimalPos DecimalFacts ZArith.
From XV Require Import lib.Bytes lib.ListAux lib.Xml.

Inductive res (A : Type) := Ok (a : A) | Err | Panic | Miss.
Arguments Ok {A} a.
Arguments Err {A}.
Arguments Panic {A}.
Arguments Miss {A}.

Definition bind {A B} (r : res A) (f : A -> res B) : res B :=
  match r with Ok a => f a | Err => Err | Panic => Panic | Miss => Miss end.

Definition rmap {A B} (f : A -> B) (r : res A) : res B := bind r (fun a => Ok (f a)).

Definition is_ok {A} (r : res A) : bool := match r with Ok _ => true | _ => false end.
Definition is_panic {A} (r : res A) : bool := match r with Panic => true | _ => false end.

Lemma bind_ok {A B} (a : A) (f : A -> res B) : bind (Ok a) f = f a.
Proof. reflexivity. Qed.

Definition is_space (c : byte) : bool :=
  match c with
  | " " | "009" | "010" | "011" | "012" | "013" => true
  | _ => false
  end%byte.

Fixpoint trim_left (s : bytes) : bytes :=
  match s with
  | c :: r => if is_space c then trim_left r else s
  | [] => []
  end.

Definition trim_space (s : bytes) : bytes := rev (trim_left (rev (trim_left s))).

Fixpoint uint_bytes (d : Decimal.uint) : bytes :=
  match d with
  | Decimal.Nil => []
  | Decimal.D0 d => "0"%byte :: uint_bytes d
  | Decimal.D1 d => "1"%byte :: uint_bytes d
  | Decimal.D2 d => "2"%byte :: uint_bytes d
  | Decimal.D3 d => "3"%byte :: uint_bytes d
  | Decimal.D4 d => "4"%byte :: uint_bytes d
  | Decimal.D5 d => "5"%byte :: uint_bytes d
  | Decimal.D6 d => "6"%byte :: uint_bytes d
  | Decimal.D7 d => "7"%byte :: uint_bytes d
  | Decimal.D8 d => "8"%byte :: uint_bytes d
  | Decimal.D9 d => "9"%byte :: uint_bytes d
  end.

Fixpoint bytes_uint (s : bytes) : option Decimal.uint :=
  match s with
  | [] => Some Decimal.Nil
  | c :: r =>
      match bytes_uint r with
      | None => None
      | Some d =>
          match c with
          | "0" => Some (Decimal.D0 d) | "1" => Some (Decimal.D1 d) | "2" => Some (Decimal.D2 d)
          | "3" => Some (Decimal.D3 d) | "4" => Some (Decimal.D4 d) | "5" => Some (Decimal.D5 d)
          | "6" => Some (Decimal.D6 d) | "7" => Some (Decimal.D7 d) | "8" => Some (Decimal.D8 d)
          | "9" => Some (Decimal.D9 d)
          | _ => None
          end%byte
      end
  end.

(* strconv.FormatUint(n, 10) *)
Definition dec (n : N) : bytes := uint_bytes (N.to_uint n).

(* strconv.ParseUint(s, 10, 64): digits only, at least one, value below 2^64 *)
Definition two64 : N := 18446744073709551616%N.

Definition parse_uint (s : bytes) : option N :=
  match s with
  | [] => None
  | _ => match bytes_uint s with
         | Some d => let n := N.of_uint d in if (n <? two64)%N then Some n else None
         | None => None
         end
  end.

(* strconv.Itoa / FormatInt and ParseInt(s, 10, 64) *)
Definition dec_int (z : Z) : bytes :=
  match z with
  | Z0 => dec 0
  | Zpos p => dec (Npos p)
  | Zneg p => "-"%byte :: dec (Npos p)
  end.

(* 2^63: int64 ranges over [-2^63, 2^63) *)
Definition two63 : N := 9223372036854775808%N.

Definition parse_int (s : bytes) : option Z :=
  match s with
  | [] => None
  | c :: r =>
      let '(neg, digits) :=
        if byte_eqb c "-"%byte then (true, r) else if byte_eqb c "+"%byte then (false, r) else (false, s) in
      match digits with
      | [] => None
      | _ => match bytes_uint digits with
             | Some d =>
                 let n := N.of_uint d in
                 if neg then (if (n <=? two63)%N then Some (- Z.of_N n)%Z else None)
                 else (if (n <? two63)%N then Some (Z.of_N n) else None)
             | None => None
             end
      end
  end.

(* strconv.FormatBool / ParseBool *)
Definition fmt_bool (b : bool) : bytes := if b then str "true" else str "false".

Definition parse_bool (s : bytes) : option bool :=
  if existsb (bytes_eqb s) [str "1"; str "t"; str "T"; str "TRUE"; str "true"; str "True"] then Some true
  else if existsb (bytes_eqb s) [str "0"; str "f"; str "F"; str "FALSE"; str "false"; str "False"] then Some false
  else None.

(* encoding/xml copyValue for the destination kinds used by the library *)
Definition copy_uint (s : bytes) : res N :=
  match s with
  | [] => Ok 0%N
  | _ => match parse_uint (trim_space s) with Some n => Ok n | None => Err end
  end.

Definition copy_int (s : bytes) : res Z :=
  match s with
  | [] => Ok 0%Z
  | _ => match parse_int (trim_space s) with Some n => Ok n | None => Err end
  end.

Definition copy_bool (s : bytes) : res bool :=
  match s with
  | [] => Ok false
  | _ => match parse_bool (trim_space s) with Some b => Ok b | None => Err end
  end.

Lemma bytes_uint_bytes d : bytes_uint (uint_bytes d) = Some d.
Proof. induction d; cbn [uint_bytes bytes_uint]; try rewrite IHd; reflexivity. Qed.

Lemma uint_bytes_nil d : uint_bytes d = [] -> d = Decimal.Nil.
Proof. destruct d; cbn; intro H; try discriminate; reflexivity. Qed.

Lemma dec_nonnil n : dec n <> [].
Proof.
  unfold dec. intro H. apply uint_bytes_nil in H. destruct n as [|p]; cbn in H; [discriminate|].
  exact (Unsigned.to_uint_nonnil p H).
Qed.

Lemma parse_uint_dec n : (n < two64)%N -> parse_uint (dec n) = Some n.
Proof.
  intro Hn. unfold parse_uint. destruct (dec n) eqn:E; [exfalso; exact (dec_nonnil n E)|].
  rewrite <- E. unfold dec. rewrite bytes_uint_bytes, DecimalN.Unsigned.of_to.
  apply N.ltb_lt in Hn. rewrite Hn. reflexivity.
Qed.

Definition all_digits (s : bytes) : bool :=
  forallb (fun c => (48 <=? bN c)%N && (bN c <=? 57)%N) s.

Lemma uint_bytes_digits d : all_digits (uint_bytes d) = true.
Proof.
  induction d; cbn [uint_bytes]; [reflexivity| | | | | | | | | |];
    (change (all_digits (?c :: ?r)) with ((48 <=? bN c)%N && (bN c <=? 57)%N && all_digits r);
     rewrite IHd; reflexivity).
Qed.

Definition no_space (s : bytes) : bool := forallb (fun c => negb (is_space c)) s.

Lemma trim_left_no_space s : no_space s = true -> trim_left s = s.
Proof.
  destruct s as [|c r]; [reflexivity|]. cbn [no_space forallb trim_left]. intro H.
  apply andb_true_iff in H. destruct H as [H _]. destruct (is_space c); [discriminate|reflexivity].
Qed.

Lemma no_space_rev s : no_space (rev s) = no_space s.
Proof. apply forallb_rev. Qed.

Lemma trim_space_no_space s : no_space s = true -> trim_space s = s.
Proof.
  intro H. unfold trim_space. rewrite (trim_left_no_space s H).
  rewrite trim_left_no_space by (rewrite no_space_rev; exact H). apply rev_involutive.
Qed.

Lemma digits_no_space s : all_digits s = true -> no_space s = true.
Proof.
  unfold all_digits, no_space. induction s as [|c r IH]; [reflexivity|]. cbn [forallb].
  intro H. apply andb_true_iff in H. destruct H as [Hc Hr]. rewrite (IH Hr), andb_true_r.
  destruct c; try reflexivity; cbn in Hc; discriminate.
Qed.

Lemma trim_left_digits s : all_digits s = true -> trim_left s = s.
Proof. intro H. apply trim_left_no_space, digits_no_space, H. Qed.

Lemma all_digits_rev s : all_digits (rev s) = all_digits s.
Proof. apply forallb_rev. Qed.

Lemma trim_space_digits s : all_digits s = true -> trim_space s = s.
Proof. intro H. apply trim_space_no_space, digits_no_space, H. Qed.

Lemma copy_uint_dec n : (n < two64)%N -> copy_uint (dec n) = Ok n.
Proof.
  intro Hn. unfold copy_uint. destruct (dec n) eqn:E; [exfalso; exact (dec_nonnil n E)|].
  rewrite <- E. rewrite trim_space_digits by apply uint_bytes_digits.
  rewrite parse_uint_dec by exact Hn. reflexivity.
Qed.

Lemma parse_int_dec_int z :
  (- Z.of_N two63 <= z < Z.of_N two63)%Z -> parse_int (dec_int z) = Some z.
Proof.
  intro Hz. destruct z as [|p|p]; unfold dec_int.
  - reflexivity.
  - destruct (dec (N.pos p)) as [|c r] eqn:E; [exfalso; exact (dec_nonnil _ E)|].
    assert (Hd : all_digits (c :: r) = true) by (rewrite <- E; apply uint_bytes_digits).
    assert (Hb : bytes_uint (c :: r) = Some (N.to_uint (N.pos p))) by (rewrite <- E; apply bytes_uint_bytes).
    assert (Hc : byte_eqb c "-"%byte = false /\ byte_eqb c "+"%byte = false).
    { change (all_digits (c :: r)) with ((48 <=? bN c)%N && (bN c <=? 57)%N && all_digits r) in Hd.
      apply andb_true_iff in Hd. destruct Hd as [Hd _].
      destruct c; cbn in Hd; try discriminate; split; reflexivity. }
    destruct Hc as [Hc1 Hc2]. unfold parse_int. rewrite Hc1, Hc2. cbv beta iota. rewrite Hb.
    rewrite DecimalN.Unsigned.of_to.
    assert (Hlt : (N.pos p <? two63)%N = true) by (apply N.ltb_lt; unfold two63 in *; lia).
    rewrite Hlt. reflexivity.
  - destruct (dec (N.pos p)) as [|c r] eqn:E; [exfalso; exact (dec_nonnil _ E)|].
    assert (Hb : bytes_uint (c :: r) = Some (N.to_uint (N.pos p))) by (rewrite <- E; apply bytes_uint_bytes).
    unfold parse_int. change (byte_eqb "-" "-") with true. cbv beta iota. rewrite Hb.
    rewrite DecimalN.Unsigned.of_to.
    assert (Hle : (N.pos p <=? two63)%N = true) by (apply N.leb_le; unfold two63 in *; lia).
    rewrite Hle. reflexivity.
Qed.

Lemma dec_int_no_space z : no_space (dec_int z) = true.
Proof.
  destruct z as [|p|p]; unfold dec_int.
  - reflexivity.
  - apply digits_no_space, uint_bytes_digits.
  - change (no_space ("-"%byte :: dec (N.pos p))) with (negb (is_space "-"%byte) && no_space (dec (N.pos p))).
    unfold dec. rewrite (digits_no_space _ (uint_bytes_digits _)). reflexivity.
Qed.

Lemma dec_int_nonnil z : dec_int z <> [].
Proof. destruct z; unfold dec_int; try apply dec_nonnil; discriminate. Qed.

Lemma copy_int_dec_int z :
  (- Z.of_N two63 <= z < Z.of_N two63)%Z -> copy_int (dec_int z) = Ok z.
Proof.
  intro Hz. unfold copy_int. destruct (dec_int z) eqn:E; [exfalso; exact (dec_int_nonnil z E)|].
  rewrite <- E. rewrite trim_space_no_space by apply dec_int_no_space.
  rewrite parse_int_dec_int by exact Hz. reflexivity.
Qed.

Lemma parse_bool_fmt b : parse_bool (fmt_bool b) = Some b.
Proof. destruct b; reflexivity. Qed.

Lemma copy_bool_fmt b : copy_bool (fmt_bool b) = Ok b.
Proof. destruct b; reflexivity. Qed.

Inductive fkind := KAttr | KElem | KChar | KAny.

Record field (A : Type) := mkfield {
  f_kind : fkind; f_ns : bytes; f_local : bytes;
  f_set : tree -> A -> res A }.
Arguments mkfield {A}.
Arguments f_kind {A}.
Arguments f_ns {A}.
Arguments f_local {A}.
Arguments f_set {A}.

Definition name_match (ns local : bytes) (n : name) : bool :=
  bytes_eqb local (nlocal n) && (is_nil ns || bytes_eqb ns (nspace n)).

(* the text an assignment receives: an attribute value, or the character data
   directly inside a child element *)
Definition payload_text (t : tree) : bytes :=
  match t with Text b => b | Elem _ _ kids => direct_text kids | Misc _ _ => [] end.

Section Interp.
  Context {A : Type}.

  Fixpoint set_attr (fs : list (field A)) (x : attr) (a : A) : res A :=
    match fs with
    | [] => Ok a
    | f :: r =>
        match f_kind f with
        | KAttr => if name_match (f_ns f) (f_local f) (aname x)
                   then bind (f_set f (Text (aval x)) a) (set_attr r x)
                   else set_attr r x a
        | _ => set_attr r x a
        end
    end.

  Fixpoint set_attrs (fs : list (field A)) (xs : list attr) (a : A) : res A :=
    match xs with
    | [] => Ok a
    | x :: r => bind (set_attr fs x a) (set_attrs fs r)
    end.

  Fixpoint find_elem (fs : list (field A)) (n : name) : option (field A) :=
    match fs with
    | [] => None
    | f :: r => match f_kind f with
                | KElem => if name_match (f_ns f) (f_local f) n then Some f else find_elem r n
                | _ => find_elem r n
                end
    end.

  (* the first ",any" or ",chardata" field; attribute and element fields are
     looked up by name, so for KAttr and KElem the answer is None *)
  Fixpoint find_kind (k : fkind) (fs : list (field A)) : option (field A) :=
    match fs with
    | [] => None
    | f :: r => match f_kind f, k with
                | KAny, KAny | KChar, KChar => Some f
                | _, _ => find_kind k r
                end
    end.

  Definition set_child (fs : list (field A)) (c : tree) (a : A) : res A :=
    match c with
    | Elem n _ _ =>
        match find_elem fs n with
        | Some f => f_set f c a
        | None => match find_kind KAny fs with Some f => f_set f c a | None => Ok a end
        end
    | _ => Ok a
    end.

  Fixpoint set_children (fs : list (field A)) (kids : list tree) (a : A) : res A :=
    match kids with
    | [] => Ok a
    | c :: r => bind (set_child fs c a) (set_children fs r)
    end.

  Definition set_chardata (fs : list (field A)) (kids : list tree) (a : A) : res A :=
    match find_kind KChar fs with
    | Some f => f_set f (Text (direct_text kids)) a
    | None => Ok a
    end.

  Definition check_xmlname (xn : option name) (n : name) : bool :=
    match xn with
    | None => true
    | Some x => (is_nil (nlocal x) || bytes_eqb (nlocal x) (nlocal n)) &&
                (is_nil (nspace x) || bytes_eqb (nspace x) (nspace n))
    end.

  Definition unmarshal_struct (xn : option name) (fs : list (field A)) (init : A) (t : tree) : res A :=
    match t with
    | Elem n attrs kids =>
        if check_xmlname xn n then
          bind (set_attrs fs attrs init) (fun a =>
          bind (set_children fs kids a) (set_chardata fs kids))
        else Err
    | _ => Err
    end.

  Lemma set_children_app fs k1 k2 a :
    set_children fs (k1 ++ k2) a = bind (set_children fs k1 a) (set_children fs k2).
  Proof.
    revert a; induction k1 as [|c r IH]; intro a; cbn [app set_children]; [reflexivity|].
    destruct (set_child fs c a); cbn [bind]; auto.
  Qed.

  Lemma set_attrs_app fs x1 x2 a :
    set_attrs fs (x1 ++ x2) a = bind (set_attrs fs x1 a) (set_attrs fs x2).
  Proof.
    revert a; induction x1 as [|c r IH]; intro a; cbn [app set_attrs]; [reflexivity|].
    destruct (set_attr fs c a); cbn [bind]; auto.
  Qed.

  (* children that are not elements are invisible to the element fields *)
  Lemma set_children_text fs b r a : set_children fs (Text b :: r) a = set_children fs r a.
  Proof. reflexivity. Qed.
End Interp.

(* field constructors for the destination kinds the library uses *)
Definition f_str {A} (k : fkind) (ns local : bytes) (put : bytes -> A -> A) : field A :=
  mkfield k ns local (fun t a => Ok (put (payload_text t) a)).

Definition f_conv {A B} (k : fkind) (ns local : bytes) (conv : bytes -> res B) (put : B -> A -> A) : field A :=
  mkfield k ns local (fun t a => bind (conv (payload_text t)) (fun b => Ok (put b a))).

(* a destination with its own decoding of the whole child element *)
Definition f_sub {A B} (k : fkind) (ns local : bytes) (dec_ : tree -> res B) (put : B -> A -> A) : field A :=
  mkfield k ns local (fun t a => bind (dec_ t) (fun b => Ok (put b a))).

(* a nested struct destination: the child is decoded *into* the current value *)
Definition f_into {A B} (k : fkind) (ns local : bytes) (get : A -> B) (dec_ : B -> tree -> res B)
           (put : B -> A -> A) : field A :=
  mkfield k ns local (fun t a => bind (dec_ (get a) t) (fun b => Ok (put b a))).
