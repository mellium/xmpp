(* Heap.v — Go byte slices over a heap of backing arrays.

   A heap is a list of arrays (an array never changes its length); a slice is
   a window (array, offset, length, capacity) on one of them, given here by
   its four coordinates.  The models that have slices (C11 JIDs, C13 start
   elements, C20 AppendHash) and those that only update a list in place (C05,
   C06) define these functions themselves, under their own names.  A constant
   with the same body is convertible, a fixpoint included, so the lemmas below
   hold of the models' functions as they stand: [C05.set_nth], [C06.upd],
   [C11.upd], [C13.set_nth], [C20.set_nth] are [set_nth]; [C11.write_at] and
   [C20.put] are [put]; [C11.arr_get] and [C20.arr] are [arr]; [C11.slice_ok h s]
   and [C20.valid h s] unfold to [valid h (s_arr s) (s_off s) (s_len s) (s_cap s)],
   [C20.frame h h' d] to [frame] with the spare capacity of d as the open
   cells, [C11.pres h0 h] and [C13.keeps b h h'] to [keeps].  [apply] and
   [exact] see through the names; [rewrite] does when both constants take the
   same number of arguments, which is why windows and heaps are over [bytes]
   as in the models and only [set_nth] and [keeps] are polymorphic.

   Require this file without Import and use its names qualified: they are
   the models' names, and an Import after a model would change what [put],
   [valid] or [frame] mean in that file. *)
From Coq Require Import List Arith Lia.
From XV Require Import lib.Bytes lib.ListAux.
Import ListNotations.

Fixpoint set_nth {A} (l : list A) (n : nat) (x : A) : list A :=
  match l, n with
  | [], _ => []
  | _ :: r, 0 => x :: r
  | y :: r, S n' => y :: set_nth r n' x
  end.

Section Lists.
  Context {A : Type}.
  Implicit Types l bs : list A.

  Lemma set_nth_length l n x : length (set_nth l n x) = length l.
  Proof.
    revert n; induction l as [|y l IH]; intros [|n]; cbn [set_nth length]; try reflexivity.
    rewrite IH. reflexivity.
  Qed.

  Lemma nth_set_nth_same l n x d : n < length l -> nth n (set_nth l n x) d = x.
  Proof.
    revert n; induction l as [|y l IH]; intros [|n] L; cbn [set_nth nth length] in *; try lia; try reflexivity.
    apply IH. lia.
  Qed.

  Lemma nth_set_nth_other l n m x d : m <> n -> nth m (set_nth l n x) d = nth m l d.
  Proof.
    revert n m; induction l as [|y l IH]; intros [|n] [|m] N; cbn [set_nth nth]; try reflexivity; try lia.
    apply IH. lia.
  Qed.

  Lemma nth_error_set_nth_same l n x y : nth_error l n = Some y -> nth_error (set_nth l n x) n = Some x.
  Proof.
    revert n; induction l as [|z l IH]; intros [|n] H; cbn [set_nth nth_error] in *; try discriminate; [reflexivity|].
    apply IH, H.
  Qed.

  Lemma nth_error_set_nth_other l n m x : n <> m -> nth_error (set_nth l n x) m = nth_error l m.
  Proof.
    revert n m; induction l as [|z l IH]; intros [|n] [|m] H; cbn [set_nth nth_error]; try reflexivity; try congruence.
    apply IH. congruence.
  Qed.

  Lemma nth_error_set_nth_inv l n x m y :
    nth_error (set_nth l n x) m = Some y -> (m = n /\ y = x) \/ (n <> m /\ nth_error l m = Some y).
  Proof.
    intro H. destruct (Nat.eq_dec n m) as [<-|N].
    - left. destruct (nth_error l n) as [z|] eqn:E.
      + rewrite (nth_error_set_nth_same _ _ _ _ E) in H. split; congruence.
      + exfalso. apply nth_error_None in E. assert (L : nth_error (set_nth l n x) n <> None) by congruence.
        apply nth_error_Some in L. rewrite set_nth_length in L. lia.
    - right. rewrite nth_error_set_nth_other in H by exact N. split; assumption.
  Qed.

  Lemma set_nth_nth l n d : set_nth l n (nth n l d) = l.
  Proof.
    revert n; induction l as [|y l IH]; intros [|n]; cbn [set_nth nth]; try reflexivity.
    rewrite IH. reflexivity.
  Qed.

  Lemma set_nth_twice l n x y : set_nth (set_nth l n x) n y = set_nth l n y.
  Proof.
    revert n; induction l as [|z l IH]; intros [|n]; cbn [set_nth]; try reflexivity.
    rewrite IH. reflexivity.
  Qed.

  Lemma set_nth_last l x y : set_nth (l ++ [x]) (length l) y = l ++ [y].
  Proof. induction l as [|z l IH]; cbn [set_nth app length]; [|rewrite IH]; reflexivity. Qed.

  Lemma Forall2_set_nth {B} (P : A -> B -> Prop) l (l' : list B) x y :
    Forall2 P l l' -> P x y -> forall n, Forall2 P (set_nth l n x) (set_nth l' n y).
  Proof. induction 1; intros Hxy [|n]; cbn [set_nth]; auto. Qed.

  Lemma set_nth_beyond l n x : length l <= n -> set_nth l n x = l.
  Proof.
    revert n; induction l as [|y l IH]; intros [|n] H; cbn [set_nth length] in *; try reflexivity; try lia.
    rewrite IH by lia. reflexivity.
  Qed.

  Lemma firstn_set_nth_below l n k x : k <= n -> firstn k (set_nth l n x) = firstn k l.
  Proof.
    revert n k; induction l as [|y l IH]; intros [|n] [|k] H; cbn [set_nth firstn]; try reflexivity; try lia.
    rewrite IH by lia. reflexivity.
  Qed.

  Lemma firstn_set_nth_at l n x : n < length l -> firstn (S n) (set_nth l n x) = firstn n l ++ [x].
  Proof.
    revert n; induction l as [|y l IH]; intros [|n] H; cbn [set_nth firstn length app] in *; try lia; try reflexivity.
    rewrite IH by lia. reflexivity.
  Qed.

  Lemma nth_error_ext_eq l l' : (forall j, nth_error l j = nth_error l' j) -> l = l'.
  Proof.
    revert l'; induction l as [|x l IH]; intros [|y l'] E; try discriminate (E 0); [reflexivity|].
    injection (E 0) as ->. f_equal. apply IH. intro j. exact (E (S j)).
  Qed.

  Lemma nth_error_skipn l p j : nth_error (skipn p l) j = nth_error l (p + j).
  Proof.
    revert l; induction p as [|p IH]; intros l; [reflexivity|].
    destruct l as [|x l]; cbn [skipn plus nth_error]; [destruct j; reflexivity|apply IH].
  Qed.

  Lemma nth_error_firstn l n j : nth_error (firstn n l) j = if j <? n then nth_error l j else None.
  Proof.
    revert n j; induction l as [|x l IH]; intros [|n] [|j]; cbn [firstn nth_error]; try reflexivity.
    - destruct (_ <? _); reflexivity.
    - exact (IH n j).
  Qed.
End Lists.

Section Keeps.
  Context {A : Type}.
  Implicit Types h : list (list A).

  Definition keeps (b : nat) h h' : Prop :=
    length h <= length h' /\ forall i, i < b -> nth i h' [] = nth i h [].

  Lemma keeps_refl b h : keeps b h h.
  Proof. split; [lia|reflexivity]. Qed.

  Lemma keeps_trans b b' h h1 h2 : keeps b h h1 -> keeps b' h1 h2 -> b <= b' -> keeps b h h2.
  Proof.
    intros [L1 K1] [L2 K2] Hb. split; [lia|].
    intros i Hi. rewrite K2 by lia. apply K1. exact Hi.
  Qed.

  Lemma keeps_app b h ext : b <= length h -> keeps b h (h ++ ext).
  Proof. intro Hb. split; [rewrite app_length; lia|]. intros i Hi. apply app_nth1. lia. Qed.

  Lemma keeps_set_nth b h a x : b <= a -> keeps b h (set_nth h a x).
  Proof.
    intro Hb. split; [rewrite set_nth_length; lia|]. intros i Hi. apply nth_set_nth_other. lia.
  Qed.
End Keeps.

Section Windows.
  Implicit Types l bs : bytes.

  Definition sub l (p n : nat) : bytes := firstn n (skipn p l).
  Definition put l (p : nat) bs : bytes := firstn p l ++ bs ++ skipn (p + length bs) l.

  Lemma nth_error_sub l p n j : nth_error (sub l p n) j = if j <? n then nth_error l (p + j) else None.
  Proof. unfold sub. rewrite nth_error_firstn, nth_error_skipn. reflexivity. Qed.

  Lemma sub_ext l l' p n :
    (forall j, j < n -> nth_error l (p + j) = nth_error l' (p + j)) -> sub l p n = sub l' p n.
  Proof.
    intro E. apply nth_error_ext_eq. intro j. rewrite !nth_error_sub.
    destruct (Nat.ltb_spec j n) as [L|L]; [apply E; exact L|reflexivity].
  Qed.

  Lemma sub_length l p n : p + n <= length l -> length (sub l p n) = n.
  Proof. intro L. unfold sub. rewrite firstn_length, skipn_length. lia. Qed.

  Lemma firstn_sub m l p n : firstn m (sub l p n) = sub l p (Nat.min m n).
  Proof. apply firstn_firstn. Qed.

  Lemma skipn_sub m l p n : skipn m (sub l p n) = sub l (p + m) (n - m).
  Proof. unfold sub. rewrite skipn_firstn_comm, skipn_add. reflexivity. Qed.

  Lemma sub_app_split l p n m : sub l p (n + m) = sub l p n ++ sub l (p + n) m.
  Proof.
    rewrite <- (firstn_skipn n (sub l p (n + m))), firstn_sub, skipn_sub.
    f_equal; f_equal; lia.
  Qed.

  Lemma nth_error_put l p bs q :
    p + length bs <= length l ->
    nth_error (put l p bs) q =
      if q <? p then nth_error l q
      else if q <? p + length bs then nth_error bs (q - p)
      else nth_error l q.
  Proof.
    intro L. unfold put.
    destruct (Nat.ltb_spec q p) as [E1|E1].
    - rewrite nth_error_app1 by (rewrite firstn_length; lia).
      rewrite nth_error_firstn. apply Nat.ltb_lt in E1. rewrite E1. reflexivity.
    - rewrite nth_error_app2 by (rewrite firstn_length; lia).
      rewrite firstn_length, Nat.min_l by lia.
      destruct (Nat.ltb_spec q (p + length bs)) as [E2|E2].
      + rewrite nth_error_app1 by lia. reflexivity.
      + rewrite nth_error_app2 by lia. rewrite nth_error_skipn. f_equal. lia.
  Qed.

  Lemma put_length l p bs : p + length bs <= length l -> length (put l p bs) = length l.
  Proof. intro L. unfold put. rewrite !app_length, firstn_length, skipn_length. lia. Qed.

  Lemma put_nil l p : put l p [] = l.
  Proof. unfold put. cbn [length app]. rewrite Nat.add_0_r. apply firstn_skipn. Qed.

  Lemma sub_put_same l p bs : p + length bs <= length l -> sub (put l p bs) p (length bs) = bs.
  Proof.
    intro L. unfold sub, put.
    rewrite skipn_app, firstn_length_le, Nat.sub_diag, skipn_all2 by (rewrite ?firstn_length; lia).
    cbn [skipn app]. rewrite firstn_app, Nat.sub_diag, firstn_all. apply app_nil_r.
  Qed.

  Lemma put_put_adj l p x y :
    p + length x + length y <= length l -> put (put l p x) (p + length x) y = put l p (x ++ y).
  Proof.
    intro L. apply nth_error_ext_eq. intro q.
    rewrite !nth_error_put by (rewrite ?put_length, ?app_length; lia). rewrite app_length.
    (* q lies before p, in x, in y, or behind *)
    destruct (Nat.ltb_spec q p), (Nat.ltb_spec q (p + length x)),
      (Nat.ltb_spec q (p + length x + length y)), (Nat.ltb_spec q (p + (length x + length y)));
      try lia; try reflexivity.
    - rewrite nth_error_app1 by lia. reflexivity.
    - rewrite nth_error_app2 by lia. f_equal. lia.
  Qed.

  Lemma put_all l bs : length bs = length l -> put l 0 bs = bs.
  Proof. intro E. unfold put. cbn [firstn app plus]. rewrite E, skipn_all. apply app_nil_r. Qed.

End Windows.

Section Heaps.
  Implicit Types bs : bytes.

  Definition heap := list bytes.
  Implicit Types h : heap.

  Definition arr h (a : nat) : bytes := nth a h [].
  Definition write h (a p : nat) bs : heap := set_nth h a (put (arr h a) p bs).
  Definition read h (a off len : nat) : bytes := sub (arr h a) off len.

  Lemma length_write h a p bs : length (write h a p bs) = length h.
  Proof. apply set_nth_length. Qed.

  Lemma arr_write_same h a p bs : a < length h -> arr (write h a p bs) a = put (arr h a) p bs.
  Proof. intro L. unfold write, arr at 1. apply nth_set_nth_same. exact L. Qed.

  Lemma arr_write_other h a p bs b : b <> a -> arr (write h a p bs) b = arr h b.
  Proof. intro N. unfold write, arr. apply nth_set_nth_other. exact N. Qed.

  Lemma write_nil h a p : write h a p [] = h.
  Proof. unfold write. rewrite put_nil. apply set_nth_nth. Qed.

  Lemma arr_app_old h x a : a < length h -> arr (h ++ [x]) a = arr h a.
  Proof. intro L. unfold arr. apply app_nth1. exact L. Qed.

  Lemma arr_app_new h x : arr (h ++ [x]) (length h) = x.
  Proof. unfold arr. rewrite app_nth2 by lia. rewrite Nat.sub_diag. reflexivity. Qed.

  Lemma write_write_adj h a p x y :
    a < length h -> p + length x + length y <= length (arr h a) ->
    write (write h a p x) a (p + length x) y = write h a p (x ++ y).
  Proof.
    intros La L. unfold write at 1. rewrite arr_write_same, put_put_adj by assumption.
    apply set_nth_twice.
  Qed.

  Lemma write_last h x y : length y = length x -> write (h ++ [x]) (length h) 0 y = h ++ [y].
  Proof. intro E. unfold write. rewrite arr_app_new, put_all by exact E. apply set_nth_last. Qed.

  (* the window lies in an array of the heap (one without capacity needs no array) *)
  Definition valid h (a off len cap : nat) : Prop :=
    len <= cap /\ (cap = 0 \/ (a < length h /\ off + cap <= length (arr h a))).

  (* h' is h with arrays added and nothing changed but cells [lo, hi) of array a *)
  Definition frame h h' (a lo hi : nat) : Prop :=
    length h <= length h' /\
    (forall a', a' < length h -> length (arr h' a') = length (arr h a')) /\
    (forall a' p, a' < length h -> ~ (a' = a /\ lo <= p < hi) -> nth_error (arr h' a') p = nth_error (arr h a') p).

  Lemma read_length h a off len cap : valid h a off len cap -> length (read h a off len) = len.
  Proof.
    intros [L [Z|[Ha B]]]; [replace len with 0 by lia; reflexivity|].
    apply sub_length. lia.
  Qed.

  Lemma read_new h x n : read (h ++ [x]) (length h) 0 n = firstn n x.
  Proof. unfold read. rewrite arr_app_new. reflexivity. Qed.

  Lemma valid_new h x n c : n <= c <= length x -> valid (h ++ [x]) (length h) 0 n c.
  Proof. intro L. split; [lia|right]. rewrite app_length, arr_app_new. cbn [length]. lia. Qed.

  Lemma valid_sub h a off len cap lo hi :
    valid h a off len cap -> lo <= hi -> hi <= cap -> valid h a (off + lo) (hi - lo) (cap - lo).
  Proof.
    intros [L V] H1 H2. split; [lia|].
    destruct V as [Z|[Ha B]]; [left; lia|right]. split; [exact Ha|lia].
  Qed.

  Lemma read_sub h a off len lo hi :
    hi <= len -> read h a (off + lo) (hi - lo) = skipn lo (firstn hi (read h a off len)).
  Proof.
    intro L. unfold read. rewrite firstn_sub, skipn_sub. f_equal. lia.
  Qed.

  Lemma keeps_window h h' a off len cap :
    keeps (length h) h h' -> valid h a off len cap -> read h' a off len = read h a off len /\ valid h' a off len cap.
  Proof.
    intros [KL K] [L [Z|[Ha B]]].
    - split; [replace len with 0 by lia; reflexivity|]. split; [exact L|left; exact Z].
    - unfold read, valid, arr. rewrite K by exact Ha.
      split; [reflexivity|]. split; [exact L|right]. split; [exact (Nat.lt_le_trans _ _ _ Ha KL)|exact B].
  Qed.

  Lemma frame_refl h a lo hi : frame h h a lo hi.
  Proof. split; [lia|]. split; intros; reflexivity. Qed.

  Lemma frame_new h h' a lo hi :
    length h <= length h' -> (forall a', a' < length h -> arr h' a' = arr h a') -> frame h h' a lo hi.
  Proof. intros L E. split; [exact L|]. split; intros; rewrite E by assumption; reflexivity. Qed.

  Lemma frame_app h x a lo hi : frame h (h ++ [x]) a lo hi.
  Proof. apply frame_new; [rewrite app_length; lia|]. intros a' La. apply arr_app_old, La. Qed.

  Lemma frame_trans h h1 h2 a lo hi : frame h h1 a lo hi -> frame h1 h2 a lo hi -> frame h h2 a lo hi.
  Proof.
    intros [L1 [A1 C1]] [L2 [A2 C2]]. split; [lia|]. split.
    - intros a' La. rewrite A2, A1 by lia. reflexivity.
    - intros a' p La O. rewrite C2, C1 by (assumption || lia). reflexivity.
  Qed.

  Lemma frame_write h a lo hi p bs :
    a < length h -> hi <= length (arr h a) -> lo <= p -> p + length bs <= hi ->
    frame h (write h a p bs) a lo hi.
  Proof.
    intros Ha B Lp Lb. assert (P : p + length bs <= length (arr h a)) by lia.
    split; [rewrite length_write; lia|]. split.
    - intros a' _. destruct (Nat.eq_dec a' a) as [->|N].
      + rewrite arr_write_same by exact Ha. apply put_length, P.
      + rewrite arr_write_other by exact N. reflexivity.
    - intros a' q _ O. destruct (Nat.eq_dec a' a) as [->|N].
      + rewrite arr_write_same by exact Ha. rewrite nth_error_put by exact P.
        destruct (Nat.ltb_spec q p); [reflexivity|].
        destruct (Nat.ltb_spec q (p + length bs)); [|reflexivity].
        exfalso. apply O. split; [reflexivity|lia].
      + rewrite arr_write_other by exact N. reflexivity.
  Qed.

  Lemma frame_read h h' a lo hi a' off len cap :
    frame h h' a lo hi -> valid h a' off len cap ->
    ~ (a' = a /\ exists p, off <= p < off + len /\ lo <= p < hi) -> read h' a' off len = read h a' off len.
  Proof.
    intros [_ [_ F]] [L [Z|[Ha B]]] NO; [replace len with 0 by lia; reflexivity|].
    apply sub_ext. intros j Hj. apply F; [exact Ha|].
    intros [Ea Sp]. apply NO. split; [exact Ea|]. exists (off + j). lia.
  Qed.

  Lemma valid_frame h h' a lo hi a' off len cap : valid h a' off len cap -> frame h h' a lo hi -> valid h' a' off len cap.
  Proof.
    intros [L V] [F1 [F2 F3]]. split; [exact L|].
    destruct V as [Z|[Ha B]]; [left; exact Z|right].
    split; [lia|]. rewrite F2 by exact Ha. exact B.
  Qed.

  Lemma frame_keeps h h' a lo hi b : frame h h' a lo hi -> b <= a -> b <= length h -> keeps b h h'.
  Proof.
    intros [L [_ F]] Hb Hh. split; [exact L|]. intros i Hi.
    apply nth_error_ext_eq. intro j. apply F; lia.
  Qed.

  (* append(s, bs...): in place when the capacity suffices, else into a fresh array x
     that begins with the old contents and bs *)

  Lemma append_in_place h a off len cap bs :
    valid h a off len cap -> len + length bs <= cap ->
    let h1 := write h a (off + len) bs in
    read h1 a off (len + length bs) = read h a off len ++ bs /\
    valid h1 a off (len + length bs) cap /\ frame h h1 a (off + len) (off + cap).
  Proof.
    intros Vd C. pose proof Vd as [L [Z|[Ha B]]].
    - (* no capacity: nothing is appended *)
      destruct bs; [|cbn [length] in C; lia]. cbn zeta. rewrite write_nil, app_nil_r.
      replace len with 0 by lia. split; [reflexivity|].
      split; [split; [cbn; lia|left; exact Z]|apply frame_refl].
    - assert (P : off + len + length bs <= length (arr h a)) by lia.
      assert (F : frame h (write h a (off + len) bs) a (off + len) (off + cap))
        by (apply frame_write; (assumption || lia)).
      split; [|split; [|exact F]].
      + unfold read at 1. rewrite sub_app_split. f_equal.
        * apply (frame_read _ _ _ _ _ _ _ _ _ F Vd). intros [_ [p S]]. lia.
        * rewrite arr_write_same by exact Ha. apply sub_put_same, P.
      + split; [lia|right].
        rewrite length_write, arr_write_same, put_length by assumption. split; assumption.
  Qed.

  Lemma append_fresh h a off len cap bs rest a' lo hi :
    valid h a off len cap ->
    let x := read h a off len ++ bs ++ rest in
    let n := len + length bs in
    read (h ++ [x]) (length h) 0 n = read h a off len ++ bs /\
    valid (h ++ [x]) (length h) 0 n (n + length rest) /\ frame h (h ++ [x]) a' lo hi.
  Proof.
    intros Vd x n. pose proof (read_length _ _ _ _ _ Vd) as RL.
    split; [|split; [|apply frame_app]].
    - rewrite read_new. unfold x, n. rewrite app_assoc. rewrite <- RL at 1. rewrite <- app_length. apply firstn_app_exact.
    - apply valid_new. unfold x, n. rewrite !app_length, RL. lia.
  Qed.
End Heaps.
