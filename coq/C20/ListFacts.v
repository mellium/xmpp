(* C20/ListFacts.v — facts about lists, Sorted, Permutation and Forall2 that
   the standard library of Coq 8.16 does not have; nothing of the model. *)
From Coq Require Import List Arith Lia Sorting.Permutation Sorting.Sorted.
Import ListNotations.

Lemma Permutation_filter {A} (p : A -> bool) l l' :
  Permutation l l' -> Permutation (filter p l) (filter p l').
Proof.
  induction 1 as [|x l l' P IH|x y l|l l' l'' P1 IH1 P2 IH2]; cbn [filter].
  - apply Permutation_refl.
  - destruct (p x); [apply perm_skip|]; exact IH.
  - destruct (p x), (p y); try apply Permutation_refl. apply perm_swap.
  - eapply Permutation_trans; eassumption.
Qed.

Lemma NoDup_map_inj_in {A B} (f : A -> B) l a b :
  NoDup (map f l) -> In a l -> In b l -> f a = f b -> a = b.
Proof.
  induction l as [|x l IH]; cbn [map]; intros ND Ha Hb E; [contradiction|].
  inversion ND as [|? ? NI ND']; subst.
  destruct Ha as [->|Ha], Hb as [->|Hb].
  - reflexivity.
  - exfalso. apply NI. rewrite E. apply in_map. exact Hb.
  - exfalso. apply NI. rewrite <- E. apply in_map. exact Ha.
  - apply IH; assumption.
Qed.

Lemma sorted_perm_eq {A} (R : A -> A -> Prop) (l1 l2 : list A) :
  (forall a b c, R a b -> R b c -> R a c) ->
  Sorted R l1 -> Sorted R l2 -> Permutation l1 l2 ->
  (forall a b, In a l1 -> In b l1 -> R a b -> R b a -> a = b) ->
  l1 = l2.
Proof.
  intro Tr. revert l2; induction l1 as [|a l1 IH]; intros [|b l2] S1 S2 P AS.
  - reflexivity.
  - apply Permutation_nil in P. discriminate.
  - apply Permutation_sym, Permutation_nil in P. discriminate.
  - pose proof (Sorted_extends Tr S1) as F1. pose proof (Sorted_extends Tr S2) as F2.
    rewrite Forall_forall in F1, F2.
    (* each head occurs in the other list: at its head, or behind it and so above it *)
    assert (a = b) as <-.
    { destruct (Permutation_in _ P (in_eq a l1)) as [E|Ia]; [auto|].
      destruct (Permutation_in _ (Permutation_sym P) (in_eq b l2)) as [E|Ib]; [auto|].
      apply AS; auto using in_eq, in_cons. }
    apply Sorted_inv in S1, S2.
    f_equal. apply IH; auto using in_cons; [apply S1|apply S2|exact (Permutation_cons_inv P)].
Qed.

Lemma Sorted_map {A B} (f : A -> B) (R : B -> B -> Prop) l :
  Sorted (fun a b => R (f a) (f b)) l <-> Sorted R (map f l).
Proof.
  induction l as [|a l IH]; cbn [map]; [split; constructor|].
  split; intro S; inversion S as [|? ? S' H]; subst; (constructor; [apply IH; exact S'|]).
  (* the head relation, in either direction, looks at the first element only *)
  - destruct l; inversion H; subst; constructor; assumption.
  - destruct l; inversion H; subst; constructor; assumption.
Qed.

Section Forall2Facts.
  Context {A B : Type} (R : A -> B -> Prop).

  Lemma Forall2_map_intro (g : A -> B) l : (forall x, R x (g x)) -> Forall2 R l (map g l).
  Proof. intro H. induction l; constructor; [apply H|assumption]. Qed.

  Lemma Forall2_map_eq {C} (f : A -> C) (g : B -> C) l l' :
    Forall2 R l l' -> (forall x y, In x l -> R x y -> f x = g y) -> map f l = map g l'.
  Proof.
    induction 1 as [|x y l l' r F IH]; intro E; cbn [map]; [reflexivity|]. f_equal.
    - apply E; [left; reflexivity|exact r].
    - apply IH. intros x' y' I. apply E. right. exact I.
  Qed.

  Lemma Forall2_eq_map (g : A -> B) l l' :
    Forall2 R l l' -> (forall x y, In x l -> R x y -> y = g x) -> l' = map g l.
  Proof.
    intros F E. rewrite <- (map_id l'). symmetry. apply (Forall2_map_eq g id l l' F).
    intros x y I r. symmetry. apply E; assumption.
  Qed.

  Lemma Forall2_filter (p : A -> bool) (q : B -> bool) l l' :
    Forall2 R l l' -> (forall x y, R x y -> p x = q y) -> Forall2 R (filter p l) (filter q l').
  Proof.
    intros F E. induction F as [|x y l l' r F IH]; cbn [filter]; [constructor|].
    rewrite (E x y r). destruct (q y); [constructor|]; assumption.
  Qed.

  Lemma Forall2_flat_map_perm {C} (f : A -> list C) (g : B -> list C) l l' :
    Forall2 R l l' -> (forall x y, R x y -> Permutation (f x) (g y)) ->
    Permutation (flat_map f l) (flat_map g l').
  Proof.
    intros F E. induction F as [|x y l l' r F IH]; cbn [flat_map]; [apply Permutation_refl|].
    apply Permutation_app; [apply E; exact r|exact IH].
  Qed.
End Forall2Facts.
