(* C20/Examples.v — worked examples of XEP-0115 and non-vacuity of the
   hypotheses used in Properties.v. *)
From Coq Require Import Sorting.Permutation.
From XV Require Import lib.Bytes gen.DiscoCaps C20.Model C20.Spec C20.TailModel C20.TailProofs C20.Properties.

Definition feats_xep : list bytes :=
  [str "http://jabber.org/protocol/disco#info"; str "http://jabber.org/protocol/caps";
   str "http://jabber.org/protocol/muc"; str "http://jabber.org/protocol/disco#items"].

(* XEP-0115 5.2, simple generation example (features given out of order) *)
Definition ex_simple : info :=
  mkinfo [mkid (str "client") (str "pc") [] (str "Exodus 0.9.1")] feats_xep [].

Example ex_simple_string :
  ver_string ex_simple =
  str "client/pc//Exodus 0.9.1<http://jabber.org/protocol/caps<http://jabber.org/protocol/disco#info<http://jabber.org/protocol/disco#items<http://jabber.org/protocol/muc<".
Proof. vm_compute. reflexivity. Qed.

(* XEP-0115 5.3, complex generation example; "Psi" in Greek is ce a8 *)
Definition psi_el : bytes := hex "cea8" ++ str " 0.11".
Definition software_info : form :=
  [mkfield (str "os_version") [str "10.5.1"];
   mkfield (str "ip_version") [str "ipv6"; str "ipv4"];
   mkfield (str "FORM_TYPE") [str "urn:xmpp:dataforms:softwareinfo"];
   mkfield (str "software_version") [str "0.11"];
   mkfield (str "os") [str "Mac"];
   mkfield (str "software") [str "Psi"]].
Definition ex_complex : info :=
  mkinfo [mkid (str "client") (str "pc") (str "en") (str "Psi 0.11");
          mkid (str "client") (str "pc") (str "el") psi_el]
         feats_xep [software_info].

Example ex_complex_string :
  ver_string ex_complex =
  str "client/pc/el/" ++ psi_el ++
  str "<client/pc/en/Psi 0.11<http://jabber.org/protocol/caps<http://jabber.org/protocol/disco#info<http://jabber.org/protocol/disco#items<http://jabber.org/protocol/muc<urn:xmpp:dataforms:softwareinfo<ip_version<ipv4<ipv6<os<Mac<os_version<10.5.1<software<Psi<software_version<0.11<".
Proof. vm_compute. reflexivity. Qed.

(* the hypotheses of C20_xep_determines_string hold of it *)
Example ex_complex_well_formed : well_formed ex_complex.
Proof.
  split; [|split; [|split]].
  - unfold distinct_identities. vm_compute. repeat constructor; simpl; intuition discriminate.
  - repeat constructor. intros a b Ha Hb. vm_compute in Ha, Hb.
    destruct Ha as [<-|[]], Hb as [<-|[]]. reflexivity.
  - repeat constructor; vm_compute; intuition discriminate.
  - unfold distinct_form_types. vm_compute. repeat constructor. intros [].
Qed.

(* a permuted copy: identities, features, forms, fields and values all moved *)
Definition server_info : form :=
  [mkfield (str "FORM_TYPE") [str "http://jabber.org/network/serverinfo"];
   mkfield (str "abuse-addresses") [str "xmpp:abuse@shakespeare.lit"; str "mailto:abuse@shakespeare.lit"]].
Definition server_info' : form :=
  [mkfield (str "abuse-addresses") [str "mailto:abuse@shakespeare.lit"; str "xmpp:abuse@shakespeare.lit"];
   mkfield (str "FORM_TYPE") [str "http://jabber.org/network/serverinfo"]].
Definition ex_two : info :=
  mkinfo (i_ids ex_complex) [str "b"; str "a"] [software_info; server_info; []].
Definition ex_two' : info :=
  mkinfo (rev (i_ids ex_complex)) [str "a"; str "b"] [[]; server_info'; software_info].

Lemma field_equiv_refl f : field_equiv f f.
Proof. split; [reflexivity|apply Permutation_refl]. Qed.

Lemma form_equiv_refl fm : form_equiv fm fm.
Proof.
  exists fm. split; [apply Permutation_refl|].
  induction fm; constructor; [apply field_equiv_refl|assumption].
Qed.

Example ex_two_equiv : info_equiv ex_two ex_two'.
Proof.
  split; [apply perm_swap|]. split; [apply perm_swap|].
  exists [[]; server_info; software_info]. split.
  - apply (Permutation_rev [software_info; server_info; []]).
  - constructor; [apply form_equiv_refl|]. constructor; [|constructor; [apply form_equiv_refl|constructor]].
    exists (rev server_info). split; [apply Permutation_rev|].
    constructor; [split; [reflexivity|apply perm_swap]|].
    constructor; [apply field_equiv_refl|constructor].
Qed.

Example ex_two_distinct : distinct_identities ex_two.
Proof. unfold distinct_identities. vm_compute. repeat constructor; simpl; intuition discriminate. Qed.

Example ex_two_same_string : ver_string ex_two = ver_string ex_two'.
Proof. exact (C20_permutation_invariant _ _ ex_two_equiv ex_two_distinct). Qed.

(* the sorted forms: the empty form (type "") first, then serverinfo, then softwareinfo *)
Example ex_two_forms :
  forms_string (i_forms ex_two) =
  str "<http://jabber.org/network/serverinfo<abuse-addresses<mailto:abuse@shakespeare.lit<xmpp:abuse@shakespeare.lit<urn:xmpp:dataforms:softwareinfo<ip_version<ipv4<ipv6<os<Mac<os_version<10.5.1<software<Psi<software_version<0.11<".
Proof. vm_compute. reflexivity. Qed.

(* a form without fields does not panic and contributes its (empty) type *)
Example ex_empty_form : ver_string_res (mkinfo [] [] [[]]) = Ok (str "<").
Proof. vm_compute. reflexivity. Qed.

(* form types are compared as strings, not as '<'-terminated texts: "a" < "a1" although "a1<" < "a<" *)
Example ex_prefix_types :
  forms_string [[mkfield (str "FORM_TYPE") [str "a1"]]; [mkfield (str "FORM_TYPE") [str "a"]]] = str "a<a1<".
Proof. vm_compute. reflexivity. Qed.

(* two fields with the same var keep their own values; several FORM_TYPE values: the smallest *)
Example ex_dup_var :
  forms_string [[mkfield (str "a") [str "y"]; mkfield (str "FORM_TYPE") [str "u"; str "t"]; mkfield (str "a") [str "x"]]]
  = str "t<a<x<a<y<".
Proof. vm_compute. reflexivity. Qed.

(* base64.StdEncoding (RFC 4648 test vectors) *)
Example ex_b64 :
  b64enc (str "foobar") = str "Zm9vYmFy" /\ b64enc (str "fooba") = str "Zm9vYmE=" /\
  b64enc (str "foob") = str "Zm9vYg==" /\ b64enc [] = [].
Proof. vm_compute. repeat split; reflexivity. Qed.

(* AppendHash with a destination: the base64 covers destination and digest (as the code does) *)
Example ex_append :
  append_hash (fun s => s) (str "ab") (mkinfo [] [str "c"] []) = Ok (b64enc (str "abc<")).
Proof. vm_compute. reflexivity. Qed.

Definition ex_i : info := mkinfo [] [str "c"] [].      (* S = "c<" *)
Definition no_slack : nat -> nat := fun _ => 0.
Definition out_of (r : tres) : option bytes := match r with TOk h o => Some (read h o) | _ => None end.

(* an empty destination with 64 bytes of spare capacity holding junk: a valid
   window, and the digest (20 bytes) as well as its base64 (28 bytes) would fit *)
Definition ex_buf : bytes := repeat "x"%byte 64.
Definition ex_dst : slice := mkslice 0 0 0 64.
Example ex_dst_valid : valid [ex_buf] ex_dst /\ s_len ex_dst = 0 /\ enclen 20 <= s_cap ex_dst.
Proof. vm_compute. repeat split; lia. Qed.

Example ex_spare_capacity :
  out_of (append_hash_heap no_slack (fold_hash 20) [ex_buf] ex_dst ex_i)
    = Some (b64enc (fold_hash 20 (str "c<"))) /\
  hash_heap no_slack (fold_hash 20) [ex_buf] ex_i = HOk (b64enc (fold_hash 20 (str "c<"))) /\
  length (b64enc (fold_hash 20 (str "c<"))) = 28.
Proof. vm_compute. repeat split; reflexivity. Qed.

(* a non-empty destination in the middle of an array that another slice shares:
   the prefix is kept, the digest lands in the spare capacity, the other slice
   (which does not reach into it) reads the same *)
Definition ex_mid : slice := mkslice 0 10 2 30.
Definition ex_other : slice := mkslice 0 0 10 10.
Example ex_shared :
  match append_hash_heap no_slack (fun s => s) [ex_buf] ex_mid ex_i with
  | TOk h' out => read h' out = b64enc (str "xxc<") /\ read h' ex_mid = str "xx" /\
                  read h' ex_other = read [ex_buf] ex_other /\ ~ overlaps_spare ex_other ex_mid /\
                  sub (arr h' 0) 12 2 = str "c<"
  | _ => False
  end.
Proof.
  vm_compute. repeat split; try reflexivity. intros [_ [p [A B]]]. lia.
Qed.

(* a history on one buffer: r1 = AppendHash(buf[:0]); r2 = AppendHash(r1[:0]) (the
   result reused as the next destination); r3 = AppendHash(buf[:3]) *)
Example ex_history :
  let '(rs, _, _) := run_calls no_slack (fold_hash 20) [ex_buf] [ex_dst]
                       [mkcall 0 0 0 ex_i; mkcall 1 0 0 ex_i; mkcall 0 0 3 ex_i] in
  map (fun r => match r with CallOk dc _ out => Some (dc, out) | _ => None end) rs =
  let hsh := b64enc (fold_hash 20 (str "c<")) in
  [Some ([], hsh); Some ([], hsh); Some (firstn 3 (fold_hash 20 (str "c<")), b64enc (firstn 3 (fold_hash 20 (str "c<")) ++ fold_hash 20 (str "c<")))].
Proof. vm_compute. reflexivity. Qed.

(* The theorems are about the tail as it is in the source, not about every tail:
   a tail that takes its output buffer from the destination when the capacity
   suffices (Encode then reads cells it has already overwritten) returns
   something else for exactly the destinations with enough spare capacity. *)
Definition tail_reusing_dst : list t_stmt :=
  [TAssign 1 (TSum (TVar 0)); TAssignInt 0 (TEncLen (TLen 1));
   TAssign 2 (TReslice (TVar 0) None (Some (TLit 0)));
   TIf (TCmp CLt (TCap 2) (TIntVar 0)) [TAssign 2 (TMake (TIntVar 0) None)] [];
   TAssign 2 (TReslice (TVar 2) None (Some (TIntVar 0)));
   TEncode (TVar 2) (TVar 1); TReturn (TVar 2)]%N.

Example ex_reusing_dst_garbles :
  let dg := fold_hash 20 (str "c<") in
  out_of (run_tail no_slack dg tail_reusing_dst [ex_buf] ex_dst) <> Some (b64enc dg) /\
  out_of (run_tail no_slack dg tail_reusing_dst [repeat "x"%byte 27] (mkslice 0 0 0 27)) = Some (b64enc dg) /\
  out_of (run_tail no_slack dg tail_reusing_dst [] nil_slice) = Some (b64enc dg) /\
  out_of (run_tail no_slack dg caps_tail [ex_buf] ex_dst) = Some (b64enc dg).
Proof. vm_compute. repeat split; try reflexivity. intro E. discriminate E. Qed.

(* the fixed-size hash of the correspondence *)
Example ex_fold_hash : fold_hash 4 (str "abcdef") = [byte_of_N (0 + 97 + 101); byte_of_N (1 + 98 + 102); byte_of_N (2 + 99); byte_of_N (3 + 100)]
  /\ length (fold_hash 20 []) = 20 /\ hfun 0 (str "ab") = str "ab".
Proof. vm_compute. repeat split; reflexivity. Qed.
