(* C20/Proofs.v — the model's sorts return the one sorted permutation (for a
   total preorder, up to what a coarser order cannot tell apart); with the
   tables read from the source this gives order independence of the
   verification string and its agreement with Spec.v. *)
From Coq Require Import Sorting.Permutation Sorting.Sorted.
From XV Require Import lib.Bytes gen.DiscoCaps C20.ListFacts C20.Model C20.Spec.

Lemma bytes_leb_cons x a y b :
  bytes_leb (x :: a) (y :: b) = true <-> (bN x < bN y)%N \/ x = y /\ bytes_leb a b = true.
Proof.
  cbn [bytes_leb].
  destruct (N.ltb_spec (bN x) (bN y)) as [L|L]; [split; [left; exact L|reflexivity]|].
  destruct (N.ltb_spec (bN y) (bN x)) as [G|G].
  - split; [discriminate|]. intros [L'|[-> _]]; lia.
  - assert (x = y) as -> by (apply bN_inj; lia).
    split; [right; split; [reflexivity|assumption]|]. intros [L'|[_ H]]; [lia|exact H].
Qed.

Lemma bytes_leb_total a b : bytes_leb a b = true \/ bytes_leb b a = true.
Proof.
  revert b; induction a as [|x a IH]; intros [|y b]; cbn [bytes_leb]; auto.
  destruct (bN x <? bN y)%N eqn:E1; [auto|].
  destruct (bN y <? bN x)%N eqn:E2; [auto|].
  apply IH.
Qed.

Lemma bytes_leb_refl a : bytes_leb a a = true.
Proof. destruct (bytes_leb_total a a); assumption. Qed.

Lemma bytes_leb_antisym a b : bytes_leb a b = true -> bytes_leb b a = true -> a = b.
Proof.
  revert b; induction a as [|x a IH]; intros [|y b]; try reflexivity; try discriminate.
  rewrite !bytes_leb_cons. intros [L|[E1 H1]] [G|[E2 H2]]; subst; try lia.
  f_equal. apply IH; assumption.
Qed.

Lemma bytes_leb_trans a b c : bytes_leb a b = true -> bytes_leb b c = true -> bytes_leb a c = true.
Proof.
  revert b c; induction a as [|x a IH]; intros [|y b] [|z c]; try reflexivity; try discriminate.
  rewrite !bytes_leb_cons. intros [L1|[-> H1]] [L2|[-> H2]].
  - left. lia.
  - left. exact L1.
  - left. exact L2.
  - right. split; [reflexivity|eapply IH; eassumption].
Qed.

Lemma bytes_eqb_spec a b : reflect (a = b) (bytes_eqb a b).
Proof. apply iff_reflect. symmetry. apply bytes_eqb_eq. Qed.

Lemma bytes_ltb_asym a b : bytes_ltb a b = true -> bytes_ltb b a = false.
Proof.
  unfold bytes_ltb. destruct (bytes_leb_total a b) as [T|T]; rewrite T; [reflexivity|discriminate].
Qed.

(* a total preorder, not an order: identities that differ in the name alone rank both ways *)
Record torder {A} (leb : A -> A -> bool) : Prop := {
  to_total : forall a b, leb a b = true \/ leb b a = true;
  to_trans : forall a b c, leb a b = true -> leb b c = true -> leb a c = true }.

Lemma bytes_torder : torder bytes_leb.
Proof. split; [exact bytes_leb_total|exact bytes_leb_trans]. Qed.

Section SortFacts.
  Context {A : Type} (leb : A -> A -> bool).

  Lemma insert_perm x l : Permutation (insert leb x l) (x :: l).
  Proof.
    induction l as [|y l IH]; cbn [insert]; [apply Permutation_refl|].
    destruct (leb x y); [apply Permutation_refl|].
    eapply Permutation_trans; [apply perm_skip; exact IH|apply perm_swap].
  Qed.

  Lemma isort_perm l : Permutation (isort leb l) l.
  Proof.
    induction l as [|x l IH]; cbn [isort]; [apply Permutation_refl|].
    eapply Permutation_trans; [apply insert_perm|apply perm_skip; exact IH].
  Qed.
End SortFacts.

(* The XEP sorts fields and forms by their key alone, the code by key and then
   text: hence the coarser order [R] beside [leb]. *)
Section SortBy.
  Context {A : Type} (leb : A -> A -> bool) (R : A -> A -> Prop).
  Hypothesis total : forall a b, leb a b = true \/ leb b a = true.
  Hypothesis incl : forall a b, leb a b = true -> R a b.

  Lemma insert_hd a x l : R a x -> HdRel R a l -> HdRel R a (insert leb x l).
  Proof.
    intros Hx H. destruct H as [|y l Hy]; cbn [insert]; [|destruct (leb x y)]; constructor; assumption.
  Qed.

  Lemma insert_sorted_by x l : Sorted R l -> Sorted R (insert leb x l).
  Proof.
    induction 1 as [|y l S IH H]; cbn [insert]; [repeat constructor|].
    destruct (leb x y) eqn:E.
    - repeat constructor; auto.
    - constructor; [exact IH|]. apply insert_hd; [|exact H].
      destruct (total x y); [congruence|auto].
  Qed.

  Lemma isort_sorted_by l : Sorted R (isort leb l).
  Proof. induction l as [|x l IH]; cbn [isort]; [constructor|apply insert_sorted_by, IH]. Qed.

  Lemma isort_unique l vs :
    (forall a b c, R a b -> R b c -> R a c) ->
    (forall a b, In a l -> In b l -> R a b -> R b a -> a = b) ->
    Permutation l vs -> Sorted R vs -> vs = isort leb l.
  Proof.
    intros Tr AS P S. apply (sorted_perm_eq R); [exact Tr|exact S|apply isort_sorted_by| |].
    - eapply Permutation_trans; [apply Permutation_sym; exact P|apply Permutation_sym, isort_perm].
    - intros a b Ha Hb. apply AS; eapply Permutation_in; try apply Permutation_sym, P; assumption.
  Qed.
End SortBy.

Lemma isort_perm_eq {A} (leb : A -> A -> bool) (l1 l2 : list A) :
  torder leb ->
  (forall a b, In a l1 -> In b l1 -> leb a b = true -> leb b a = true -> a = b) ->
  Permutation l1 l2 -> isort leb l1 = isort leb l2.
Proof.
  intros [T Tr] AS P. symmetry. apply (isort_unique leb (fun a b => leb a b = true)); auto.
  - eapply Permutation_trans; [exact P|apply Permutation_sym, isort_perm].
  - apply isort_sorted_by; auto.
Qed.

Section Lex.
  Variable A : Type.
  Variable k : A -> bytes.
  Variable rest : A -> A -> bool.

  Definition lex_leb (a b : A) : bool :=
    if bytes_eqb (k a) (k b) then rest a b else bytes_leb (k a) (k b).

  Lemma lex_torder : torder rest -> torder lex_leb.
  Proof.
    intros [T Tr]. split; unfold lex_leb.
    - intros a b. rewrite (bytes_eqb_sym (k b)).
      destruct (bytes_eqb (k a) (k b)); [apply T|apply bytes_leb_total].
    - intros a b c. destruct (bytes_eqb_spec (k a) (k b)) as [E1|N1].
      + rewrite E1. destruct (bytes_eqb (k b) (k c)); [apply Tr|intros _ H; exact H].
      + destruct (bytes_eqb_spec (k b) (k c)) as [E2|N2].
        * rewrite <- E2. destruct (bytes_eqb_spec (k a) (k b)); [contradiction|]. intros H _; exact H.
        * intros H1 H2. destruct (bytes_eqb_spec (k a) (k c)) as [E3|N3].
          -- exfalso. apply N1. rewrite <- E3 in H2. apply bytes_leb_antisym; assumption.
          -- eapply bytes_leb_trans; eassumption.
  Qed.

  Lemma lex_both a b :
    lex_leb a b = true -> lex_leb b a = true -> k a = k b /\ rest a b = true /\ rest b a = true.
  Proof.
    unfold lex_leb. rewrite (bytes_eqb_sym (k b)).
    destruct (bytes_eqb_spec (k a) (k b)) as [E|N]; intros H1 H2; [auto|].
    exfalso. apply N. apply bytes_leb_antisym; assumption.
  Qed.

  Lemma lex_key a b : lex_leb a b = true -> bytes_leb (k a) (k b) = true.
  Proof.
    unfold lex_leb. destruct (bytes_eqb_spec (k a) (k b)) as [E|N]; intro H; [|exact H].
    rewrite E. apply bytes_leb_refl.
  Qed.
End Lex.

Definition key_leb {A} (k : A -> bytes) (a b : A) : bool := bytes_leb (k a) (k b).

Lemma key_torder {A} (k : A -> bytes) : torder (key_leb k).
Proof. split; intros *; [apply bytes_leb_total|apply bytes_leb_trans]. Qed.

Lemma xep_id_leb_lex :
  xep_id_leb = lex_leb _ id_cat (lex_leb _ id_type (key_leb id_lang)).
Proof. reflexivity. Qed.

Lemma xep_id_torder : torder xep_id_leb.
Proof. rewrite xep_id_leb_lex. apply lex_torder, lex_torder, key_torder. Qed.

Lemma xep_id_both a b : xep_id_leb a b = true -> xep_id_leb b a = true -> id_key a = id_key b.
Proof.
  rewrite xep_id_leb_lex. intros H1 H2.
  destruct (lex_both _ _ _ _ _ H1 H2) as [E1 [H3 H4]].
  destruct (lex_both _ _ _ _ _ H3 H4) as [E2 [H5 H6]].
  unfold key_leb in *. unfold id_key. rewrite E1, E2. f_equal. apply bytes_leb_antisym; assumption.
Qed.

Lemma chunk_leb_lex : chunk_leb = lex_leb _ fst (key_leb snd).
Proof. reflexivity. Qed.

Lemma chunk_torder : torder chunk_leb.
Proof. rewrite chunk_leb_lex. apply lex_torder, key_torder. Qed.

Lemma chunk_antisym (a b : chunk) : chunk_leb a b = true -> chunk_leb b a = true -> a = b.
Proof.
  rewrite chunk_leb_lex. intros H1 H2. destruct (lex_both _ _ _ _ _ H1 H2) as [E [H3 H4]].
  destruct a, b; simpl in *. subst. f_equal. apply bytes_leb_antisym; assumption.
Qed.

Lemma chunk_leb_key a b : chunk_leb a b = true -> bytes_le (fst a) (fst b).
Proof. rewrite chunk_leb_lex. apply lex_key. Qed.

Lemma tbl_sep : sep = lt_char.
Proof. vm_compute. reflexivity. Qed.

Lemma tbl_form_type_var : caps_form_type_var = form_type_name.
Proof. vm_compute. reflexivity. Qed.

Lemma tbl_id_sort_keys : caps_id_sort_keys = [(0, 0); (1, 1); (2, 2)]%N.
Proof. vm_compute. reflexivity. Qed.

Lemma tbl_id_format : caps_id_format = str "%s/%s/%s/%s<".
Proof. vm_compute. reflexivity. Qed.

Lemma tbl_id_format_args : caps_id_format_args = [0; 1; 2; 3]%N.
Proof. vm_compute. reflexivity. Qed.

(* every make() capacity of AppendHash is a length, never a length minus something *)
Lemma tbl_caps_nonneg :
  forallb (fun k => (k =? 0)%N) caps_len_cap_deficits && caps_other_caps_nonneg = true.
Proof. vm_compute. reflexivity. Qed.

Lemma render_id_eq_xep i : render_id i = xep_identity i.
Proof.
  destruct i as [c t l n]. unfold render_id, xep_identity.
  rewrite tbl_id_format, tbl_id_format_args.
  cbn. repeat rewrite <- app_assoc. reflexivity.
Qed.

(* Go's less is <; the model's sort compares with "not (b < a)" *)
Lemma id_leb_eq_xep a b : id_leb a b = xep_id_leb a b.
Proof.
  unfold id_leb, id_ltb, xep_id_leb. rewrite tbl_id_sort_keys.
  cbn [keys_ltb id_sel fst snd].
  rewrite (bytes_eqb_sym (id_cat b)), (bytes_eqb_sym (id_type b)), (bytes_eqb_sym (id_lang b)).
  unfold bytes_ltb.
  destruct (bytes_eqb (id_cat a) (id_cat b)); [|apply negb_involutive].
  destruct (bytes_eqb (id_type a) (id_type b)); [|apply negb_involutive].
  destruct (bytes_eqb_spec (id_lang a) (id_lang b)) as [E|N]; [|apply negb_involutive].
  rewrite E, bytes_leb_refl. reflexivity.
Qed.

Lemma id_leb_le a b : id_leb a b = true -> xep_id_le a b.
Proof. rewrite id_leb_eq_xep. auto. Qed.

Lemma id_torder : torder id_leb.
Proof. split; intros *; rewrite !id_leb_eq_xep; apply xep_id_torder. Qed.

Lemma is_ft_eq_xep f : is_ft f = is_form_type_field f.
Proof. unfold is_ft, is_form_type_field. rewrite tbl_form_type_var. reflexivity. Qed.

Lemma join_sep_eq_xep l : join_sep l = xep_each l.
Proof. unfold join_sep, xep_each. rewrite tbl_sep. reflexivity. Qed.

Lemma panics_false i : panics i = false.
Proof.
  destruct (proj1 (andb_true_iff _ _) tbl_caps_nonneg) as [T1 T2].
  unfold panics. rewrite T2. apply not_true_iff_false. intro E. cbn [negb orb] in E.
  apply existsb_exists in E. destruct E as [fm [_ E]].
  apply existsb_exists in E. destruct E as [k [Hk E]].
  rewrite forallb_forall in T1. apply T1, N.eqb_eq in Hk. subst k.
  apply N.ltb_lt in E. exact (N.nlt_0_r _ E).
Qed.

Lemma ver_string_res_ok i : ver_string_res i = Ok (ver_string i).
Proof. unfold ver_string_res. rewrite panics_false. reflexivity. Qed.

Lemma append_hash_ok H dst i : append_hash H dst i = Ok (b64enc (dst ++ H (ver_string i))).
Proof. unfold append_hash. rewrite ver_string_res_ok. reflexivity. Qed.

Lemma isort_bytes_perm v v' : Permutation v v' -> isort bytes_leb v = isort bytes_leb v'.
Proof. apply isort_perm_eq; [exact bytes_torder|]. intros a b _ _. apply bytes_leb_antisym. Qed.

Lemma isort_chunk_perm v v' : Permutation v v' -> isort chunk_leb v = isort chunk_leb v'.
Proof. apply isort_perm_eq; [exact chunk_torder|]. intros a b _ _. apply chunk_antisym. Qed.

Lemma xep_id_antisym ids :
  NoDup (map id_key ids) -> forall a b, In a ids -> In b ids ->
  xep_id_le a b -> xep_id_le b a -> a = b.
Proof. intros ND a b Ha Hb H1 H2. apply (NoDup_map_inj_in id_key ids); auto using xep_id_both. Qed.

Lemma isort_id_perm ids ids' :
  NoDup (map id_key ids) -> Permutation ids ids' -> isort id_leb ids = isort id_leb ids'.
Proof.
  intro ND. apply isort_perm_eq; [exact id_torder|].
  intros a b Ha Hb H1 H2. apply (xep_id_antisym ids ND); auto using id_leb_le.
Qed.

Lemma ft_values_eq_xep fm : ft_values fm = form_type_values fm.
Proof. unfold ft_values, form_type_values. rewrite (filter_ext _ _ is_ft_eq_xep). reflexivity. Qed.

Lemma not_ft_eq_xep fm :
  filter not_ft fm = filter (fun f => negb (is_form_type_field f)) fm.
Proof. apply filter_ext. intro f. unfold not_ft. rewrite is_ft_eq_xep. reflexivity. Qed.

(* the smallest element of a non-empty list, as the loop computes it *)
Definition lmin (l : list bytes) : bytes :=
  match l with [] => [] | v :: r => min_from v r end.

(* what lmin_perm turns on: a least element, unique since the order is antisymmetric *)
Definition least (x : bytes) (l : list bytes) : Prop :=
  In x l /\ forall y, In y l -> bytes_leb x y = true.

Lemma least_perm x y l l' : Permutation l l' -> least x l -> least y l' -> x = y.
Proof.
  intros P [Ix Lx] [Iy Ly]. apply bytes_leb_antisym.
  - apply Lx. exact (Permutation_in _ (Permutation_sym P) Iy).
  - apply Ly. exact (Permutation_in _ P Ix).
Qed.

Lemma min_from_least m l : least (min_from m l) (m :: l).
Proof.
  revert m; induction l as [|v r IH]; intro m; cbn [min_from].
  - split; [left; reflexivity|]. intros y [<-|[]]. apply bytes_leb_refl.
  - set (m' := if bytes_ltb v m then v else m). destruct (IH m') as [I L].
    split; [destruct I as [<-|I]; [unfold m'; destruct (bytes_ltb v m)|]; auto with datatypes|].
    (* the new accumulator is below both m and v *)
    assert (S : bytes_leb m' m = true /\ bytes_leb m' v = true).
    { unfold m', bytes_ltb. destruct (bytes_leb m v) eqn:E; cbn [negb]; [auto using bytes_leb_refl|].
      destruct (bytes_leb_total v m); [auto using bytes_leb_refl|congruence]. }
    intros y [<-|[<-|Y]]; [| |apply L; right; exact Y];
      (eapply bytes_leb_trans; [apply L; left; reflexivity|apply S]).
Qed.

Lemma lmin_perm l l' : Permutation l l' -> lmin l = lmin l'.
Proof.
  intro P. destruct l as [|a l], l' as [|b l']; [reflexivity| | |].
  - apply Permutation_nil in P. discriminate.
  - apply Permutation_sym, Permutation_nil in P. discriminate.
  - exact (least_perm _ _ _ _ P (min_from_least a l) (min_from_least b l')).
Qed.

Lemma form_type_lmin fm : form_type fm = lmin (form_type_values fm).
Proof. rewrite <- ft_values_eq_xep. reflexivity. Qed.

Lemma form_type_one fm : one_form_type fm -> form_type fm = the_form_type fm.
Proof.
  intro S. unfold the_form_type, one_form_type in *. rewrite form_type_lmin.
  destruct (form_type_values fm) as [|a l]; [reflexivity|]. cbn [lmin hd].
  apply S; [apply min_from_least|left; reflexivity].
Qed.

Lemma field_chunk_equiv f g : field_equiv f g -> field_chunk f = field_chunk g.
Proof.
  intros [E P]. unfold field_chunk. rewrite E, (isort_bytes_perm _ _ P). reflexivity.
Qed.

Lemma is_ft_equiv f g : field_equiv f g -> is_ft f = is_ft g.
Proof. intros [E _]. unfold is_ft. rewrite E. reflexivity. Qed.

Lemma not_ft_equiv f g : field_equiv f g -> not_ft f = not_ft g.
Proof. intro E. unfold not_ft. rewrite (is_ft_equiv f g E). reflexivity. Qed.

Lemma form_chunk_equiv fm fm' : form_equiv fm fm' -> form_chunk fm = form_chunk fm'.
Proof.
  intros [fs [P F]].
  assert (ET : form_type fm = form_type fm').
  { apply (lmin_perm (ft_values fm) (ft_values fm')).
    eapply Permutation_trans; [apply Permutation_flat_map, Permutation_filter, P|].
    apply (Forall2_flat_map_perm field_equiv); [|intros f g E; apply E].
    exact (Forall2_filter _ _ _ _ _ F is_ft_equiv). }
  assert (EF : fields_string fm = fields_string fm').
  { unfold fields_string.
    rewrite (isort_chunk_perm _ _ (Permutation_map field_chunk (Permutation_filter not_ft _ _ P))).
    do 3 f_equal. apply (Forall2_map_eq field_equiv); [|intros f g _; apply field_chunk_equiv].
    exact (Forall2_filter _ _ _ _ _ F not_ft_equiv). }
  unfold form_chunk. rewrite ET, EF. reflexivity.
Qed.

Lemma forms_string_equiv fms fms' : forms_equiv fms fms' -> forms_string fms = forms_string fms'.
Proof.
  intros [l [P F]]. unfold forms_string.
  rewrite (isort_chunk_perm _ _ (Permutation_map form_chunk P)).
  do 3 f_equal. apply (Forall2_map_eq form_equiv); [exact F|]. intros a b _. apply form_chunk_equiv.
Qed.

Lemma ver_string_congr i i' :
  ids_string (i_ids i) = ids_string (i_ids i') -> Permutation (i_feats i) (i_feats i') ->
  forms_equiv (i_forms i) (i_forms i') -> ver_string i = ver_string i'.
Proof.
  intros Ei Pf Px. unfold ver_string, feats_string.
  rewrite Ei, (isort_bytes_perm _ _ Pf), (forms_string_equiv _ _ Px). reflexivity.
Qed.

Lemma field_text f :
  snd (field_chunk f) = f_var f ++ lt_char ++ xep_each (isort bytes_leb (f_vals f)).
Proof. unfold field_chunk. cbn [snd]. rewrite tbl_sep, join_sep_eq_xep. reflexivity. Qed.

Lemma field_text_xep f : xep_field f (snd (field_chunk f)).
Proof.
  exists (isort bytes_leb (f_vals f)). split; [apply Permutation_sym, isort_perm|].
  split; [|apply field_text].
  apply isort_sorted_by; [exact bytes_leb_total|auto].
Qed.

Lemma sorted_bytes_unique l vs :
  Permutation l vs -> Sorted bytes_le vs -> vs = isort bytes_leb l.
Proof.
  apply isort_unique; [exact bytes_leb_total|auto|exact bytes_leb_trans|].
  intros a b _ _. apply bytes_leb_antisym.
Qed.

Lemma field_text_unique f s : xep_field f s -> s = snd (field_chunk f).
Proof.
  intros [vs [P [S ->]]]. rewrite field_text, (sorted_bytes_unique _ _ P S). reflexivity.
Qed.

Lemma form_type_xep fm : xep_form_type fm (form_type fm).
Proof.
  unfold xep_form_type. rewrite form_type_lmin.
  destruct (form_type_values fm) as [|a l]; [right; auto|left; apply min_from_least].
Qed.

Lemma form_type_unique fm ft : one_form_type fm -> xep_form_type fm ft -> ft = the_form_type fm.
Proof.
  intros S [I|[E ->]]; unfold the_form_type.
  - destruct (form_type_values fm) as [|a l] eqn:V; [contradiction|]. cbn [hd].
    apply S; rewrite V; [exact I|left; reflexivity].
  - rewrite E. reflexivity.
Qed.

(* [key] is what the XEP sorts the elements by, [c x] the (key, text) chunk
   that the code sorts *)
Lemma sorted_chunks_unique {B} (c : B -> chunk) (key : B -> bytes) l vs :
  (forall x, In x l -> fst (c x) = key x) -> NoDup (map key l) ->
  Permutation l vs -> Sorted (fun a b => bytes_le (fst a) (fst b)) (map c vs) ->
  map c vs = isort chunk_leb (map c l).
Proof.
  intros K ND P. apply isort_unique.
  - exact (to_total _ chunk_torder).
  - exact chunk_leb_key.
  - intros x y z. apply bytes_leb_trans.
  - intros a b Ha Hb H1 H2. apply in_map_iff in Ha, Hb.
    destruct Ha as [x [<- Hx]], Hb as [y [<- Hy]]. f_equal.
    apply (NoDup_map_inj_in key l); try assumption.
    rewrite <- !K by assumption. apply bytes_leb_antisym; assumption.
  - apply Permutation_map. exact P.
Qed.

Lemma isort_chunks_inv {B} (c : B -> chunk) l :
  exists vs, isort chunk_leb (map c l) = map c vs /\ Permutation l vs /\
             Sorted (fun a b => bytes_le (fst a) (fst b)) (map c vs).
Proof.
  destruct (Permutation_map_inv _ _ (isort_perm chunk_leb (map c l))) as [vs [E P]].
  exists vs. split; [exact E|]. split; [exact P|]. rewrite <- E.
  apply isort_sorted_by; [exact (to_total _ chunk_torder)|exact chunk_leb_key].
Qed.

Lemma form_chunk_xep fm : xep_form fm (fst (form_chunk fm)) (snd (form_chunk fm)).
Proof.
  unfold form_chunk. cbn [fst snd]. split; [apply form_type_xep|]. unfold fields_string.
  destruct (isort_chunks_inv field_chunk (filter not_ft fm)) as [fs [E [P S]]].
  exists fs, (map (fun f => snd (field_chunk f)) fs). rewrite <- not_ft_eq_xep.
  split; [exact P|]. split; [|split].
  - apply (Sorted_map field_chunk (fun a b => bytes_le (fst a) (fst b))). exact S.
  - apply Forall2_map_intro, field_text_xep.
  - rewrite E, map_map, tbl_sep. reflexivity.
Qed.

Lemma form_chunk_unique fm ft s :
  one_form_type fm -> distinct_vars fm -> xep_form fm ft s -> (ft, s) = form_chunk fm.
Proof.
  intros O D [T [fs [texts [P [S [F ->]]]]]].
  unfold distinct_vars in D. rewrite <- not_ft_eq_xep in P, D.
  rewrite (form_type_unique _ _ O T), <- (form_type_one _ O).
  rewrite (Forall2_eq_map _ _ _ _ F (fun f t _ => field_text_unique f t)), <- map_map.
  unfold form_chunk, fields_string.
  rewrite <- (sorted_chunks_unique field_chunk f_var _ fs), tbl_sep; auto.
  apply (Sorted_map field_chunk (fun a b => bytes_le (fst a) (fst b))). exact S.
Qed.

Lemma xep51_unique i s : well_formed i -> xep51 i s -> s = ver_string i.
Proof.
  intros [Di [O [Dv Dt]]] [ids [feats [fms [rendered [Pi [Si [Pf [Sf [Px [F [Sr ->]]]]]]]]]]].
  unfold one_form_type_each in O. rewrite Forall_forall in O, Dv.
  assert (Eids : ids = isort id_leb (i_ids i)).
  { apply (isort_unique id_leb xep_id_le); try assumption.
    - exact (to_total _ id_torder).
    - exact id_leb_le.
    - exact (to_trans _ xep_id_torder).
    - apply xep_id_antisym, Di. }
  assert (Efeats : feats = isort bytes_leb (i_feats i)) by (apply sorted_bytes_unique; assumption).
  assert (Er : rendered = map form_chunk fms).
  { apply (Forall2_eq_map _ _ _ _ F). intros fm [ft t] I X.
    apply (Permutation_in _ (Permutation_sym Px)) in I.
    apply form_chunk_unique; auto. }
  subst rendered.
  assert (Eforms : map form_chunk fms = isort chunk_leb (map form_chunk (i_forms i))).
  { apply (sorted_chunks_unique form_chunk the_form_type); try assumption.
    intros fm I. apply form_type_one, O, I. }
  unfold ver_string, ids_string, feats_string, forms_string.
  rewrite <- Eids, <- Efeats, <- Eforms, <- join_sep_eq_xep, <- (map_ext _ _ render_id_eq_xep).
  reflexivity.
Qed.
