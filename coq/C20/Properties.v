(* C20/Properties.v — the property theorems of C20 and nothing else.
   "The entity-capabilities hash is canonical."

   ver_string i        the string S that Info.AppendHash writes into the hash
   append_hash H d i   AppendHash(d, h) for a fresh hash.Hash computing H
   hash_string H i     Hash(h)
   xep51 i s           s is a construction of XEP-0115 section 5.1 for i (Spec.v)
   info_equiv i i'     i' is i with identities, features, forms, the fields of
                       every form and the values of every field permuted
   The hash function H is universally quantified in every statement: nothing
   is assumed about it.

   The destination of AppendHash is a Go slice: a window (offset, length,
   capacity) on a backing array that other slices may share (TailModel.v).
   heap / slice / valid h d   arrays; a window; the window lies inside an array of h
   read h d                   the visible contents d[:len(d)]
   append_hash_heap slack H h d i   AppendHash(d, h) as a transition of the heap:
                              the tail of the function is read from the source
                              (caps_tail) and interpreted; slack is the growth
                              policy of append (universally quantified)
   hash_heap slack H h i      Hash(h) (the destination it passes is read from the source)
   frame h h' d               h' is h with arrays added and no cell changed outside
                              the spare capacity d[len(d):cap(d)] of d
   overlaps_spare s d         s has a visible cell in d[len(d):cap(d)]
   run_calls, call_ok         a history of calls on buffers and earlier results; a
                              call returned base64(contents of its destination ++ digest) *)
From Coq Require Import Sorting.Permutation.
From XV Require Import lib.Bytes gen.DiscoCaps C20.ListFacts C20.Model C20.Spec C20.Proofs C20.TailModel C20.TailProofs.

(* Order independence: for identities with distinct category/type/language the
   verification string does not change under any permutation of identities,
   features, forms, fields of a form (FORM_TYPE included, wherever it stands and
   however many values it has) and values of a field. *)
Theorem C20_permutation_invariant : forall i i',
  info_equiv i i' -> distinct_identities i -> ver_string i = ver_string i'.
Proof.
  intros i i' [Pi [Pf Px]] D. apply ver_string_congr; [|exact Pf|exact Px].
  unfold ids_string. rewrite (isort_id_perm _ _ D Pi). reflexivity.
Qed.
Print Assumptions C20_permutation_invariant.

(* ... hence neither does the result of AppendHash / Hash, for every hash
   function and every destination. *)
Theorem C20_permutation_invariant_hash : forall (H : bytes -> bytes) dst i i',
  info_equiv i i' -> distinct_identities i -> append_hash H dst i = append_hash H dst i'.
Proof.
  intros H dst i i' E D. rewrite !append_hash_ok, (C20_permutation_invariant i i' E D). reflexivity.
Qed.
Print Assumptions C20_permutation_invariant_hash.

(* With the identities left in place no condition is needed at all: features,
   forms (with and without FORM_TYPE, equal FORM_TYPEs, empty forms), fields
   (equal vars included) and values may be permuted freely. *)
Theorem C20_permutation_invariant_same_identities : forall i i',
  i_ids i = i_ids i' -> Permutation (i_feats i) (i_feats i') -> forms_equiv (i_forms i) (i_forms i') ->
  ver_string i = ver_string i'.
Proof. intros i i' E. apply ver_string_congr. rewrite E. reflexivity. Qed.
Print Assumptions C20_permutation_invariant_same_identities.

(* The distinctness of the identity keys cannot be dropped: XEP-0115 sorts
   identities by category, type and lang only, and so does the code. *)
Definition C20_unrestricted_invariance_statement : Prop :=
  forall i i', info_equiv i i' -> ver_string i = ver_string i'.
Theorem C20_unrestricted_invariance_refuted : ~ C20_unrestricted_invariance_statement.
Proof.
  (* two identities with the same category/type/lang and different names *)
  pose (a := mkid (str "client") (str "pc") (str "en") (str "A")).
  pose (b := mkid (str "client") (str "pc") (str "en") (str "B")).
  intro Hall. assert (E : ver_string (mkinfo [a; b] [] []) = ver_string (mkinfo [b; a] [] [])).
  { apply Hall. split; [apply perm_swap|]. split; [apply Permutation_refl|].
    exists []. split; [apply Permutation_refl|constructor]. }
  vm_compute in E. discriminate E.
Qed.
Print Assumptions C20_unrestricted_invariance_refuted.

(* Agreement with the specification, for every input: the string written is a
   construction of XEP-0115 section 5.1. *)
Theorem C20_matches_xep : forall i, xep51 i (ver_string i).
Proof.
  intro i. destruct (isort_chunks_inv form_chunk (i_forms i)) as [fms [E [P S]]].
  exists (isort id_leb (i_ids i)), (isort bytes_leb (i_feats i)), fms, (map form_chunk fms).
  split; [apply Permutation_sym, isort_perm|]. split.
  { apply isort_sorted_by; [exact (to_total _ id_torder)|exact id_leb_le]. }
  split; [apply Permutation_sym, isort_perm|]. split.
  { apply isort_sorted_by; [exact bytes_leb_total|auto]. }
  split; [exact P|]. split; [apply Forall2_map_intro, form_chunk_xep|]. split; [exact S|].
  unfold ver_string, ids_string, feats_string, forms_string.
  rewrite E, join_sep_eq_xep, (map_ext _ _ render_id_eq_xep). reflexivity.
Qed.
Print Assumptions C20_matches_xep.

(* ... and for information whose sort keys are distinct (identity keys, the
   vars of a form, the FORM_TYPEs of the forms) and whose forms carry at most
   one FORM_TYPE value, section 5.1 determines exactly one string: the one
   written. *)
Theorem C20_xep_determines_string : forall i s, well_formed i -> xep51 i s -> s = ver_string i.
Proof. exact xep51_unique. Qed.
Print Assumptions C20_xep_determines_string.

(* AppendHash with an empty destination returns the base64 of the hash of the
   verification string. (The first conjunct is how Model.v defines hash_string;
   that Hash in the source passes nil is C20_hash_appendhash_agree_every_capacity.) *)
Theorem C20_hash_appendhash_agree : forall (H : bytes -> bytes) i,
  hash_string H i = append_hash H [] i /\
  append_hash H [] i = Ok (b64enc (H (ver_string i))).
Proof. intros H i. split; [reflexivity|exact (append_hash_ok H [] i)]. Qed.
Print Assumptions C20_hash_appendhash_agree.

(* No panic: for every info value (empty forms, forms without FORM_TYPE,
   anything a peer's reply decodes to), every hash function and destination,
   AppendHash returns. The only partial operations the model has are the
   make() capacities, read from the source. *)
Theorem C20_no_panic : forall (H : bytes -> bytes) dst i,
  ver_string_res i = Ok (ver_string i) /\
  append_hash H dst i = Ok (b64enc (dst ++ H (ver_string i))).
Proof. intros H dst i. split; [apply ver_string_res_ok|apply append_hash_ok]. Qed.
Print Assumptions C20_no_panic.

(* The constants of the source are those of the XEP: '<' after every part,
   "FORM_TYPE", category/type/lang/name, sort keys category, type, lang; and no
   make() capacity can be negative. *)
Theorem C20_tables_are_xep0115 :
  sep = lt_char /\ caps_form_type_var = form_type_name /\
  (forall i, render_id i = xep_identity i) /\
  (forall a b, id_leb a b = xep_id_leb a b) /\
  (forall i, panics i = false).
Proof.
  split; [exact tbl_sep|]. split; [exact tbl_form_type_var|]. split; [exact render_id_eq_xep|].
  split; [exact id_leb_eq_xep|exact panics_false].
Qed.
Print Assumptions C20_tables_are_xep0115.

(* What AppendHash returns depends on the CONTENTS of the destination only: for
   every heap, every window d on it (any offset, length, capacity, anything in
   the spare capacity, any other slice sharing the array) and every growth
   policy of append, the call returns and the returned slice reads as
   append_hash says for the contents of d. *)
Theorem C20_result_independent_of_capacity : forall slack (H : bytes -> bytes) h d i,
  valid h d ->
  exists h' out, append_hash_heap slack H h d i = TOk h' out /\
    append_hash H (read h d) i = Ok (read h' out).
Proof.
  intros slack H h d i V. destruct (append_hash_heap_spec slack H h d i V) as [h' [out [E [R _]]]].
  exists h', out. split; [exact E|]. rewrite append_hash_ok, R. reflexivity.
Qed.
Print Assumptions C20_result_independent_of_capacity.

(* Hash and AppendHash with an empty destination give the same string — for an
   empty destination of every capacity (nil, make([]byte, 0, n), buf[:0] of a
   buffer used before), whatever its spare capacity holds. *)
Theorem C20_hash_appendhash_agree_every_capacity : forall slack (H : bytes -> bytes) h d i,
  valid h d -> s_len d = 0 ->
  exists h' out, append_hash_heap slack H h d i = TOk h' out /\
    hash_heap slack H h i = HOk (read h' out) /\
    hash_string H i = Ok (read h' out) /\
    read h' out = b64enc (H (ver_string i)).
Proof.
  intros slack H h d i V Z. destruct (append_hash_heap_spec slack H h d i V) as [h' [out [E [R _]]]].
  rewrite (read_empty h d Z) in R. cbn [app] in R.
  exists h', out. split; [exact E|]. split; [rewrite hash_heap_spec, R; reflexivity|].
  split; [|exact R]. unfold hash_string. rewrite append_hash_ok, R. reflexivity.
Qed.
Print Assumptions C20_hash_appendhash_agree_every_capacity.

(* The call writes nowhere but into the spare capacity of its destination and
   into arrays of its own; the returned slice lies in a new array (it shares no
   cell with anything the caller held) and is exactly as long as its capacity. *)
Theorem C20_call_changes_only_spare_capacity : forall slack (H : bytes -> bytes) h d i,
  valid h d ->
  exists h' out, append_hash_heap slack H h d i = TOk h' out /\
    read h' out = b64enc (read h d ++ H (ver_string i)) /\
    valid h' out /\ frame h h' d /\ length h <= s_arr out /\ s_cap out = s_len out.
Proof. exact append_hash_heap_spec. Qed.
Print Assumptions C20_call_changes_only_spare_capacity.

(* Results are independent of later operations: a slice the caller holds (an
   earlier result, say) reads the same after any later call, unless the caller
   itself passed its cells as spare capacity of that call's destination. *)
Theorem C20_results_survive_later_calls : forall slack (H : bytes -> bytes) h d i s h' out,
  valid h d -> valid h s -> ~ overlaps_spare s d ->
  append_hash_heap slack H h d i = TOk h' out -> read h' s = read h s.
Proof.
  intros slack H h d i s h' out Vd Vs NO E.
  destruct (append_hash_heap_spec slack H h d i Vd) as [h2 [out2 [E2 [_ [_ [F _]]]]]].
  rewrite E in E2. injection E2 as <- <-. exact (frame_read h h' d s F Vs NO).
Qed.
Print Assumptions C20_results_survive_later_calls.

(* Histories: whatever sequence of calls is made, each with a destination cut
   from any slice held at that time (the caller's buffers, earlier results,
   reused or not), every call returns base64(contents of its destination ++
   digest); with an empty destination that is what Hash returns. (run_calls
   ends a history at the first destination the caller itself cuts out of range:
   rs covers the calls made up to there.) *)
Theorem C20_history_independent : forall slack (H : bytes -> bytes) cs h known,
  Forall (valid h) known ->
  let '(rs, hf, kf) := run_calls slack H h known cs in
  Forall (call_ok H) rs /\ Forall (valid hf) kf.
Proof. exact run_calls_spec. Qed.
Print Assumptions C20_history_independent.

Theorem C20_history_empty_destination_is_hash : forall slack (H : bytes -> bytes) cs h known,
  Forall (valid h) known ->
  Forall (fun r => match r with
                   | CallOk dc i out => dc = [] -> hash_string H i = Ok out
                   | _ => False end)
         (fst (fst (run_calls slack H h known cs))).
Proof.
  intros slack H cs h known F. pose proof (run_calls_spec slack H cs h known F) as S.
  destruct (run_calls slack H h known cs) as [[rs hf] kf]. destruct S as [S _]. cbn [fst].
  eapply Forall_impl; [|exact S]. intros [dc i out| |]; cbn [call_ok]; try tauto.
  intros -> ->. apply append_hash_ok.
Qed.
Print Assumptions C20_history_empty_destination_is_hash.

(* The source text these statements are about: the tail of AppendHash sums into
   the destination, encodes into a buffer obtained from make alone, and returns
   that buffer; Hash passes nil. *)
Theorem C20_tail_is_as_modelled : caps_tail = tail_as_modelled /\ caps_hash_dst = TNil.
Proof. exact (conj tbl_tail tbl_hash_dst). Qed.
Print Assumptions C20_tail_is_as_modelled.
