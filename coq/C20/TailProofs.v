(* C20/TailProofs.v — the tail of Info.AppendHash over a heap of backing arrays:
   the result does not depend on the capacity of the destination, on what its
   spare capacity holds, on the growth policy of append, or on earlier calls. *)
From XV Require Import lib.Bytes gen.DiscoCaps C20.Model C20.Proofs C20.TailModel.
From XV Require lib.Heap.

Lemma zeros_length n : length (zeros n) = n.
Proof. apply repeat_length. Qed.

(* a slice is a window on an array of the heap (a window without capacity needs no array) *)
Definition valid (h : heap) (s : slice) : Prop :=
  s_len s <= s_cap s /\
  (s_cap s = 0 \/ (s_arr s < length h /\ s_off s + s_cap s <= length (arr h (s_arr s)))).

Definition in_spare (d : slice) (a p : nat) : Prop :=
  a = s_arr d /\ s_off d + s_len d <= p < s_off d + s_cap d.

(* h' is h with new arrays added and nothing changed outside the spare capacity of d *)
Definition frame (h h' : heap) (d : slice) : Prop :=
  length h <= length h' /\
  (forall a, a < length h -> length (arr h' a) = length (arr h a)) /\
  (forall a p, a < length h -> ~ in_spare d a p -> nth_error (arr h' a) p = nth_error (arr h a) p).

Definition overlaps_spare (s d : slice) : Prop :=
  s_arr s = s_arr d /\
  exists p, s_off s <= p < s_off s + s_len s /\ s_off d + s_len d <= p < s_off d + s_cap d.

Lemma valid_nil h : valid h nil_slice.
Proof. split; cbn; [lia|left; reflexivity]. Qed.

Lemma read_empty h d : s_len d = 0 -> read h d = [].
Proof. intro Z. unfold read. rewrite Z. reflexivity. Qed.

Lemma read_length h s : valid h s -> length (read h s) = s_len s.
Proof. exact (Heap.read_length h _ _ _ _). Qed.

Lemma valid_frame h h' d s : valid h s -> frame h h' d -> valid h' s.
Proof. apply Heap.valid_frame. Qed.

Lemma valid_reslice h s lo hi s' : valid h s -> go_reslice s lo hi = Some s' -> valid h s'.
Proof.
  intros V E. unfold go_reslice in E.
  destruct (Nat.leb_spec lo hi), (Nat.leb_spec hi (s_cap s)); try discriminate. injection E as <-.
  eapply Heap.valid_sub; eassumption.
Qed.

Lemma frame_refl h d : frame h h d.
Proof. apply Heap.frame_refl. Qed.

Lemma frame_new h h' d :
  length h <= length h' -> (forall a, a < length h -> arr h' a = arr h a) -> frame h h' d.
Proof. apply Heap.frame_new. Qed.

Lemma frame_app h x d : frame h (h ++ [x]) d.
Proof. apply Heap.frame_app. Qed.

Lemma frame_trans h h1 h2 d : frame h h1 d -> frame h1 h2 d -> frame h h2 d.
Proof. apply Heap.frame_trans. Qed.

Lemma frame_write h d p bs :
  s_arr d < length h -> s_off d + s_cap d <= length (arr h (s_arr d)) ->
  s_off d + s_len d <= p -> p + length bs <= s_off d + s_cap d ->
  frame h (write h (s_arr d) p bs) d.
Proof. apply Heap.frame_write. Qed.

Lemma frame_read h h' d s :
  frame h h' d -> valid h s -> ~ overlaps_spare s d -> read h' s = read h s.
Proof. apply Heap.frame_read. Qed.

Lemma read_app h x s : valid h s -> read (h ++ [x]) s = read h s.
Proof.
  intro V. apply (frame_read _ _ nil_slice _ (frame_app _ _ _) V).
  intros [_ [p [_ S]]]. cbn in S. lia.
Qed.

Lemma read_new h x n c : read (h ++ [x]) (mkslice (length h) 0 n c) = firstn n x.
Proof. apply Heap.read_new. Qed.

Lemma valid_new h x n c : n <= c <= length x -> valid (h ++ [x]) (mkslice (length h) 0 n c).
Proof. apply Heap.valid_new. Qed.

Lemma read_dst_frame h h' d : valid h d -> frame h h' d -> read h' d = read h d.
Proof. intros V F. apply (frame_read h h' d d F V). intros [_ [p S]]. lia. Qed.

Lemma go_append_spec slack h d bs : valid h d ->
  let r := go_append slack h d bs in
  read (fst r) (snd r) = read h d ++ bs /\ valid (fst r) (snd r) /\ frame h (fst r) d.
Proof.
  intro V. unfold go_append.
  destruct (Nat.leb_spec (s_len d + length bs) (s_cap d)) as [C|C]; cbn [fst snd].
  - exact (Heap.append_in_place h _ _ _ _ bs V C).
  - pose proof (Heap.append_fresh h _ _ _ _ bs (zeros (slack (s_len d + length bs))) (s_arr d)
                  (s_off d + s_len d) (s_off d + s_cap d) V) as S.
    rewrite zeros_length in S. exact S.
Qed.

Lemma b64enc_split l : b64enc l = b64enc (firstn 3 l) ++ b64enc (skipn 3 l).
Proof. destruct l as [|a [|b [|c r]]]; try (symmetry; apply app_nil_r). reflexivity. Qed.

Lemma b64enc_group g : 1 <= length g <= 3 -> length (b64enc g) = 4.
Proof. destruct g as [|a [|b [|c [|x r]]]]; cbn [length]; intro; try lia; reflexivity. Qed.

Lemma b64enc_length s : length (b64enc s) = enclen (length s).
Proof.
  induction s as [s IH] using (induction_ltof1 _ (@length _)). unfold ltof in IH.
  destruct s as [|a [|b [|c r]]]; try reflexivity.
  rewrite b64enc_split, app_length, b64enc_group, IH by (cbn; lia).
  cbn [skipn length]. unfold enclen.
  replace (S (S (S (length r))) + 2) with (length r + 2 + 1 * 3) by lia.
  rewrite Nat.div_add by lia. lia.
Qed.

(* k is the number of groups of sn bytes (none to spare); the output array da
   is not the source array sa, so no group reads what an earlier one wrote:
   together the groups are one write of the encoded source *)
Lemma enc_groups_spec k : forall h sa sp sn da dp,
  da <> sa -> da < length h -> sn <= 3 * k < sn + 3 ->
  length (sub (arr h sa) sp sn) = sn ->
  dp + length (b64enc (sub (arr h sa) sp sn)) <= length (arr h da) ->
  enc_groups k h sa sp sn da dp = write h da dp (b64enc (sub (arr h sa) sp sn)).
Proof.
  induction k as [|k IH]; intros h sa sp sn da dp N Lda Lk Ls Ld; cbn [enc_groups].
  - replace sn with 0 by lia. symmetry. apply Heap.write_nil.
  - set (A := arr h sa) in *. set (src := sub A sp sn) in *.
    set (g := sub A sp (Nat.min 3 sn)). set (h1 := write h da dp (b64enc g)).
    assert (Es : b64enc src = b64enc g ++ b64enc (sub A (sp + 3) (sn - 3))).
    { unfold g. rewrite <- Heap.firstn_sub, <- Heap.skipn_sub. apply b64enc_split. }
    (* a rewrite with a lemma of lib/Heap leaves Heap.sub and Heap.arr in the goal: they are
       sub and arr by conversion, and [change] puts the local name back where lia has to
       recognise the term *)
    assert (Lg : length (b64enc g) = 4).
    { apply b64enc_group. unfold g. rewrite <- Heap.firstn_sub, firstn_length. change (Heap.sub A sp sn) with src. lia. }
    rewrite Es, app_length, Lg in Ld.
    assert (A1 : arr h1 sa = A) by (apply Heap.arr_write_other; lia).
    rewrite IH; try lia.
    + rewrite A1, Es, <- Lg. apply Heap.write_write_adj; [exact Lda|change (Heap.arr h da) with (arr h da); lia].
    + unfold h1. rewrite Heap.length_write. exact Lda.
    + rewrite A1, <- Heap.skipn_sub, skipn_length. change (Heap.sub A sp sn) with src. lia.
    + assert (A2 : arr h1 da = put (arr h da) dp (b64enc g)) by (apply Heap.arr_write_same; exact Lda).
      rewrite A1, A2, Heap.put_length by lia. lia.
Qed.

Lemma heap_encode_spec h dst src :
  valid h src -> (s_len src = 0 \/ s_arr dst <> s_arr src) -> s_arr dst < length h ->
  s_len dst = enclen (s_len src) -> s_off dst + s_len dst <= length (arr h (s_arr dst)) ->
  heap_encode h dst src = Some (write h (s_arr dst) (s_off dst) (b64enc (read h src))).
Proof.
  intros V N A Ld B. pose proof (read_length h src V) as RL.
  unfold heap_encode. rewrite Ld, Nat.ltb_irrefl. f_equal.
  destruct N as [Z|N].
  - rewrite (read_empty _ _ Z), Z. symmetry. apply Heap.write_nil.
  - apply enc_groups_spec; try assumption.
    + pose proof (Nat.mul_div_le (s_len src + 2) 3). pose proof (Nat.mul_succ_div_gt (s_len src + 2) 3). lia.
    + fold (read h src). rewrite b64enc_length, RL, <- Ld. exact B.
Qed.

(* out := make([]byte, EncodedLen(len(s))); Encode(out, s): the buffer from make
   is a new array, so Encode does not read what it writes, and the heap gains
   one array holding the base64 text *)
Lemma make_encode h s : valid h s ->
  let n := enclen (s_len s) in
  heap_encode (h ++ [zeros n]) (mkslice (length h) 0 n n) s = Some (h ++ [b64enc (read h s)]).
Proof.
  intros V n.
  assert (Ln : length (b64enc (read h s)) = n) by (rewrite b64enc_length, read_length by exact V; reflexivity).
  rewrite heap_encode_spec; cbn [s_arr s_off s_len].
  - rewrite (read_app _ _ _ V), Heap.write_last by (rewrite zeros_length; exact Ln). reflexivity.
  - eapply valid_frame; [exact V|apply (frame_app _ _ s)].
  - destruct V as [L [Z|[A _]]]; [left; lia|right; lia].
  - rewrite app_length. cbn [length]. lia.
  - reflexivity.
  - rewrite Heap.arr_app_new, zeros_length. lia.
Qed.

(* dst = h.Sum(dst); out := make([]byte, EncodedLen(len(dst))); Encode(out, dst); return out *)
Definition tail_as_modelled : list t_stmt :=
  [TAssign 0 (TSum (TVar 0));
   TAssign 1 (TMake (TEncLen (TLen 0)) None);
   TEncode (TVar 1) (TVar 0);
   TReturn (TVar 1)]%N.

Lemma tbl_tail : caps_tail = tail_as_modelled.
Proof. vm_compute. reflexivity. Qed.

Lemma tbl_hash_dst : caps_hash_dst = TNil.
Proof. vm_compute. reflexivity. Qed.

(* the slice that is the whole of a new array x *)
Definition fresh (h : heap) (x : bytes) : slice := mkslice (length h) 0 (length x) (length x).

Lemma run_tail_eq slack dg h d : valid h d ->
  run_tail slack dg tail_as_modelled h d =
    let h1 := fst (go_append slack h d dg) in
    let x := b64enc (read h d ++ dg) in
    TOk (h1 ++ [x]) (fresh h1 x).
Proof.
  intro V. destruct (go_append_spec slack h d dg V) as [R1 [V1 _]].
  (* symbolic run of the four statements; Pos.to_nat 1 is the index of variable
     1, which cbn leaves unevaluated *)
  unfold run_tail, tail_as_modelled.
  cbn -[go_append heap_encode enclen zeros Nat.leb].
  destruct (go_append slack h d dg) as [h1 s1]. cbn [fst snd] in *. rewrite <- R1.
  change (Pos.to_nat 1) with 1.
  cbn -[go_append heap_encode enclen zeros Nat.leb].
  unfold go_make. rewrite Nat.leb_refl.
  change (Pos.to_nat 1) with 1.
  cbn -[go_append heap_encode enclen zeros Nat.leb].
  rewrite (make_encode h1 s1 V1). unfold fresh.
  rewrite b64enc_length, (read_length _ _ V1). reflexivity.
Qed.

(* AppendHash's tail on any heap, any destination of that heap, any digest:
   a fresh slice holding base64(contents of the destination ++ digest); nothing
   but the spare capacity of the destination has changed. *)
Lemma tail_spec slack dg h d : valid h d ->
  exists h' out, run_tail slack dg caps_tail h d = TOk h' out /\
    read h' out = b64enc (read h d ++ dg) /\
    valid h' out /\ frame h h' d /\ length h <= s_arr out /\ s_cap out = s_len out.
Proof.
  intro V. rewrite tbl_tail, (run_tail_eq _ _ _ _ V). cbn zeta.
  destruct (go_append_spec slack h d dg V) as [_ [_ F1]]. unfold fresh.
  eexists. eexists. split; [reflexivity|].
  split; [rewrite read_new; apply firstn_all|]. split; [apply valid_new; lia|].
  split; [exact (frame_trans _ _ _ _ F1 (frame_app _ _ d))|]. split; [exact (proj1 F1)|reflexivity].
Qed.

Lemma append_hash_heap_spec slack (H : bytes -> bytes) h d i : valid h d ->
  exists h' out, append_hash_heap slack H h d i = TOk h' out /\
    read h' out = b64enc (read h d ++ H (ver_string i)) /\
    valid h' out /\ frame h h' d /\ length h <= s_arr out /\ s_cap out = s_len out.
Proof.
  intro V. unfold append_hash_heap. rewrite ver_string_res_ok. apply tail_spec. exact V.
Qed.

Lemma hash_heap_spec slack (H : bytes -> bytes) h i :
  hash_heap slack H h i = HOk (b64enc (H (ver_string i))).
Proof.
  unfold hash_heap. rewrite tbl_hash_dst. cbn [eval_slice].
  destruct (append_hash_heap_spec slack H h nil_slice i (valid_nil h)) as [h' [out [E [R _]]]].
  rewrite E, R. reflexivity.
Qed.

Definition call_ok (H : bytes -> bytes) (r : callres) : Prop :=
  match r with
  | CallOk dc i out => out = b64enc (dc ++ H (ver_string i))
  | _ => False
  end.

Lemma valid_nth h known n : Forall (valid h) known -> valid h (nth n known nil_slice).
Proof.
  intro F. destruct (le_lt_dec (length known) n) as [G|G].
  - rewrite nth_overflow by exact G. apply valid_nil.
  - rewrite Forall_forall in F. apply F. apply nth_In. exact G.
Qed.

Lemma run_calls_spec slack (H : bytes -> bytes) cs : forall h known,
  Forall (valid h) known ->
  let '(rs, hf, kf) := run_calls slack H h known cs in
  Forall (call_ok H) rs /\ Forall (valid hf) kf.
Proof.
  induction cs as [|c r IH]; intros h known F; cbn [run_calls].
  - split; [constructor|exact F].
  - destruct (go_reslice (nth (k_src c) known nil_slice) (k_lo c) (k_hi c)) as [d|] eqn:Er.
    2:{ split; [constructor|exact F]. }
    assert (Vd : valid h d) by (eapply valid_reslice; [apply valid_nth; exact F|exact Er]).
    destruct (append_hash_heap_spec slack H h d (k_info c) Vd) as [h' [out [E [R [Vo [Fr _]]]]]].
    rewrite E.
    assert (F' : Forall (valid h') (known ++ [out])).
    { apply Forall_app. split; [|constructor; [exact Vo|constructor]].
      eapply Forall_impl; [|exact F]. intros s Vs. eapply valid_frame; eassumption. }
    specialize (IH h' (known ++ [out]) F').
    destruct (run_calls slack H h' (known ++ [out]) r) as [[l hf] kf]. destruct IH as [I1 I2].
    split; [|exact I2]. constructor; [|exact I1]. cbn [call_ok]. exact R.
Qed.
