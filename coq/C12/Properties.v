(* C12/Properties.v — the property theorems of C12.
   "Negotiation carries addresses and identifiers faithfully and checks them." *)
From XV Require Import lib.Bytes gen.StreamHdr C12.Model C12.Proofs.
Local Open Scope N_scope.

(* The source still says what the model of Send assumes: the literals the header
   is printed from, the attributes written through writeAttr (escaped), the name
   spaces, the XML declaration, the default version, the IQ type names. *)
Theorem C12_tables :
  (send_literals =
   [ str "open"; str "stream";
     str "<open xmlns=""urn:ietf:params:xml:ns:xmpp-framing"" version='%s'";
     str "<stream:stream xmlns='%s' xmlns:stream='http://etherx.jabber.org/streams' version='%s'";
     str "id"; str "to"; str "from"; str "xml:lang"; str "/>"; str ">" ] /\
   write_attr_literals = [ str " %s='" ] /\
   send_attr_calls = [ (str "id", str "id"); (str "to", str "to"); (str "from", str "from"); (str "xml:lang", str "lang") ] /\
   send_escaped_params = [ str "value" ] /\
   send_recorded_names = [ (str "wsNamespace", str "open"); (str "stream.NS", str "stream") ]) /\
  (ns_stream = str "http://etherx.jabber.org/streams" /\
   ns_stream_error = str "urn:ietf:params:xml:ns:xmpp-streams" /\
   ns_client = str "jabber:client" /\ ns_server = str "jabber:server" /\
   ns_ws = str "urn:ietf:params:xml:ns:xmpp-framing" /\
   ns_bind = str "urn:ietf:params:xml:ns:xmpp-bind" /\
   ns_xml = str "http://www.w3.org/XML/1998/namespace" /\
   xml_header = str "<?xml version=""1.0"" encoding=""UTF-8""?>" /\
   default_version = (1, 0) /\
   iq_set = str "set" /\ iq_result = str "result" /\ iq_error = str "error").
Proof. vm_compute. repeat split; reflexivity. Qed.
Print Assumptions C12_tables.

(* Well-formed for every clean id, language and pair of addresses (any bytes a
   valid JID may hold: quotes, ampersands, angle brackets, non-ASCII), any version,
   and a peer's parser reads back exactly the element and attribute values sent.
   TCP framing: the name space given must be printable as it is (Send prints it raw). *)
Theorem C12_header_wellformed_and_recovered_tcp :
  forall xmlns ver lang to from id rest,
    forallb plainb xmlns = true -> text_ok xmlns = true ->
    fst ver < 256 -> snd ver < 256 ->
    text_ok lang = true -> text_ok to = true -> text_ok from = true -> text_ok id = true ->
    read_start (send_header false xmlns ver lang to from id ++ rest) =
    Some (tcp_token xmlns ver lang to from id, false, rest).
Proof.
  intros xmlns ver lang to from id rest Px Tx Ha Hb. destruct (plain_version ver Ha Hb) as [Pv Tv].
  (* that Send prints this format is a conversion; the reader's state after it,
     the name check and the token come out by evaluation; left: the two values
     printed raw are printable *)
  eapply (read_header false (tcp_frame xmlns ver)); try reflexivity.
  repeat constructor; assumption.
Qed.
Print Assumptions C12_header_wellformed_and_recovered_tcp.

(* WebSocket framing: a self-closing <open/> in the framing name space. *)
Theorem C12_header_wellformed_and_recovered_ws :
  forall xmlns ver lang to from id rest,
    fst ver < 256 -> snd ver < 256 ->
    text_ok lang = true -> text_ok to = true -> text_ok from = true -> text_ok id = true ->
    read_start (send_header true xmlns ver lang to from id ++ rest) =
    Some (ws_token ver lang to from id, true, rest).
Proof.
  intros xmlns ver lang to from id rest Ha Hb. destruct (plain_version ver Ha Hb) as [Pv Tv].
  eapply (read_header true (ws_frame ver)); try reflexivity.
  repeat constructor; assumption.
Qed.
Print Assumptions C12_header_wellformed_and_recovered_ws.

(* The opening element Send records in the output stream info (from which Close
   picks the closing element) is the element the peer reads: the two tokens of
   the theorems above carry the name [send_name]. *)
Theorem C12_send_records_opening_element :
  (forall xmlns ver lang to from id, tok_name (tcp_token xmlns ver lang to from id) = send_name false) /\
  (forall ver lang to from id, tok_name (ws_token ver lang to from id) = send_name true).
Proof. split; reflexivity. Qed.
Print Assumptions C12_send_records_opening_element.

(* Version.String then ParseVersion is the identity on every version. *)
Theorem C12_version_roundtrip :
  forall v, fst v < 256 -> snd v < 256 -> parse_version (version_string v) = Some v.
Proof.
  intros [a b] Ha Hb. cbn [fst snd] in Ha, Hb.
  destruct (dec3_spec a Ha) as (Pa & Da & _). destruct (dec3_spec b Hb) as (Pb & Db & _).
  unfold parse_version, version_string. cbn [fst snd].
  change (str "." ++ dec3 b) with (dot :: dec3 b).
  rewrite (split_dot_two _ _ Da Db), Pa, Pb. reflexivity.
Qed.
Print Assumptions C12_version_roundtrip.

(* The peer being this library: Send, a parser, Expect. For all valid addresses,
   language and id, both roles: the header is accepted (an initiator needs an
   id) and Info holds the same addresses, id, version, language and content
   name space ([recovered]: every non-empty value sent replaces the Info's). *)
Theorem C12_header_recovered_by_expect_tcp :
  forall parse recv i0 xmlns lang jto jfrom id rest,
    xmlns = ns_client \/ xmlns = ns_server ->
    valid_jid parse jto -> valid_jid parse jfrom -> valid_value lang -> valid_value id ->
    exists t,
      read_start (send_header false xmlns default_version lang (jid_string jto) (jid_string jfrom) id ++ rest)
        = Some (t, false, rest) /\
      t = tcp_token xmlns default_version lang (jid_string jto) (jid_string jfrom) id /\
      let i' := recovered i0 ns_stream (str "stream") xmlns jto jfrom id lang in
      expect parse recv false i0 [t] =
        if negb recv && is_nil (i_id i') then (EStream c_bad_format, i', []) else (EOk, i', []).
Proof.
  intros parse recv i0 xmlns lang jto jfrom id rest Hx [Tt At] [Tf Af] Hl Hi.
  eexists. split; [|split; [reflexivity|]].
  - destruct Hx as [-> | ->]; apply C12_header_wellformed_and_recovered_tcp; reflexivity || assumption.
  - apply expect_header; [split | | intros _; exact Hx | | exact At | exact Af]; reflexivity.
Qed.
Print Assumptions C12_header_recovered_by_expect_tcp.

Theorem C12_header_recovered_by_expect_ws :
  forall parse recv i0 xmlns lang jto jfrom id rest,
    valid_jid parse jto -> valid_jid parse jfrom -> valid_value lang -> valid_value id ->
    exists t,
      read_start (send_header true xmlns default_version lang (jid_string jto) (jid_string jfrom) id ++ rest)
        = Some (t, true, rest) /\
      t = ws_token default_version lang (jid_string jto) (jid_string jfrom) id /\
      let i' := recovered i0 ns_ws (str "open") ns_ws jto jfrom id lang in
      expect parse recv true i0 [t; TEnd ns_ws (str "open")] =
        if negb recv && is_nil (i_id i') then (EStream c_bad_format, i', []) else (EOk, i', []).
Proof.
  intros parse recv i0 xmlns lang jto jfrom id rest [Tt At] [Tf Af] Hl Hi.
  eexists. split; [|split; [reflexivity|]].
  - apply C12_header_wellformed_and_recovered_ws; reflexivity || assumption.
  - apply expect_header; [split | | discriminate | | exact At | exact Af]; reflexivity.
Qed.
Print Assumptions C12_header_recovered_by_expect_ws.

(* what [recovered] holds, spelled out: the values sent *)
Theorem C12_recovered_values :
  forall i0 ns l xmlns jto jfrom id lang,
    let i' := recovered i0 ns l xmlns jto jfrom id lang in
    i_ns i' = ns /\ i_local i' = l /\ i_xmlns i' = xmlns /\ i_ver i' = default_version /\
    (jid_string jto <> [] -> i_to i' = jto) /\ (jid_string jfrom <> [] -> i_from i' = jfrom) /\
    (id <> [] -> i_id i' = id) /\ (lang <> [] -> i_lang i' = lang).
Proof.
  intros i0 ns l xmlns jto jfrom id lang. unfold recovered; cbn. repeat split.
  - intro H. destruct (jid_string jto); [contradiction | reflexivity].
  - intro H. destruct (jid_string jfrom); [contradiction | reflexivity].
  - intro H. destruct id; [contradiction | reflexivity].
  - intro H. destruct lang; [contradiction | reflexivity].
Qed.
Print Assumptions C12_recovered_values.

(* Expect succeeds only on: white space after at most one leading XML
   declaration, then the stream-open element of the framing in use; the Info it
   leaves holds version 1.0, (TCP) a supported content name space and (initiator)
   a stream id; for WebSocket framing the rest of <open/> was skipped. For every
   token script a decoder can produce and every Info. *)
Theorem C12_expect_accepts_only :
  forall parse ts recv ws i i' rest,
    no_end_before_start ts = true ->
    expect parse recv ws i ts = (EOk, i', rest) ->
    exists pre ns l attrs post,
      ts = pre ++ TStart ns l attrs :: post /\
      clean_prefix false pre = true /\
      is_header ws ns l /\
      from_start_element parse ns l attrs i = (None, i') /\
      i_ver i' = default_version /\
      (ws = false -> i_xmlns i' = ns_client \/ i_xmlns i' = ns_server) /\
      (recv = false -> i_id i' <> []) /\
      (if ws then ws_skip 0 post = (EOk, rest) else rest = post).
Proof.
  intros parse ts recv ws i i' rest Hn H.
  destruct (expect_go_ok parse _ _ _ _ _ _ _ _ H). exists pre, ns, l, attrs, post. split; [exact E|]. split; [exact (Cl eq_refl Hn) | exact A].
Qed.
Print Assumptions C12_expect_accepts_only.

(* With the Info negotiateSession hands over (reset before every header), the
   accepted element itself declares version 1.0, the content name space and the id. *)
Theorem C12_expect_accepted_header_declares :
  forall parse recv ws ts i i' rest,
    no_end_before_start ts = true ->
    i_ver i <> default_version -> i_xmlns i = [] -> i_id i = [] ->
    expect parse recv ws i ts = (EOk, i', rest) ->
    exists pre ns l attrs post,
      ts = pre ++ TStart ns l attrs :: post /\ clean_prefix false pre = true /\ is_header ws ns l /\
      has_attr attrs (str "version") (fun v => parse_version v = Some default_version) /\
      (ws = false -> has_attr attrs (str "xmlns") (fun v => v = ns_client \/ v = ns_server)) /\
      (recv = false -> has_attr attrs (str "id") (fun v => v <> [])) /\
      (if ws then ws_skip 0 post = (EOk, rest) else rest = post).
Proof.
  intros parse recv ws ts i i' rest Hn Hv Hx Hi H.
  destruct (C12_expect_accepts_only parse _ _ _ _ _ _ Hn H)
    as (pre & ns & l & attrs & post & E & Cl & Hd & F & V & X & I & R).
  exists pre, ns, l, attrs, post. pose proof (from_attrs_fields parse _ _ _ F) as Fs.
  repeat split; try assumption.
  - destruct (ff_ver _ _ _ _ Fs) as [A|A]; [cbn in A; congruence | rewrite V in A; exact A].
  - intro W. destruct (ff_xmlns _ _ _ _ Fs) as [A|A].
    + cbn in A. rewrite Hx in A. destruct (X W) as [C|C]; rewrite A in C; discriminate C.
    + revert A. apply has_attr_weaken. intros v ->. exact (X W).
  - intro Rv. destruct (ff_id _ _ _ _ Fs) as [A|A].
    + cbn in A. rewrite Hi in A. destruct (I Rv A).
    + revert A. apply has_attr_weaken. intros v ->. exact (I Rv).
Qed.
Print Assumptions C12_expect_accepted_header_declares.

(* A stream error in place of a header comes back as that error (the condition
   is the last child of the stream error name space that is not <text/>), for
   every list of children — defined conditions, <text/>, application-specific
   conditions in other name spaces, character data — in both roles and framings. *)
Theorem C12_stream_error_returned :
  forall parse recv ws i attrs kids ens el rest,
    expect parse recv ws i (TStart ns_stream (str "error") attrs :: flat_map flatten kids ++ TEnd ens el :: rest)
    = (EStream (cond_of kids []), i, []).
Proof.
  intros parse recv ws i attrs kids ens el rest. unfold expect. cbn [expect_go].
  change (bytes_eqb ns_stream ns_stream && bytes_eqb (str "error") (str "error")) with true. cbv iota.
  rewrite (stream_error_children kids [] ens el rest). reflexivity.
Qed.
Print Assumptions C12_stream_error_returned.

(* Receiving side, any sequence of stream (re)starts that is accepted to the
   end: an address once established never changes (c2s: the origin may be set
   once while it is unset; s2s: it can never change). *)
Theorem C12_restart_addresses_stable_receiving :
  forall parse s2s ws lang rounds i i' wires,
    neg_rounds parse true s2s ws lang i rounds = (NOk, i', wires) ->
    (i_to i <> jid_zero -> i_to i' = i_to i) /\
    (i_from i <> jid_zero -> i_from i' = i_from i) /\
    (s2s = true -> i_from i' = i_from i).
Proof.
  intros parse s2s ws lang. apply (neg_rounds_inv parse (kept s2s)).
  - repeat split.
  - apply kept_trans.
  - intros rid i ts i' w R. exact (proj1 (round_recv _ _ _ _ _ _ _ _ _ R)).
Qed.
Print Assumptions C12_restart_addresses_stable_receiving.

(* Initiating side: both addresses are those the session started with (a header
   without "to", or with an empty one, is tolerated and changes nothing). *)
Theorem C12_restart_addresses_stable_initiating :
  forall parse s2s ws lang rounds i i' wires,
    neg_rounds parse false s2s ws lang i rounds = (NOk, i', wires) ->
    i_to i' = i_to i /\ i_from i' = i_from i.
Proof.
  intros parse s2s ws lang.
  apply (neg_rounds_inv parse (fun i i' => i_to i' = i_to i /\ i_from i' = i_from i)).
  - split; reflexivity.
  - intros a b c [T1 F1] [T2 F2]. split; congruence.
  - intros rid i ts i' w R. destruct (round_init _ _ _ _ _ _ _ _ _ R) as (F & T & _). split; assumption.
Qed.
Print Assumptions C12_restart_addresses_stable_initiating.

(* One (re)start: a header after which an established address would differ is refused. *)
Theorem C12_changed_address_rejected_receiving :
  forall parse s2s ws lang rid i ts res i' w,
    neg_round parse true s2s ws lang rid i ts = (res, i', w) ->
    (i_to i <> jid_zero /\ i_to i' <> i_to i) \/
    (i_from i <> jid_zero /\ i_from i' <> i_from i) \/
    (s2s = true /\ i_from i' <> i_from i) ->
    res <> NOk.
Proof.
  intros parse s2s ws lang rid i ts res i' w H C ->.
  destruct (round_recv _ _ _ _ _ _ _ _ _ H) as [(T & F & S) _].
  destruct C as [[N D]|[[N D]|[N D]]]; auto.
Qed.
Print Assumptions C12_changed_address_rejected_receiving.

Theorem C12_changed_address_rejected_initiating :
  forall parse s2s ws lang rid i ts res i' w,
    neg_round parse false s2s ws lang rid i ts = (res, i', w) ->
    i_to i' <> i_to i \/ i_from i' <> i_from i ->
    res <> NOk.
Proof.
  intros parse s2s ws lang rid i ts res i' w H C ->.
  destruct (round_init _ _ _ _ _ _ _ _ _ H) as (F & T & _). destruct C; contradiction.
Qed.
Print Assumptions C12_changed_address_rejected_initiating.

(* An accepted (re)start on the receiving side answers with the header printed
   from the peer's addresses (swapped), the configured language and the fresh id. *)
Theorem C12_receiving_side_answers_with_swapped_addresses :
  forall parse s2s ws lang rid i ts i' w,
    neg_round parse true s2s ws lang rid i ts = (NOk, i', w) ->
    w = send_header ws (content_ns s2s) default_version lang (jid_string (i_from i')) (jid_string (i_to i')) rid.
Proof. intros parse s2s ws lang rid i ts i' w H. exact (proj2 (round_recv parse s2s ws lang rid i ts i' w H)). Qed.
Print Assumptions C12_receiving_side_answers_with_swapped_addresses.

(* The initiator's request, decoded by the receiving side, asks for exactly the
   resourcepart given (the empty one when the local address has none): the
   application's callback receives it. *)
Theorem C12_bind_initiator_requests_own_resource :
  forall parse reqid res v,
    snd (fst (bind_server parse false (IElem (bind_request reqid res)) v)) = Some res.
Proof. intros parse reqid res v. rewrite bind_server_request. destruct v; reflexivity. Qed.
Print Assumptions C12_bind_initiator_requests_own_resource.

(* The initiator reports the assigned address exactly when the reply is an iq
   result with the request's id carrying an address; in every other case (error,
   wrong id, wrong type, no or invalid address, not an iq, failure) it fails and
   its address is unchanged. *)
Theorem C12_bind_initiator_adopts_assigned :
  forall parse reqid reply local res l',
    bind_client parse reqid reply local = (res, l') ->
    (res = BReady ->
       exists attrs kids q,
         reply = IElem (NElem ns_client (str "iq") attrs kids) /\
         decode_bind_iq parse attrs kids = Some q /\
         b_id q = reqid /\ b_type q = iq_result /\ b_jid q <> jid_zero /\ l' = b_jid q) /\
    (res <> BReady -> l' = local).
Proof.
  intros parse reqid reply local res l'. unfold bind_client. intro H.
  destruct reply as [[ns l attrs kids|b]| |r].
  - (* an element *)
    destruct (negb (bytes_eqb ns ns_client && bytes_eqb l (str "iq"))) eqn:N; [exact (not_ready _ H eq_refl)|].
    apply negb_false_iff, andb_true_iff in N. destruct N as [N1 N2]. apply bytes_eqb_eq in N1, N2. subst ns l.
    destruct (decode_bind_iq parse attrs kids) as [q|] eqn:D; [|exact (not_ready _ H eq_refl)].
    destruct (bytes_eqb (b_id q) reqid) eqn:I, (bytes_eqb (b_type q) iq_result) eqn:T,
             (jid_eqb (b_jid q) jid_zero) eqn:Z;
      cbn [negb] in H; try exact (not_ready _ H eq_refl).
    (* left: the id and the type match and an address was given *)
    apply bytes_eqb_eq in I, T. apply jid_eqb_neq in Z. injection H as <- <-.
    split; [|intro C; contradiction]. intros _. exists attrs, kids, q. repeat split; assumption.
  - (* character data *) exact (not_ready _ H eq_refl).
  - (* not a start element *) exact (not_ready _ H eq_refl).
  - (* the reader failed *) apply (not_ready _ H). destruct r; reflexivity.
Qed.
Print Assumptions C12_bind_initiator_adopts_assigned.

(* The receiver answers the request's id, addresses swapped, with the address
   the callback chose (VJid; the default verdict is a fresh resource on the
   remote bare address) and is ready, or with the callback's stanza error in a
   reply typed "error", after which the negotiation step fails with that stanza
   error (nothing was bound: not ready); any other callback error: no reply. *)
Theorem C12_bind_receiver_answers_request :
  forall parse s2s attrs kids v q,
    decode_bind_iq parse attrs kids = Some q ->
    bind_server parse s2s (IElem (NElem (content_ns s2s) (str "iq") attrs kids)) v =
    match v with
    | VFail => (BOther, Some (b_resource q), [])
    | VJid j =>
        (BReady, Some (b_resource q),
         flatten (NElem (content_ns s2s) (str "iq") (iq_attrs iq_result (b_from q) (b_to q) (attr_first (str "id") attrs))
                        [NElem ns_bind (str "bind") [] (payload_nodes [] j)]))
    | VStanzaErr en =>
        (BStanzaErr, Some (b_resource q),
         flatten (NElem (content_ns s2s) (str "iq") (iq_attrs iq_error (b_from q) (b_to q) (attr_first (str "id") attrs)) en))
    end.
Proof. exact bind_server_reply. Qed.
Print Assumptions C12_bind_receiver_answers_request.

(* Both sides together: request -> receiver -> reply -> initiator adopts the
   address the callback chose; a callback stanza error fails the receiver's
   step, reaches the initiator as an error and leaves its address alone. *)
Theorem C12_bind_roundtrip :
  forall parse reqid res j local,
    is_nil (jid_string j) = false -> parse (jid_string j) = Some j -> j <> jid_zero ->
    exists n,
      bind_server parse false (IElem (bind_request reqid res)) (VJid j) = (BReady, Some res, flatten n) /\
      bind_client parse reqid (IElem n) local = (BReady, j).
Proof.
  intros parse reqid res j local Ns P Z.
  exists (NElem ns_client (str "iq") (iq_attrs iq_result jid_zero jid_zero reqid)
                [NElem ns_bind (str "bind") [] (payload_nodes [] j)]).
  split; [apply bind_server_request|].
  rewrite (bind_client_plain parse _ _ _ _ _ _ _ (result_kids parse j Ns P)).
  apply jid_eqb_neq in Z. rewrite Z. reflexivity.
Qed.
Print Assumptions C12_bind_roundtrip.

Theorem C12_bind_roundtrip_error :
  forall parse reqid res ens a ks local,
    exists n,
      bind_server parse false (IElem (bind_request reqid res)) (VStanzaErr [NElem ens (str "error") a ks])
        = (BStanzaErr, Some res, flatten n) /\
      bind_client parse reqid (IElem n) local = (BStanzaErr, local).
Proof.
  intros parse reqid res ens a ks local.
  exists (NElem ns_client (str "iq") (iq_attrs iq_error jid_zero jid_zero reqid) [NElem ens (str "error") a ks]).
  split; [apply bind_server_request|].
  exact (bind_client_plain parse reqid iq_error [NElem ens (str "error") a ks] [] jid_zero true local eq_refl).
Qed.
Print Assumptions C12_bind_roundtrip_error.

(* Without a callback the receiver chooses the given fresh resource on the
   peer's bare address (and then answers as above with VJid); when no address
   is known for the peer nothing can be bound and bind fails without a reply. *)
Theorem C12_bind_receiver_default_address :
  forall remote rid,
    (j_domain remote <> [] ->
     default_verdict remote rid = VJid (mkjid (j_local remote) (j_domain remote) rid)) /\
    (j_domain remote = [] -> default_verdict remote rid = VFail).
Proof.
  intros remote rid. unfold default_verdict. split; intro H.
  - destruct (j_domain remote); [contradiction | reflexivity].
  - rewrite H. reflexivity.
Qed.
Print Assumptions C12_bind_receiver_default_address.

(* Fresh per negotiation: any number of bind negotiations performed with one and
   the same feature value and no callback (peer address known, request decodes).
   The k-th negotiation is ready and answers with the k-th attr.RandomID() draw
   as resource on its own peer's bare address; when the draws are pairwise
   distinct so are the assigned resourceparts. *)
Theorem C12_bind_receiver_fresh_per_negotiation :
  forall parse s2s negs,
    Forall (neg_ok parse s2s) negs ->
    bind_default_many parse s2s negs = map (default_reply parse s2s) negs /\
    Forall (fun r => fst r = BReady) (bind_default_many parse s2s negs) /\
    map j_res (map assigned negs) = map snd negs /\
    (NoDup (map snd negs) -> NoDup (map j_res (map assigned negs))).
Proof.
  intros parse s2s negs F. destruct (bind_default_many_ready parse s2s negs F) as [E R].
  assert (M : map j_res (map assigned negs) = map snd negs) by (rewrite map_map; reflexivity).
  rewrite M, E. repeat split; trivial.
Qed.
Print Assumptions C12_bind_receiver_fresh_per_negotiation.
