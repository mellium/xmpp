(* C12/Proofs.v — lemmas about the model of C12/Model.v: the printed header read
   back by the start-tag reader, FromStartElement one attribute at a time, what
   Expect accepts, one round of the negotiator, the two sides of bind. *)
From XV Require Import lib.Bytes gen.StreamHdr C12.Model.
From Coq Require Import ZifyBool.
Local Open Scope N_scope.

Lemma jid_eqb_eq a b : jid_eqb a b = true <-> a = b.
Proof.
  unfold jid_eqb. destruct a as [l d r], b as [l' d' r']. cbn [j_local j_domain j_res].
  rewrite !andb_true_iff, !bytes_eqb_eq. split.
  - intros [[-> ->] ->]. reflexivity.
  - intro H. injection H as -> -> ->. repeat split.
Qed.

Lemma jid_eqb_refl a : jid_eqb a a = true.
Proof. apply jid_eqb_eq. reflexivity. Qed.

Lemma jid_eqb_neq a b : jid_eqb a b = false <-> a <> b.
Proof. rewrite <- not_true_iff_false, jid_eqb_eq. reflexivity. Qed.

Lemma bytes_eqb_neq a b : bytes_eqb a b = false <-> a <> b.
Proof. exact (Bytes.bytes_eqb_neq a b). Qed.

Lemma is_nil_true b : is_nil b = true <-> b = [].
Proof. destruct b; cbn; split; intro H; congruence. Qed.

Definition high_bit (b : byte) : bool := 128 <=? bN b.

(* a byte esc1 copies or escapes, never replaces by U+FFFD *)
Definition okb (b : byte) : bool := (32 <=? bN b) || is_space b.

Fixpoint all_high (k : nat) (s : bytes) : bool :=
  match k with
  | O => true
  | S k' => match s with [] => false | b :: r => high_bit b && all_high k' r end
  end.

Lemma esc1_high b : high_bit b = true -> esc1 b = [b].
Proof. destruct b; try reflexivity; discriminate. Qed.

Lemma high_okb b : high_bit b = true -> okb b = true.
Proof. unfold high_bit, okb. intro H. apply orb_true_iff. left. lia. Qed.

(* every range a byte after the first is tested against begins at 128 or above *)
Lemma classify_multi b r w :
  classify (b :: r) = CMulti w -> high_bit b = true /\ all_high (w - 1) r = true.
Proof.
  unfold classify.
  destruct (bN b <? 128) eqn:E0; [discriminate|].
  destruct (_ && _).
  { destruct r as [|b1 r1]; [discriminate|]. destruct (is_cont b1) eqn:C; [|discriminate].
    intro H; injection H as <-. cbn [all_high Nat.sub]. unfold high_bit, is_cont, in_rng in *. lia. }
  destruct (_ && _).
  { destruct r as [|b1 [|b2 r2]]; try discriminate.
    destruct (in_rng b1 _ _ && is_cont b2) eqn:C; [|discriminate]. destruct (_ && _ && _); [discriminate|].
    intro H; injection H as <-. cbn [all_high Nat.sub]. unfold high_bit, is_cont, in_rng in *.
    destruct (bN b =? 224), (bN b =? 237); lia. }
  destruct (_ && _); [|discriminate].
  destruct r as [|b1 [|b2 [|b3 r3]]]; try discriminate.
  destruct (in_rng b1 _ _ && is_cont b2 && is_cont b3) eqn:C; [|discriminate].
  intro H; injection H as <-. cbn [all_high Nat.sub]. unfold high_bit, is_cont, in_rng in *.
  destruct (bN b =? 240), (bN b =? 244); lia.
Qed.

(* k: continuation bytes still to be copied; they are >= 0x80, where esc1 is the identity *)
Lemma esc_flat : forall s k,
  all_high k s = true -> tok_ok k s = true ->
  esc k s = flat_map esc1 s /\ forallb okb s = true.
Proof.
  induction s as [|b r IH]; intros k Hh Ht.
  - destruct k; cbn in *; [split; reflexivity | discriminate].
  - destruct k as [|k'].
    + cbn [esc tok_ok] in *.
      destruct (classify (b :: r)) eqn:C; try discriminate.
      * apply andb_true_iff in Ht. destruct Ht as [Hb Hr].
        destruct (IH 0%nat eq_refl Hr) as [E F].
        cbn [flat_map forallb]. rewrite E, F. unfold okb at 1. rewrite Hb. split; reflexivity.
      * destruct (classify_multi b r w C) as [Hb Hw].
        destruct (IH (w - 1)%nat Hw Ht) as [E F].
        cbn [flat_map forallb]. rewrite E, F, (esc1_high b Hb), (high_okb b Hb). split; reflexivity.
    + cbn [all_high] in Hh. apply andb_true_iff in Hh. destruct Hh as [Hb Hr].
      cbn [esc tok_ok] in *.
      destruct (IH k' Hr Ht) as [E F].
      cbn [flat_map forallb]. rewrite E, F, (esc1_high b Hb), (high_okb b Hb). split; reflexivity.
Qed.

Lemma escape_text_clean s : text_ok s = true -> escape_text s = flat_map esc1 s /\ forallb okb s = true.
Proof. intro H. apply (esc_flat s 0%nat eq_refl H). Qed.

Lemma feed_app : forall a b st,
  feed st (a ++ b) = match feed st a with Some st' => feed st' b | None => None end.
Proof.
  induction a as [|x a IH]; intros b st; cbn; [reflexivity|].
  destruct (step st x); try reflexivity. apply IH.
Qed.

Lemma run_feed : forall a b st st', feed st a = Some st' -> run st (a ++ b) = run st' b.
Proof.
  induction a as [|x a IH]; intros b st st' H; cbn in *.
  - inversion H; reflexivity.
  - destruct (step st x); try discriminate. apply IH. exact H.
Qed.

Definition quote : byte := "'"%byte.

Lemma feed_value (f : byte -> bytes) (ok : byte -> bool) n at_ an :
  (forall acc b, ok b = true ->
     feed (PVal n at_ an quote acc None) (f b) = Some (PVal n at_ an quote (b :: acc) None)) ->
  forall v, forallb ok v = true -> text_ok v = true ->
  feed (PVal n at_ an quote [] None) (flat_map f v ++ [quote]) = Some (PGap n (mkra an v :: at_)).
Proof.
  intros Hf v Hv T.
  assert (G : forall v acc, forallb ok v = true ->
            feed (PVal n at_ an quote acc None) (flat_map f v) = Some (PVal n at_ an quote (rev v ++ acc) None)).
  { clear v Hv T. induction v as [|b v IH]; intros acc H; [reflexivity|].
    cbn [flat_map forallb] in *. apply andb_true_iff in H. destruct H as [Hb Hv].
    rewrite feed_app, (Hf acc b Hb), (IH (b :: acc) Hv). cbn [rev]. rewrite <- app_assoc. reflexivity. }
  rewrite feed_app, (G v [] Hv), app_nil_r.
  cbn [feed step]. unfold quote. rewrite byte_eqb_refl, rev_involutive, T. reflexivity.
Qed.

Lemma feed_esc1 n at_ an acc b :
  okb b = true ->
  feed (PVal n at_ an quote acc None) (esc1 b) = Some (PVal n at_ an quote (b :: acc) None).
Proof. destruct b; try reflexivity; discriminate. Qed.

Lemma feed_escaped n at_ an v :
  text_ok v = true ->
  feed (PVal n at_ an quote [] None) (escape_text v ++ [quote]) = Some (PGap n (mkra an v :: at_)).
Proof.
  intro H. destruct (escape_text_clean v H) as [E F].
  rewrite E. exact (feed_value esc1 okb n at_ an (feed_esc1 n at_ an) v F H).
Qed.

(* values printed raw (%s): no quote, ampersand or angle bracket in them *)
Definition plainb (b : byte) : bool :=
  okb b && negb (byte_eqb b quote) && negb (byte_eqb b "<"%byte) && negb (byte_eqb b "&"%byte).

Lemma feed_plain1 n at_ an acc b :
  plainb b = true ->
  feed (PVal n at_ an quote acc None) [b] = Some (PVal n at_ an quote (b :: acc) None).
Proof.
  unfold plainb. rewrite !andb_true_iff, !negb_true_iff. intros [[[_ Q] L] A].
  cbn [feed step]. rewrite Q, L, A. reflexivity.
Qed.

Lemma feed_raw n at_ an v :
  forallb plainb v = true -> text_ok v = true ->
  feed (PVal n at_ an quote [] None) (v ++ [quote]) = Some (PGap n (mkra an v :: at_)).
Proof.
  intros P H. rewrite <- (feed_value (fun b => [b]) plainb n at_ an (feed_plain1 n at_ an) v P H).
  f_equal. f_equal. clear P H. induction v as [|b v IH]; [reflexivity | exact (f_equal (cons b) IH)].
Qed.

(* A format string of Send with its arguments put in: literal text, and values
   printed raw (%s) inside single quotes. The quote that closes a value goes with
   the value, the one that opens it ends the literal before. *)
Inductive seg := Lit (l : bytes) | Raw (v : bytes).

Fixpoint printed (f : list seg) : bytes :=
  match f with
  | [] => []
  | Lit l :: r => l ++ printed r
  | Raw v :: r => v ++ quote :: printed r
  end.

(* The reader over a format: a literal byte by byte, a value in one step. Run on
   a format whose literals are closed it evaluates, whatever the values are. *)
Fixpoint reads (st : pstate) (f : list seg) : option pstate :=
  match f with
  | [] => Some st
  | Lit l :: r => match feed st l with Some st' => reads st' r | None => None end
  | Raw v :: r =>
      match st with
      | PVal n at_ an q [] None => if byte_eqb q quote then reads (PGap n (mkra an v :: at_)) r else None
      | _ => None
      end
  end.

Definition seg_ok (s : seg) : Prop :=
  match s with Lit _ => True | Raw v => forallb plainb v = true /\ text_ok v = true end.

Lemma reads_sound : forall f st st', Forall seg_ok f -> reads st f = Some st' -> feed st (printed f) = Some st'.
Proof.
  induction f as [|[l|v] f IH]; intros st st' Ok H; inversion_clear Ok as [|? ? Hs Hf]; cbn [reads printed] in *.
  - exact H.
  - rewrite feed_app. destruct (feed st l); [exact (IH _ _ Hf H) | discriminate H].
  - destruct st as [| | | | | | | | |n at_ an q [|] [|]]; try discriminate H.
    destruct (byte_eqb q quote) eqn:Q; [|discriminate H]. apply byte_eqb_eq in Q. subst q. destruct Hs as [P T].
    change (v ++ quote :: printed f) with (v ++ [quote] ++ printed f).
    rewrite app_assoc, feed_app, (feed_raw n at_ an v P T). exact (IH _ _ Hf H).
Qed.

(* what the reader collects from [opt_attr name value] *)
Definition ra_opt (name value : bytes) : list rattr := if is_nil value then [] else [mkra name value].

Lemma run_opt n at_ name v r :
  (forall at', feed (PGap n at') (str " " ++ name ++ str "='") = Some (PVal n at' name quote [] None)) ->
  text_ok v = true ->
  run (PGap n at_) (opt_attr name v ++ r) = run (PGap n (rev (ra_opt name v) ++ at_)) r.
Proof.
  intros Hpre H. unfold opt_attr, ra_opt. destruct (is_nil v); [reflexivity|].
  unfold write_attr.
  replace (str " " ++ name ++ str "='" ++ escape_text v ++ str "'")
    with ((str " " ++ name ++ str "='") ++ (escape_text v ++ [quote]))
    by (rewrite <- !app_assoc; reflexivity).
  apply run_feed. rewrite feed_app, Hpre. apply feed_escaped. exact H.
Qed.

Definition hdr_attrs (lang to from id : bytes) : list rattr :=
  ra_opt (str "id") id ++ ra_opt (str "to") to ++ ra_opt (str "from") from ++ ra_opt (str "xml:lang") lang.

Lemma run_four n at_ lang to from id r :
  text_ok lang = true -> text_ok to = true -> text_ok from = true -> text_ok id = true ->
  run (PGap n at_)
      (opt_attr (str "id") id ++ opt_attr (str "to") to ++ opt_attr (str "from") from ++
       opt_attr (str "xml:lang") lang ++ r)
  = run (PGap n (rev (hdr_attrs lang to from id) ++ at_)) r.
Proof.
  intros Hl Ht Hf Hi.
  rewrite (run_opt n _ _ id), (run_opt n _ _ to), (run_opt n _ _ from), (run_opt n _ _ lang)
    by (intros; assumption || reflexivity).
  unfold hdr_attrs. rewrite !rev_app_distr, <- !app_assoc. reflexivity.
Qed.

Lemma split_dot_skip : forall a cur r,
  ~ In dot a -> split_dot cur (a ++ r) = split_dot (rev a ++ cur) r.
Proof.
  induction a as [|x a IH]; intros cur r H; [reflexivity|].
  cbn [app split_dot rev]. destruct (byte_eqb x dot) eqn:E.
  - apply byte_eqb_eq in E. exfalso. apply H. left. exact E.
  - rewrite <- app_assoc. apply IH. intro I. apply H. right. exact I.
Qed.

Lemma split_dot_two a b : ~ In dot a -> ~ In dot b -> split_dot [] (a ++ dot :: b) = [a; b].
Proof.
  intros Ha Hb. rewrite (split_dot_skip a [] _ Ha). cbn [split_dot]. rewrite byte_eqb_refl.
  rewrite <- (app_nil_r b) at 1. rewrite (split_dot_skip b [] [] Hb). cbn [split_dot].
  rewrite !app_nil_r, !rev_involutive. reflexivity.
Qed.

(* one row of the 256-value table behind dec3_spec; the digits are computed once *)
Definition dec3_row (n : N) : bool :=
  let d := dec3 n in
  match parse_u8 d with Some m => m =? n | None => false end &&
  negb (in_bytes dot d) && forallb plainb d && text_ok d.

Lemma dec3_spec n : n < 256 ->
  parse_u8 (dec3 n) = Some n /\ ~ In dot (dec3 n) /\
  forallb plainb (dec3 n) = true /\ text_ok (dec3 n) = true.
Proof.
  intro H.
  assert (T : forallb (fun k => dec3_row (N.of_nat k)) (seq 0 256) = true) by (vm_compute; reflexivity).
  rewrite forallb_forall in T. specialize (T (N.to_nat n)). rewrite N2Nat.id in T.
  assert (R : dec3_row n = true) by (apply T, in_seq; lia).
  unfold dec3_row in R. rewrite !andb_true_iff in R. destruct R as [[[P D] Pl] Tx].
  repeat split; try assumption.
  - destruct (parse_u8 (dec3 n)); [apply N.eqb_eq in P; subst; reflexivity | discriminate P].
  - rewrite <- in_bytes_In. apply negb_true_iff in D. rewrite D. discriminate.
Qed.

Lemma forallb_plain_okb v : forallb plainb v = true -> forallb okb v = true.
Proof.
  induction v as [|b v IH]; cbn; [reflexivity|]. intro H.
  apply andb_true_iff in H. destruct H as [Hb Hv]. rewrite (IH Hv), andb_true_r.
  unfold plainb in Hb. destruct (okb b); [reflexivity | discriminate].
Qed.

(* DecodeRune looks no further than the rune it finds *)
Lemma classify_app x a b : classify (x :: a ++ b) = classify (x :: a) \/ classify (x :: a) = CBad.
Proof.
  unfold classify.
  destruct (bN x <? 128); [left; reflexivity|].
  destruct ((194 <=? bN x) && (bN x <=? 223)).
  { destruct a as [|a1 a']; [right; reflexivity | left; reflexivity]. }
  destruct ((224 <=? bN x) && (bN x <=? 239)).
  { destruct a as [|a1 [|a2 a']]; [right; reflexivity | right; reflexivity | left; reflexivity]. }
  destruct ((240 <=? bN x) && (bN x <=? 244)); [|left; reflexivity].
  destruct a as [|a1 [|a2 [|a3 a']]]; try (right; reflexivity). left; reflexivity.
Qed.

Lemma tok_ok_app : forall a k b, tok_ok k a = true -> tok_ok 0 b = true -> tok_ok k (a ++ b) = true.
Proof.
  induction a as [|x a IH]; intros k b Ha Hb.
  - destruct k; cbn in *; [exact Hb | discriminate].
  - destruct k as [|k'].
    + cbn [tok_ok app] in *.
      destruct (classify_app x a b) as [C|C]; [|rewrite C in Ha; discriminate].
      rewrite C. destruct (classify (x :: a)); try discriminate.
      * apply andb_true_iff in Ha. destruct Ha as [H1 H2]. rewrite H1. cbn. apply IH; assumption.
      * apply IH; assumption.
    + cbn [tok_ok app] in *. apply IH; assumption.
Qed.

Lemma text_ok_app a b : text_ok a = true -> text_ok b = true -> text_ok (a ++ b) = true.
Proof. apply tok_ok_app. Qed.

Lemma plain_version v :
  fst v < 256 -> snd v < 256 ->
  forallb plainb (version_string v) = true /\ text_ok (version_string v) = true.
Proof.
  intros Ha Hb. unfold version_string.
  destruct (dec3_spec _ Ha) as (_ & _ & P1 & T1). destruct (dec3_spec _ Hb) as (_ & _ & P2 & T2).
  split.
  - rewrite !forallb_app, P1, P2. reflexivity.
  - apply text_ok_app; [exact T1|]. apply text_ok_app; [reflexivity | exact T2].
Qed.

Lemma run_close n at_ (sc : bool) rest :
  run (PGap n at_) ((if sc then str "/>" else str ">") ++ rest) = Some (n, rev at_, sc, rest).
Proof. destruct sc; reflexivity. Qed.

(* what a peer's parser hands on: the start element of the header *)
Definition at_opt (space local value : bytes) : list attr :=
  if is_nil value then [] else [mkattr space local value].

Definition hdr_token_attrs (lang to from id : bytes) : list attr :=
  at_opt [] (str "id") id ++ at_opt [] (str "to") to ++ at_opt [] (str "from") from ++ at_opt ns_xml (str "lang") lang.

Definition tcp_token (xmlns : bytes) (ver : N * N) (lang to from id : bytes) : tok :=
  TStart ns_stream (str "stream")
    ([mkattr [] (str "xmlns") xmlns; mkattr (str "xmlns") (str "stream") ns_stream;
      mkattr [] (str "version") (version_string ver)] ++ hdr_token_attrs lang to from id).

Definition ws_token (ver : N * N) (lang to from id : bytes) : tok :=
  TStart ns_ws (str "open")
    ([mkattr [] (str "xmlns") ns_ws; mkattr [] (str "version") (version_string ver)] ++ hdr_token_attrs lang to from id).

Definition tr_attr (binds : list (bytes * bytes)) (a : rattr) : attr :=
  let '(s, l) := translate binds false (ns_name (ra_name a)) in mkattr s l (ra_val a).

(* attributes the decoder reads the same way whatever the element declares *)
Definition reads_as (ras : list rattr) (tas : list attr) : Prop :=
  forallb (fun a => colons_ok (ra_name a)) ras = true /\
  ns_binds ras = [] /\
  forall binds, map (tr_attr binds) ras = tas.

Lemma ns_binds_app a b : ns_binds (a ++ b) = ns_binds a ++ ns_binds b.
Proof. apply flat_map_app. Qed.

Lemma reads_as_app ra rb ta tb : reads_as ra ta -> reads_as rb tb -> reads_as (ra ++ rb) (ta ++ tb).
Proof.
  intros (Ca & Ba & Ta) (Cb & Bb & Tb). repeat split.
  - rewrite forallb_app, Ca, Cb. reflexivity.
  - rewrite ns_binds_app, Ba, Bb. reflexivity.
  - intro binds. rewrite map_app, Ta, Tb. reflexivity.
Qed.

Lemma reads_as_opt name v s l :
  reads_as [mkra name v] [mkattr s l v] -> reads_as (ra_opt name v) (at_opt s l v).
Proof. unfold ra_opt, at_opt. destruct (is_nil v); [repeat split | exact (fun H => H)]. Qed.

Lemma hdr_attrs_read lang to from id : reads_as (hdr_attrs lang to from id) (hdr_token_attrs lang to from id).
Proof. repeat apply reads_as_app; apply reads_as_opt; repeat split. Qed.

Lemma to_token_eq n attrs :
  to_token n attrs =
  let '(s, l) := translate (ns_binds attrs) true (ns_name n) in
  TStart s l (map (tr_attr (ns_binds attrs)) attrs).
Proof. reflexivity. Qed.

(* pre: the attributes of the framing, which may declare name spaces; opts: the
   four printed through writeAttr, which declare none *)
Lemma read_start_app s n pre opts topts sc rest ns l at_ :
  run (PStart false) s = Some (n, pre ++ opts, sc, rest) ->
  reads_as opts topts ->
  colons_ok n && forallb (fun a => colons_ok (ra_name a)) pre = true ->
  to_token n pre = TStart ns l at_ ->
  read_start s = Some (TStart ns l (at_ ++ topts), sc, rest).
Proof.
  intros R (Co & Bo & To) C T.
  unfold read_start. rewrite R, forallb_app, Co, andb_true_r, C.
  rewrite to_token_eq in T |- *. rewrite ns_binds_app, Bo, app_nil_r, map_app, To.
  destruct (translate (ns_binds pre) true (ns_name n)) as [ns' l'].
  injection T as -> -> <-. reflexivity.
Qed.

(* The two format strings of Send (C12_tables ties them to the source). *)
Definition tcp_frame (xmlns : bytes) (ver : N * N) : list seg :=
  [Lit (xml_header ++ str "<stream:stream xmlns='"); Raw xmlns;
   Lit (str " xmlns:stream='http://etherx.jabber.org/streams' version='"); Raw (version_string ver)].

Definition ws_frame (ver : N * N) : list seg :=
  [Lit (str "<open xmlns=""urn:ietf:params:xml:ns:xmpp-framing"" version='"); Raw (version_string ver)].

(* Whatever the framing: Send prints a format f, the four attributes, the
   closing; after f the reader is between attributes, with the element name n
   and the attributes at_ (latest first) read. Then the peer reads that element
   with the four attributes after those of at_. For a given framing the premises
   about f are closed by evaluation. *)
Lemma read_header ws f n at_ ns l tas xmlns ver lang to from id rest :
  send_header ws xmlns ver lang to from id =
    printed f ++ opt_attr (str "id") id ++ opt_attr (str "to") to ++ opt_attr (str "from") from ++
    opt_attr (str "xml:lang") lang ++ (if ws then str "/>" else str ">") ->
  Forall seg_ok f -> reads (PStart false) f = Some (PGap n at_) ->
  colons_ok n && forallb (fun a => colons_ok (ra_name a)) (rev at_) = true ->
  to_token n (rev at_) = TStart ns l tas ->
  text_ok lang = true -> text_ok to = true -> text_ok from = true -> text_ok id = true ->
  read_start (send_header ws xmlns ver lang to from id ++ rest) =
  Some (TStart ns l (tas ++ hdr_token_attrs lang to from id), ws, rest).
Proof.
  intros E Ok R C T Hl Ht Hf Hi.
  apply (read_start_app _ n (rev at_) _ _ _ _ _ _ _) with (2 := hdr_attrs_read lang to from id) (3 := C) (4 := T).
  rewrite E, <- !app_assoc, (run_feed _ _ _ _ (reads_sound f _ _ Ok R)), run_four by assumption.
  rewrite run_close, rev_app_distr, rev_involutive. reflexivity.
Qed.

Definition has_attr (attrs : list attr) (local : bytes) (P : bytes -> Prop) : Prop :=
  exists a, In a attrs /\ a_space a = [] /\ a_local a = local /\ P (a_val a).

Lemma has_attr_weaken attrs local (P Q : bytes -> Prop) :
  (forall v, P v -> Q v) -> has_attr attrs local P -> has_attr attrs local Q.
Proof. intros PQ (x & I & S & L & Px). exists x. repeat split; try assumption. exact (PQ _ Px). Qed.

Section WithParse.
Variable parse : bytes -> option jid.

(* where an address of the Info comes from: the empty attribute is the zero
   JID, any other value goes through jid.Parse *)
Definition addr_src (j : jid) (v : bytes) : Prop :=
  if is_nil v then j = jid_zero else parse v = Some j.

(* A field of the Info after reading attributes: what it was before, or what an
   unqualified attribute [local] among them gives. *)
Definition src {A} (get : info -> A) (local : bytes) (P : A -> bytes -> Prop)
               (attrs : list attr) (i i' : info) : Prop :=
  get i' = get i \/ has_attr attrs local (P (get i')).

Lemma src_here {A} (get : info -> A) local (P : A -> bytes -> Prop) a (i i' : info) :
  a_space a = [] -> a_local a = local -> P (get i') (a_val a) -> src get local P [a] i i'.
Proof. intros Sp L Pv. right. exists a. repeat split; try assumption. left. reflexivity. Qed.

Lemma src_cons {A} (get : info -> A) local (P : A -> bytes -> Prop) a r i i1 i2 :
  src get local P [a] i i1 -> src get local P r i1 i2 -> src get local P (a :: r) i i2.
Proof.
  intros H1 [E2|(y & J & S)]; [|right; exists y; split; [right; exact J | exact S]].
  destruct H1 as [E1|(x & [<-|[]] & R)]; [left; congruence|].
  right. rewrite E2. exists a. split; [left; reflexivity | exact R].
Qed.

(* Where the fields of the Info come from that Expect checks or the negotiator
   compares. *)
Record fields_from (attrs : list attr) (i i' : info) : Prop := {
  ff_xmlns : src i_xmlns (str "xmlns") (fun x v => v = x) attrs i i';
  ff_to : src i_to (str "to") addr_src attrs i i';
  ff_from : src i_from (str "from") addr_src attrs i i';
  ff_id : src i_id (str "id") (fun x v => v = x) attrs i i';
  ff_ver : src i_ver (str "version") (fun x v => parse_version v = Some x) attrs i i' }.

(* stated for every continuation r, so that [from_attrs_app] and [from_attrs_spec] are inductions
   that never unfold [from_attrs] again *)
Lemma from_attrs_step a i :
  (exists c i1, forall r, from_attrs parse (a :: r) i = (Some (EStream c), i1)) \/
  (exists i1, (forall r, from_attrs parse (a :: r) i = from_attrs parse r i1) /\ fields_from [a] i i1).
Proof.
  cbn [from_attrs].
  destruct (is_nil (a_space a)) eqn:Sp.
  2:{ (* qualified: xml:lang or ignored *)
      destruct (_ && _); right; eexists; (split; [|constructor; left]; reflexivity). }
  apply is_nil_true in Sp.
  destruct (bytes_eqb _ (str "xmlns")) eqn:L1.
  { apply bytes_eqb_eq in L1. right. eexists. split; [reflexivity|].
    constructor; try (left; reflexivity). apply src_here; assumption || reflexivity. }
  destruct (bytes_eqb _ (str "to")) eqn:L2.
  { apply bytes_eqb_eq in L2.
    destruct (is_nil (a_val a)) eqn:V; [|destruct (parse (a_val a)) eqn:P; [|left; do 2 eexists; reflexivity]];
      (right; eexists; split; [reflexivity|]; constructor; try (left; reflexivity));
      apply src_here; try assumption; unfold addr_src; rewrite V; assumption || reflexivity. }
  destruct (bytes_eqb _ (str "from")) eqn:L3.
  { apply bytes_eqb_eq in L3.
    destruct (is_nil (a_val a)) eqn:V; [|destruct (parse (a_val a)) eqn:P; [|left; do 2 eexists; reflexivity]];
      (right; eexists; split; [reflexivity|]; constructor; try (left; reflexivity));
      apply src_here; try assumption; unfold addr_src; rewrite V; assumption || reflexivity. }
  destruct (bytes_eqb _ (str "id")) eqn:L4.
  { apply bytes_eqb_eq in L4. right. eexists. split; [reflexivity|].
    constructor; try (left; reflexivity). apply src_here; assumption || reflexivity. }
  destruct (bytes_eqb _ (str "version")) eqn:L5;
    [|right; eexists; split; [|constructor; left]; reflexivity].
  apply bytes_eqb_eq in L5. destruct (parse_version (a_val a)) eqn:P; [|left; do 2 eexists; reflexivity].
  right. eexists. split; [reflexivity|].
  constructor; try (left; reflexivity). apply src_here; assumption || reflexivity.
Qed.

Lemma from_attrs_app : forall l1 l2 i,
  from_attrs parse (l1 ++ l2) i =
  match from_attrs parse l1 i with
  | (None, i') => from_attrs parse l2 i'
  | r => r
  end.
Proof.
  induction l1 as [|a l1 IH]; intros l2 i; [reflexivity|]. cbn [app].
  destruct (from_attrs_step a i) as [(c & i1 & E)|(i1 & E & _)]; rewrite !E; [reflexivity | apply IH].
Qed.

Lemma from_attrs_spec : forall attrs i,
  match from_attrs parse attrs i with
  | (Some e, _) => exists c, e = EStream c
  | (None, i') => fields_from attrs i i'
  end.
Proof.
  induction attrs as [|a r IH]; intro i; [constructor; left; reflexivity|].
  destruct (from_attrs_step a i) as [(c & i1 & E)|(i1 & E & F)]; rewrite E; [eexists; reflexivity|].
  specialize (IH i1). destruct (from_attrs parse r i1) as [[e|] i2]; [exact IH|].
  destruct F, IH. constructor; eapply src_cons; eassumption.
Qed.

Lemma from_attrs_fields attrs i i' : from_attrs parse attrs i = (None, i') -> fields_from attrs i i'.
Proof. intro H. pose proof (from_attrs_spec attrs i) as S. rewrite H in S. exact S. Qed.

End WithParse.

(* encoding/xml never delivers an end element before the first start element *)
Fixpoint no_end_before_start (ts : list tok) : bool :=
  match ts with
  | [] => true
  | TStart _ _ _ :: _ => true
  | TEnd _ _ :: _ => false
  | _ :: r => no_end_before_start r
  end.

(* white space, after at most one leading XML declaration *)
Fixpoint clean_prefix (started : bool) (pre : list tok) : bool :=
  match pre with
  | [] => true
  | TChar b :: r => all_space b && clean_prefix true r
  | TProcInst tg :: r => negb started && bytes_eqb tg (str "xml") && clean_prefix true r
  | _ => false
  end.

Definition is_header (ws : bool) (ns l : bytes) : Prop :=
  if ws then l = str "open" /\ ns = ns_ws else l = str "stream" /\ ns = ns_stream.

Lemma ver_eqb_eq a b : ver_eqb a b = true -> a = b.
Proof.
  destruct a, b; unfold ver_eqb; cbn. intro H. apply andb_true_iff in H. destruct H as [H1 H2].
  apply N.eqb_eq in H1, H2. congruence.
Qed.

Lemma stream_error_not_ok : forall ts sk c, stream_error sk c ts <> EOk.
Proof.
  induction ts as [|t r IH]; intros sk c; cbn [stream_error]; [discriminate|].
  destruct sk as [d|].
  - destruct t; try apply IH.
  - destruct t as [ns l a|ns l| | | |]; try apply IH. discriminate.
Qed.

Lemma is_header_test (ws : bool) ns l :
  (if ws then bytes_eqb l (str "open") && bytes_eqb ns ns_ws
   else bytes_eqb l (str "stream") && bytes_eqb ns ns_stream) = true <-> is_header ws ns l.
Proof. unfold is_header. destruct ws; rewrite andb_true_iff, !bytes_eqb_eq; reflexivity. Qed.

Section Accept.
Variable parse : bytes -> option jid.

Definition accepted (recv ws : bool) (ns l : bytes) (attrs : list attr) (i : info) (r : list tok)
                    (i' : info) (rest : list tok) : Prop :=
  is_header ws ns l /\
  from_start_element parse ns l attrs i = (None, i') /\
  i_ver i' = default_version /\
  (ws = false -> i_xmlns i' = ns_client \/ i_xmlns i' = ns_server) /\
  (recv = false -> i_id i' <> []) /\
  (if ws then ws_skip 0 r = (EOk, rest) else rest = r).

Lemma expect_start_ok recv ws ns l attrs i r i' rest :
  expect_start parse recv ws ns l attrs i r = (EOk, i', rest) ->
  accepted recv ws ns l attrs i r i' rest.
Proof.
  unfold expect_start, accepted.
  destruct (negb _) eqn:Hhdr; [discriminate|]. apply negb_false_iff, is_header_test in Hhdr.
  destruct (if ws then ws_skip 0 r else (EOk, r)) as [e r'] eqn:Hs.
  destruct e; try discriminate.
  destruct (from_start_element parse ns l attrs i) as [[err|] i1] eqn:Hf.
  { pose proof (from_attrs_spec parse attrs (set_name i ns l)) as S. unfold from_start_element in Hf.
    rewrite Hf in S. destruct S as [c ->]. discriminate. }
  destruct (negb (ver_eqb (i_ver i1) default_version)) eqn:Hv; [discriminate|].
  destruct (negb ws && negb (bytes_eqb (i_xmlns i1) ns_client) && negb (bytes_eqb (i_xmlns i1) ns_server)) eqn:Hx; [discriminate|].
  destruct (negb recv && is_nil (i_id i1)) eqn:Hi; [discriminate|].
  intro H; injection H as -> ->. repeat split.
  - exact Hhdr.
  - apply ver_eqb_eq. apply negb_false_iff in Hv. exact Hv.
  - intros ->. cbn [negb andb] in Hx.
    destruct (bytes_eqb (i_xmlns i') ns_client) eqn:C; [left; apply bytes_eqb_eq; exact C|].
    destruct (bytes_eqb (i_xmlns i') ns_server) eqn:S; [right; apply bytes_eqb_eq; exact S|].
    discriminate.
  - intros -> E. cbn [negb andb] in Hi. rewrite E in Hi. discriminate.
  - destruct ws; [exact Hs | injection Hs as ->; reflexivity].
Qed.

Lemma expect_start_accepts recv ws ns l attrs i r i' rest :
  is_header ws ns l ->
  from_start_element parse ns l attrs i = (None, i') ->
  i_ver i' = default_version ->
  (ws = false -> i_xmlns i' = ns_client \/ i_xmlns i' = ns_server) ->
  (if ws then ws_skip 0 r = (EOk, rest) else rest = r) ->
  expect_start parse recv ws ns l attrs i r =
  if negb recv && is_nil (i_id i') then (EStream c_bad_format, i', []) else (EOk, i', rest).
Proof.
  intros Hd F V X R. unfold expect_start.
  rewrite (proj2 (is_header_test ws ns l) Hd).
  replace (if ws then ws_skip 0 r else (EOk, r)) with (EOk, rest)
    by (destruct ws; [symmetry; exact R | rewrite R; reflexivity]).
  cbn [negb]. rewrite F, V.
  replace (negb ws && negb (bytes_eqb (i_xmlns i') ns_client) && negb (bytes_eqb (i_xmlns i') ns_server))
    with false
    by (destruct ws; [reflexivity|]; destruct (X eq_refl) as [E|E]; rewrite E; reflexivity).
  reflexivity.
Qed.

Lemma expect_go_header recv ws started deep ns l attrs i r :
  is_header ws ns l ->
  expect_go parse recv ws started deep i (TStart ns l attrs :: r) = expect_start parse recv ws ns l attrs i r.
Proof. unfold is_header. destruct ws; intros [-> ->]; reflexivity. Qed.

(* the element Expect accepted among [ts]; of the tokens before it something is known only while
   the reader's depth is 0, that is, as long as no end element came first *)
Inductive expect_found recv ws started deep i ts i' rest : Prop :=
| ExpectFound pre ns l attrs post
    (E : ts = pre ++ TStart ns l attrs :: post)
    (Cl : deep = false -> no_end_before_start ts = true -> clean_prefix started pre = true)
    (A : accepted recv ws ns l attrs i post i' rest).

Arguments ExpectFound {recv ws started deep i ts i' rest}.

Lemma expect_go_ok : forall ts recv ws started deep i i' rest,
  expect_go parse recv ws started deep i ts = (EOk, i', rest) -> expect_found recv ws started deep i ts i' rest.
Proof.
  induction ts as [|t r IH]; intros recv ws started deep i i' rest H; [discriminate|].
  destruct t as [ns l attrs|ens el|b| |tg|]; cbn [expect_go] in H.
  - destruct (bytes_eqb ns ns_stream && bytes_eqb l (str "error")).
    { injection H as E _ _. destruct (stream_error_not_ok _ _ _ E). }
    destruct (bytes_eqb ns ns_stream && negb (bytes_eqb l (str "stream"))); [discriminate|].
    exact (ExpectFound [] _ _ _ _ eq_refl (fun _ _ => eq_refl) (expect_start_ok _ _ _ _ _ _ _ _ _ H)).
  - destruct (bytes_eqb ens ns_stream); [destruct (bytes_eqb el (str "stream")); discriminate|].
    destruct (IH _ _ _ _ _ _ _ H).
    refine (ExpectFound (_ :: pre) _ _ _ _ (f_equal (cons _) E) _ A). intros _ N; discriminate N.
  - destruct (deep || all_space b) eqn:Sp; [|discriminate].
    destruct (IH _ _ _ _ _ _ _ H).
    refine (ExpectFound (_ :: pre) _ _ _ _ (f_equal (cons _) E) _ A).
    intros -> N. cbn [orb] in Sp. cbn [clean_prefix]. rewrite Sp. exact (Cl eq_refl N).
  - discriminate.
  - destruct (negb started && bytes_eqb tg (str "xml")) eqn:D; [|discriminate].
    destruct (IH _ _ _ _ _ _ _ H).
    refine (ExpectFound (_ :: pre) _ _ _ _ (f_equal (cons _) E) _ A).
    intros Dp N. cbn [clean_prefix]. rewrite D. exact (Cl Dp N).
  - discriminate.
Qed.

Lemma expect_go_fields ts recv ws started deep i i' rest :
  expect_go parse recv ws started deep i ts = (EOk, i', rest) ->
  exists ns l attrs, In (TStart ns l attrs) ts /\ fields_from parse attrs (set_name i ns l) i'.
Proof.
  intro H. destruct (expect_go_ok _ _ _ _ _ _ _ _ H). subst ts. destruct A as (_ & F & _).
  exists ns, l, attrs. split; [apply in_elt | exact (from_attrs_fields parse _ _ _ F)].
Qed.

Definition empty_to_in (ts : list tok) : Prop :=
  exists ns l attrs, In (TStart ns l attrs) ts /\ has_attr attrs (str "to") (fun v => v = []).

(* after an accepted header, an address is the one before, one jid.Parse
   produced, or the zero JID of an empty attribute *)
Lemma expect_to : forall recv ws i ts i' rest,
  expect parse recv ws i ts = (EOk, i', rest) ->
  i_to i' = i_to i \/ (exists v, parse v = Some (i_to i')) \/ (i_to i' = jid_zero /\ empty_to_in ts).
Proof.
  intros recv ws i ts i' rest H. destruct (expect_go_fields _ _ _ _ _ _ _ _ H) as (ns & l & attrs & I & F).
  destruct (ff_to _ _ _ _ F) as [E|(a & Ia & Sp & Lo & P)].
  - left. exact E.
  - right. unfold addr_src in P. destruct (is_nil (a_val a)) eqn:V.
    + right. split; [exact P|]. exists ns, l, attrs. split; [exact I|].
      exists a. repeat split; try assumption. apply is_nil_true. exact V.
    + left. exists (a_val a). exact P.
Qed.

Lemma expect_from : forall recv ws i ts i' rest,
  expect parse recv ws i ts = (EOk, i', rest) ->
  i_from i' = i_from i \/ (exists v, parse v = Some (i_from i')) \/ i_from i' = jid_zero.
Proof.
  intros recv ws i ts i' rest H. destruct (expect_go_fields _ _ _ _ _ _ _ _ H) as (ns & l & attrs & I & F).
  destruct (ff_from _ _ _ _ F) as [E|(a & _ & _ & _ & P)].
  - left. exact E.
  - right. unfold addr_src in P. destruct (is_nil (a_val a)); [right; exact P | left; exists (a_val a); exact P].
Qed.

End Accept.

Lemma expect_skips_clean_prefix parse recv ws : forall pre started i ts,
  clean_prefix started pre = true ->
  expect_go parse recv ws started false i (pre ++ ts) = expect_go parse recv ws true false i ts \/ pre = [].
Proof.
  induction pre as [|t pre IH]; intros started i ts H; [right; reflexivity|]. left.
  destruct t as [| |b| |tg|]; cbn [clean_prefix] in H; try discriminate.
  - apply andb_true_iff in H. destruct H as [Sp Cl]. cbn [app expect_go orb]. rewrite Sp.
    destruct (IH true i ts Cl) as [E|E]; [exact E | subst; reflexivity].
  - apply andb_true_iff in H. destruct H as [D Cl]. cbn [app expect_go]. rewrite D.
    destruct (IH true i ts Cl) as [E|E]; [exact E | subst; reflexivity].
Qed.

Section Recover.
Variable parse : bytes -> option jid.

Definition addr_ok (j : jid) : Prop := jid_string j = [] \/ parse (jid_string j) = Some j.

Lemma from_attrs_id i id :
  from_attrs parse (at_opt [] (str "id") id) i = (None, if is_nil id then i else set_id i id).
Proof. unfold at_opt. destruct (is_nil id); reflexivity. Qed.

Lemma from_attrs_addr i j :
  addr_ok j ->
  from_attrs parse (at_opt [] (str "to") (jid_string j)) i = (None, if is_nil (jid_string j) then i else set_to i j) /\
  from_attrs parse (at_opt [] (str "from") (jid_string j)) i = (None, if is_nil (jid_string j) then i else set_from i j).
Proof.
  unfold at_opt. intros [E|E]; [rewrite E; split; reflexivity|].
  destruct (is_nil (jid_string j)) eqn:N; [split; reflexivity|].
  cbn [from_attrs a_space a_local a_val]. rewrite N, E. split; reflexivity.
Qed.

(* xml:lang arrives in the XML name space *)
Lemma from_attrs_lang i lang :
  from_attrs parse (at_opt ns_xml (str "lang") lang) i = (None, if is_nil lang then i else set_lang i lang).
Proof. unfold at_opt. destruct (is_nil lang); reflexivity. Qed.

Definition recovered (i0 : info) (ns l xmlns : bytes) (jto jfrom : jid) (id lang : bytes) : info :=
  mkinfo ns l xmlns
         (if is_nil (jid_string jto) then i_to i0 else jto)
         (if is_nil (jid_string jfrom) then i_from i0 else jfrom)
         (if is_nil id then i_id i0 else id)
         default_version (if is_nil lang then i_lang i0 else lang).

(* [pre]: the attributes of either framing that come before the optional ones *)
Lemma from_start_hdr i0 ns l pre xmlns lang jto jfrom id :
  addr_ok jto -> addr_ok jfrom ->
  from_attrs parse pre (set_name i0 ns l) = (None, set_ver (set_xmlns (set_name i0 ns l) xmlns) default_version) ->
  from_start_element parse ns l (pre ++ hdr_token_attrs lang (jid_string jto) (jid_string jfrom) id) i0
  = (None, recovered i0 ns l xmlns jto jfrom id lang).
Proof.
  intros Ht Hf Hp. unfold from_start_element, hdr_token_attrs.
  rewrite from_attrs_app, Hp.
  rewrite from_attrs_app, from_attrs_id.
  rewrite from_attrs_app, (proj1 (from_attrs_addr _ jto Ht)).
  rewrite from_attrs_app, (proj2 (from_attrs_addr _ jfrom Hf)).
  rewrite from_attrs_lang.
  unfold recovered. destruct (is_nil id), (is_nil (jid_string jto)), (is_nil (jid_string jfrom)), (is_nil lang); reflexivity.
Qed.

(* Expect on the header element of either framing. [closing]: what follows
   inside a self-closing <open/>. *)
Lemma expect_header recv ws i0 ns l pre xmlns lang jto jfrom id closing :
  is_header ws ns l ->
  from_attrs parse pre (set_name i0 ns l) = (None, set_ver (set_xmlns (set_name i0 ns l) xmlns) default_version) ->
  (ws = false -> xmlns = ns_client \/ xmlns = ns_server) ->
  (if ws then ws_skip 0 closing = (EOk, []) else [] = closing) ->
  addr_ok jto -> addr_ok jfrom ->
  let i' := recovered i0 ns l xmlns jto jfrom id lang in
  expect parse recv ws i0 (TStart ns l (pre ++ hdr_token_attrs lang (jid_string jto) (jid_string jfrom) id) :: closing) =
  if negb recv && is_nil (i_id i') then (EStream c_bad_format, i', []) else (EOk, i', []).
Proof.
  intros Hd Hp Hx Hc At Af i'. unfold expect. rewrite expect_go_header by exact Hd.
  apply expect_start_accepts; [exact Hd | | reflexivity | exact Hx | exact Hc].
  apply from_start_hdr; assumption.
Qed.

End Recover.

Lemma node_ind2 (P : node -> Prop) :
  (forall b, P (NText b)) ->
  (forall ns l a ks, Forall P ks -> P (NElem ns l a ks)) ->
  forall n, P n.
Proof.
  intros Ht He. fix IH 1. intros [ns l a ks|b].
  - apply He. induction ks as [|k ks IHks]; constructor; [apply IH | exact IHks].
  - apply Ht.
Qed.

Definition skipped (ts : list tok) : Prop :=
  forall d c r, stream_error (Some d) c (ts ++ r) = stream_error (Some d) c r.

Lemma skipped_forest ks : Forall (fun k => skipped (flatten k)) ks -> skipped (flat_map flatten ks).
Proof.
  induction 1 as [|k ks Hk _ IH]; intros d c r; [reflexivity|].
  cbn [flat_map]. rewrite <- app_assoc, Hk. apply IH.
Qed.

Lemma skip_node n : skipped (flatten n).
Proof.
  induction n as [b|ns l a ks IHks] using node_ind2; intros d c r; [reflexivity|].
  cbn [flatten app stream_error]. rewrite <- app_assoc, (skipped_forest ks IHks). reflexivity.
Qed.

(* the condition UnmarshalXML reports: the last child in the stream error name
   space that is not <text/> *)
Fixpoint cond_of (kids : list node) (c : bytes) : bytes :=
  match kids with
  | [] => c
  | NElem ns l _ _ :: r =>
      cond_of r (if bytes_eqb ns ns_stream_error && negb (bytes_eqb l (str "text")) then l else c)
  | NText _ :: r => cond_of r c
  end.

Lemma stream_error_children : forall kids c ens el rest,
  stream_error None c (flat_map flatten kids ++ TEnd ens el :: rest) = EStream (cond_of kids c).
Proof.
  induction kids as [|k kids IH]; intros c ens el rest; [reflexivity|].
  destruct k as [ns l a ks|b]; cbn [flat_map flatten cond_of]; [|apply IH].
  cbn [app stream_error]. rewrite <- !app_assoc.
  rewrite (skipped_forest ks (proj2 (Forall_forall _ _) (fun k _ => skip_node k))).
  cbn [app stream_error]. apply IH.
Qed.

(* What the receiving side lets a (re)start do to the addresses: an established
   one stays; c2s only: the origin may be set while it is unset. *)
Definition kept (s2s : bool) (i i' : info) : Prop :=
  (i_to i <> jid_zero -> i_to i' = i_to i) /\
  (i_from i <> jid_zero -> i_from i' = i_from i) /\
  (s2s = true -> i_from i' = i_from i).

Lemma kept_trans s2s a b c : kept s2s a b -> kept s2s b c -> kept s2s a c.
Proof.
  intros (T1 & F1 & S1) (T2 & F2 & S2). repeat split.
  - intro N. rewrite <- (T1 N). apply T2. rewrite (T1 N). exact N.
  - intro N. rewrite <- (F1 N). apply F2. rewrite (F1 N). exact N.
  - intro S. rewrite (S2 S). exact (S1 S).
Qed.

Section Restart.
Variable parse : bytes -> option jid.

Lemma round_recv s2s ws lang rid i ts i' w :
  neg_round parse true s2s ws lang rid i ts = (NOk, i', w) ->
  kept s2s i i' /\
  w = send_header ws (content_ns s2s) default_version lang (jid_string (i_from i')) (jid_string (i_to i')) rid.
Proof.
  unfold neg_round. destruct (expect parse true ws i ts) as [[e i1] r1] eqn:E.
  destruct e; try discriminate.
  destruct (negb ((negb s2s && jid_eqb (i_from i) jid_zero) || jid_eqb (i_from i) (i_from i1))) eqn:O; [discriminate|].
  destruct (negb (jid_eqb (i_to i) jid_zero || jid_eqb (i_to i) (i_to i1))) eqn:L; [discriminate|].
  intro H; injection H as <- <-. apply negb_false_iff, orb_true_iff in O, L.
  rewrite andb_true_iff in O. rewrite !jid_eqb_eq in O, L. repeat split.
  - intro N. destruct L as [L|L]; [contradiction | symmetry; exact L].
  - intro N. destruct O as [[_ O]|O]; [contradiction | symmetry; exact O].
  - intros ->. destruct O as [[O _]|O]; [discriminate O | symmetry; exact O].
Qed.

(* One (re)start on the initiating side: the peer's address must be the one
   established; a header whose "to" is another address is refused, one without
   "to" (or with an empty one) is tolerated and our address is kept. *)
Lemma round_init s2s ws lang rid i ts i' w :
  neg_round parse false s2s ws lang rid i ts = (NOk, i', w) ->
  i_from i' = i_from i /\ i_to i' = i_to i /\
  w = send_header ws (content_ns s2s) default_version lang (jid_string (i_from i)) (jid_string (i_to i)) [].
Proof.
  unfold neg_round. destruct (expect parse false ws i ts) as [[e i1] r1] eqn:E.
  destruct e; try discriminate.
  destruct (negb (jid_eqb (i_from i) (i_from i1))) eqn:L; [discriminate|].
  destruct (negb (jid_eqb (i_to i1) jid_zero) && negb (jid_eqb (i_to i) (i_to i1))) eqn:O; [discriminate|].
  apply negb_false_iff in L. apply jid_eqb_eq in L.
  destruct (jid_eqb (i_to i1) jid_zero) eqn:Z; intro H; injection H as <- <-.
  - repeat split. cbn. congruence.
  - cbn [negb andb] in O. apply negb_false_iff in O. apply jid_eqb_eq in O. repeat split; congruence.
Qed.

Lemma neg_rounds_inv (P : info -> info -> Prop) recv s2s ws lang :
  (forall i, P i i) ->
  (forall a b c, P a b -> P b c -> P a c) ->
  (forall rid i ts i' w, neg_round parse recv s2s ws lang rid (reset_info i) ts = (NOk, i', w) -> P i i') ->
  forall rounds i i' wires, neg_rounds parse recv s2s ws lang i rounds = (NOk, i', wires) -> P i i'.
Proof.
  intros Refl Trans Step.
  induction rounds as [|[rid ts] rest IH]; intros i i' wires H; cbn [neg_rounds] in H.
  - injection H as <- _. apply Refl.
  - destruct (neg_round parse recv s2s ws lang rid (reset_info i) ts) as [[res i1] w] eqn:R.
    destruct res; try discriminate.
    destruct (neg_rounds parse recv s2s ws lang i1 rest) as [[res2 i2] ws'] eqn:R2.
    injection H as -> -> _. exact (Trans _ _ _ (Step _ _ _ _ _ R) (IH _ _ _ R2)).
Qed.

End Restart.

Section Bind.
Variable parse : bytes -> option jid.

Lemma decode_plain_iq type reqid kids res j err :
  iq_kids parse kids [] jid_zero false = Some (res, j, err) ->
  decode_bind_iq parse (iq_attrs type jid_zero jid_zero reqid) kids =
  Some (mkbiq reqid type jid_zero jid_zero res j err).
Proof. intro K. unfold decode_bind_iq. rewrite K. destruct reqid; reflexivity. Qed.

Lemma request_kids res :
  iq_kids parse [NElem ns_bind (str "bind") [] (payload_nodes res jid_zero)] [] jid_zero false =
  Some (res, jid_zero, false).
Proof.
  destruct res as [|b r]; [reflexivity|].
  cbn [payload_nodes is_nil negb iq_kids payload_kids text_of flat_map]. rewrite app_nil_r. reflexivity.
Qed.

Lemma result_kids j :
  is_nil (jid_string j) = false -> parse (jid_string j) = Some j ->
  iq_kids parse [NElem ns_bind (str "bind") [] (payload_nodes [] j)] [] jid_zero false = Some ([], j, false).
Proof.
  intros Ns P. unfold payload_nodes. cbn [is_nil negb]. rewrite Ns.
  cbn [negb iq_kids payload_kids text_of flat_map]. rewrite app_nil_r, P. reflexivity.
Qed.

(* What the receiving side does once the request decoded: the callback was handed [res]; the reply
   answers the request's id, with the addresses swapped, in every case. *)
Definition server_reply (s2s : bool) (res : bytes) (from to : jid) (id : bytes) (v : verdict)
  : bres * option bytes * list tok :=
  match v with
  | VFail => (BOther, Some res, [])
  | VJid j =>
      (BReady, Some res,
       flatten (NElem (content_ns s2s) (str "iq") (iq_attrs iq_result from to id)
                      [NElem ns_bind (str "bind") [] (payload_nodes [] j)]))
  | VStanzaErr en =>
      (BStanzaErr, Some res, flatten (NElem (content_ns s2s) (str "iq") (iq_attrs iq_error from to id) en))
  end.

Lemma bind_server_reply s2s attrs kids v q :
  decode_bind_iq parse attrs kids = Some q ->
  bind_server parse s2s (IElem (NElem (content_ns s2s) (str "iq") attrs kids)) v =
  server_reply s2s (b_resource q) (b_from q) (b_to q) (attr_first (str "id") attrs) v.
Proof.
  intro D. unfold bind_server. rewrite bytes_eqb_refl.
  change (bytes_eqb (str "iq") (str "iq")) with true. cbn [andb negb]. rewrite D. reflexivity.
Qed.

Lemma bind_client_iq reqid local attrs kids q :
  decode_bind_iq parse attrs kids = Some q ->
  bind_client parse reqid (IElem (NElem ns_client (str "iq") attrs kids)) local =
  if negb (bytes_eqb (b_id q) reqid) then (BStream c_undefined_condition, local)
  else if bytes_eqb (b_type q) iq_result then
    (if jid_eqb (b_jid q) jid_zero then (BStream c_bad_format, local) else (BReady, b_jid q))
  else (BStanzaErr, local).
Proof. intro D. unfold bind_client. rewrite D. reflexivity. Qed.

Lemma bind_server_request reqid res v :
  bind_server parse false (IElem (bind_request reqid res)) v = server_reply false res jid_zero jid_zero reqid v.
Proof.
  unfold bind_request. change ns_client with (content_ns false).
  rewrite (bind_server_reply false _ _ v _ (decode_plain_iq iq_set reqid _ _ _ _ (request_kids res))).
  cbn [b_from b_to b_resource]. destruct reqid; reflexivity.
Qed.

Lemma bind_client_plain reqid type kids res j err local :
  iq_kids parse kids [] jid_zero false = Some (res, j, err) ->
  bind_client parse reqid (IElem (NElem ns_client (str "iq") (iq_attrs type jid_zero jid_zero reqid) kids)) local =
  if bytes_eqb type iq_result
  then (if jid_eqb j jid_zero then (BStream c_bad_format, local) else (BReady, j))
  else (BStanzaErr, local).
Proof.
  intro K. rewrite (bind_client_iq _ _ _ _ _ (decode_plain_iq type reqid kids _ _ _ K)).
  cbn [b_id b_type b_jid]. rewrite bytes_eqb_refl. reflexivity.
Qed.

(* the conclusion of C12_bind_initiator_adopts_assigned in a branch of [bind_client] whose result c
   is not BReady: Q, its first half, is vacuous there and the address is the one passed in *)
Lemma not_ready {c res : bres} {local l' : jid} (Q : Prop) :
  (c, local) = (res, l') -> bres_eqb c BReady = false ->
  (res = BReady -> Q) /\ (res <> BReady -> l' = local).
Proof. intros E B. injection E as <- <-. split; [intros ->; discriminate B | reflexivity]. Qed.

End Bind.

Definition valid_value (s : bytes) : Prop := text_ok s = true.

(* a valid address in the model: its string is clean text that jid.Parse maps back to it *)
Definition valid_jid (parse : bytes -> option jid) (j : jid) : Prop :=
  text_ok (jid_string j) = true /\ (jid_string j = [] \/ parse (jid_string j) = Some j).

(* the name of a start element, to be compared with what Send records ([send_name]) *)
Definition tok_name (t : tok) : bytes * bytes :=
  match t with TStart ns l _ => (ns, l) | _ => ([], []) end.

(* one default bind (peer's address, request, this negotiation's random draw):
   the peer's address is known and the request is an iq that decodes *)
Definition neg_ok (parse : bytes -> option jid) (s2s : bool) (n : jid * item * bytes) : Prop :=
  j_domain (fst (fst n)) <> [] /\
  exists attrs kids q, snd (fst n) = IElem (NElem (content_ns s2s) (str "iq") attrs kids) /\
                       decode_bind_iq parse attrs kids = Some q.

(* the address the default verdict then chooses: the draw on the peer's bare address *)
Definition assigned (n : jid * item * bytes) : jid :=
  mkjid (j_local (fst (fst n))) (j_domain (fst (fst n))) (snd n).

(* result and reply of the receiving side for that verdict *)
Definition default_reply (parse : bytes -> option jid) (s2s : bool) (n : jid * item * bytes) : bres * list tok :=
  let '(res, _, reply) := bind_server parse s2s (snd (fst n)) (VJid (assigned n)) in (res, reply).

Lemma bind_default_many_ready parse s2s negs :
  Forall (neg_ok parse s2s) negs ->
  bind_default_many parse s2s negs = map (default_reply parse s2s) negs /\
  Forall (fun r => fst r = BReady) (map (default_reply parse s2s) negs).
Proof.
  induction 1 as [|[[remote request] rid] l [D (attrs & kids & q & Rq & Dq)] _ [IH1 IH2]]; [split; constructor|].
  cbn [fst snd] in D, Rq.
  assert (V : default_verdict remote rid = VJid (assigned (remote, request, rid))).
  { unfold default_verdict, assigned. cbn [fst snd]. destruct (j_domain remote); [contradiction | reflexivity]. }
  cbn [bind_default_many map]. unfold default_reply at 1 3. cbn [fst snd].
  rewrite V, Rq, (bind_server_reply parse s2s attrs kids _ q Dq), IH1.
  split; [reflexivity | constructor; [reflexivity | exact IH2]].
Qed.
