(* C16/Examples.v — non-vacuity and worked examples; ex_escape is the d'artagnan
   address of XEP-0106's examples. *)
From XV Require Import lib.Bytes gen.JidEscape C16.Model C16.Proofs.

Example ex_escape : escape_spec (str "d'artagnan@musketeers.lit") = str "d\27artagnan\40musketeers.lit".
Proof. vm_compute. reflexivity. Qed.
Example ex_unescape_offset : unescape_spec (str "ab\20cd") = str "ab cd".
Proof. vm_compute. reflexivity. Qed.
Example ex_unescape_upper : unescape_spec (str "\2F\3a\5C\5c20") = str "/:\\20".
Proof. vm_compute. reflexivity. Qed.
(* a driver in the sense of [drives]: a 2-byte chunk, then the remaining three
   bytes atEOF, one byte of destination each time *)
Example ex_driver : drives unesc_transform (str "a\20") (str "a ").
Proof.
  apply (drives_step unesc_transform (str "a\20") 1 2 false (str " ")); [cbn; lia|discriminate|].
  apply (drives_step unesc_transform (str "\20") 1 3 true []); [cbn; lia|reflexivity|].
  apply drives_done.
Qed.
Example ex_no_seq : no_seq (str "a\2b\g0\") = true.
Proof. vm_compute. reflexivity. Qed.
Example ex_short_src : r_err (unesc_transform 10 false (str "ab\2")) = EShortSrc /\ r_nsrc (unesc_transform 10 false (str "ab\2")) = 2.
Proof. vm_compute. split; reflexivity. Qed.
