(* C16/Properties.v — the property theorems of C16 and nothing else.
   "JID escaping is a lossless, chunk-independent transform." *)
From XV Require Import lib.Bytes gen.JidEscape C16.Model C16.Proofs.

Theorem C16_roundtrip : forall s : bytes, unescape_spec (escape_spec s) = s.
Proof.
  induction s as [|c rest IH]; [reflexivity|].
  cbn [escape_spec flat_map]. fold (escape_spec rest). unfold esc_byte.
  destruct (is_esc c) eqn:E.
  - destruct (is_esc_unescapes c E) as [F1 F2]. fold (hi c) (lo c).
    cbn [app]. rewrite (unescape_spec_seq _ _ _ F1), F2, IH. reflexivity.
  - assert (Hc : byte_eqb c bslash = false).
    { apply byte_eqb_neq. intros ->. rewrite tbl_bslash_escaped in E. discriminate. }
    cbn [app]. rewrite (unescape_spec_plain _ _ Hc), IH. reflexivity.
Qed.
Print Assumptions C16_roundtrip.

(* Escaped output contains none of the nine characters forbidden in a localpart
   (the tenth escaped character, the backslash, is the escape introducer). *)
Theorem C16_escaped_has_no_forbidden : forall s c,
  In c (escape_spec s) -> in_bytes c localpart_forbidden = false.
Proof.
  induction s as [|x rest IH]; [intros c []|].
  intros c H. apply in_app_or in H. destruct H as [H|H].
  - exact (esc_byte_not_forbidden x c H).
  - exact (IH c H).
Qed.
Print Assumptions C16_escaped_has_no_forbidden.

(* The code's tables are XEP-0106's: the escape set is exactly the ten
   characters, every accepted sequence decodes to one of them, and both hex
   cases of every one of them are accepted. *)
Theorem C16_tables_are_xep0106 :
  (forallb (fun c => in_bytes c escape_set) xep_chars = true /\
   forallb (fun c => in_bytes c xep_chars) escape_set = true) /\
  (forallb (fun p => in_bytes (unesc_val (fst p) (snd p)) xep_chars) unescape_pairs = true /\
   forallb (fun c => should_unescape (hi c) (lo c) && should_unescape (upper (hi c)) (upper (lo c))
                     && should_unescape (hi c) (upper (lo c)) && should_unescape (upper (hi c)) (lo c))
           xep_chars = true).
Proof. split; [exact tbl_escape_set_is_xep|]. split; vm_compute; reflexivity. Qed.
Print Assumptions C16_tables_are_xep0106.

Theorem C16_unescape_only_sequences : forall s, no_seq s = true -> unescape_spec s = s.
Proof.
  induction s as [|c rest IH]; [reflexivity|].
  destruct rest as [|a [|b r2]]; [reflexivity..|].
  intro H. cbn [no_seq] in H. apply andb_true_iff in H. destruct H as [H1 H2].
  apply negb_true_iff in H1. cbn [unescape_spec]. rewrite H1. f_equal. exact (IH H2).
Qed.
Print Assumptions C16_unescape_only_sequences.

(* One call of Escape.Transform: it writes the escape of exactly the consumed
   prefix, stays within the destination, reports only nil or ErrShortDst, and
   consumes something once the driver offers three bytes of room.  Totality of
   the model functions (they are Gallina fixpoints returning a value for every
   capacity, chunk and flag) is the no-panic statement at model level; the tie to
   the Go code is the correspondence check. *)
Theorem C16_escape_call : forall cap src,
  let r := esc_transform cap src in
  r_out r = escape_spec (firstn (r_nsrc r) src) /\
  r_nsrc r <= length src /\ length (r_out r) <= cap /\
  (r_err r = ENil /\ r_nsrc r = length src \/ r_err r = EShortDst /\ r_nsrc r < length src) /\
  (3 <= cap -> src <> [] -> 0 < r_nsrc r).
Proof.
  intros cap src. revert cap. induction src as [|c rest IH]; intro cap; cbn [esc_transform].
  - cbn. repeat split; try lia. left. split; reflexivity. intros _ H. congruence.
  - destruct (cap <? length (esc_byte c)) eqn:E.
    + apply Nat.ltb_lt in E. cbn. repeat split; try lia. right. split; [reflexivity|lia].
      intros H3 _. rewrite esc_byte_length in E. destruct (is_esc c); lia.
    + apply Nat.ltb_ge in E.
      destruct (IH (cap - length (esc_byte c))) as (I1 & I2 & I3 & I4 & _).
      set (r := esc_transform (cap - length (esc_byte c)) rest) in *.
      cbn [cons_out r_out r_nsrc r_err plus firstn length].
      repeat split; try lia.
      * (* what was written *) rewrite I1. cbn [escape_spec flat_map]. reflexivity.
      * (* capacity *) rewrite app_length. lia.
      * (* error and consumption *) destruct I4 as [[? ?]|[? ?]]; [left|right]; split; try assumption; lia.
Qed.
Print Assumptions C16_escape_call.

(* One call of Unescape.Transform.  [tail] is whatever a later call may bring
   after this chunk (nothing when atEOF): the specification of chunk and tail is
   what was written followed by the specification of what is left.  The call
   consumes something once it has one byte of room and either three bytes of
   source or atEOF. *)
Theorem C16_unescape_call : forall cap at_eof src tail,
  (at_eof = true -> tail = []) ->
  let r := unesc_transform cap at_eof src in
  unescape_spec (src ++ tail) = r_out r ++ unescape_spec (skipn (r_nsrc r) src ++ tail) /\
  r_nsrc r <= length src /\ length (r_out r) <= cap /\
  (r_err r = ENil -> r_nsrc r = length src) /\ (r_err r <> EEndOfSpan) /\
  (at_eof = true -> r_err r <> EShortSrc) /\
  (1 <= cap -> (3 <= length src \/ at_eof = true) -> src <> [] -> 0 < r_nsrc r).
Proof.
  intros cap at_eof src tail Htail. cbv zeta. revert cap.
  (* a sequence consumes three bytes, so the induction is on the length *)
  induction src as [src IH] using (induction_ltof1 _ (@length byte)). unfold ltof in IH. intro cap.
  destruct src as [|c rest]; [cbn; repeat split; try lia; congruence|].
  rewrite (proj1 (unesc_cons at_eof c rest)).
  pose proof (unesc_step_spec at_eof c rest tail Htail) as St.
  destruct (unesc_step at_eof c rest) as [|a b|].
  - (* UCopy *) destruct (Nat.ltb_spec cap 1) as [Ecap|Ecap].
    { cbn [r_out r_nsrc r_err skipn app length]. repeat split; try lia; congruence. }
    destruct (IH rest (le_n _) (cap - 1)) as (I1 & I2 & I3 & I4 & I5 & I6 & _).
    set (r := unesc_transform (cap - 1) at_eof rest) in *.
    cbn [cons_out r_out r_nsrc r_err plus skipn length app].
    repeat split; try lia; try assumption.
    + (* the specification *) rewrite St, I1. reflexivity.
    + (* nil: all consumed *) intro H. rewrite (I4 H). reflexivity.
  - (* USeq *) destruct St as (rest2 & -> & -> & S).
    destruct (Nat.ltb_spec cap 1) as [Ecap|Ecap].
    { cbn [r_out r_nsrc r_err skipn app length]. repeat split; try lia; congruence. }
    destruct (IH rest2 (le_S _ _ (le_S _ _ (le_n _))) (cap - 1)) as (I1 & I2 & I3 & I4 & I5 & I6 & _).
    cbn [skipn] in *. set (r := unesc_transform (cap - 1) at_eof rest2) in *.
    cbn [cons_out r_out r_nsrc r_err plus skipn length app].
    repeat split; try lia; try assumption.
    + (* the specification *) rewrite (unescape_spec_seq _ _ _ S), I1. reflexivity.
    + (* nil: all consumed *) intro H. rewrite (I4 H). reflexivity.
  - (* UShort *) destruct St as [-> Hlen].
    cbn [r_out r_nsrc r_err skipn app length]. repeat split; try lia; try congruence.
Qed.
Print Assumptions C16_unescape_call.

(* Chunk and destination-size independence: whatever sequence of Transform calls
   a driver makes (see [drives]), the concatenated output is the specification
   applied to the whole input. *)
Theorem C16_escape_any_driver : forall src out, drives esc_T src out -> out = escape_spec src.
Proof.
  apply drives_spec; [reflexivity|]. unfold call_sound, esc_T. intros cap at_eof src tail _.
  destruct (C16_escape_call cap src) as (S1 & S2 & _). split; [|exact S2].
  rewrite S1, <- escape_spec_app, app_assoc, firstn_skipn. reflexivity.
Qed.
Print Assumptions C16_escape_any_driver.

Theorem C16_unescape_any_driver : forall src out,
  drives unesc_transform src out -> out = unescape_spec src.
Proof.
  apply drives_spec; [reflexivity|]. unfold call_sound. intros cap at_eof src tail Htail.
  destruct (C16_unescape_call cap at_eof src tail Htail) as (S1 & S2 & _). split; assumption.
Qed.
Print Assumptions C16_unescape_any_driver.

(* Span agrees with Transform: it returns the length of a prefix the transform
   leaves unchanged and stops exactly at the first byte (sequence) it would alter. *)
Theorem C16_escape_span : forall src,
  let '(n, e) := esc_span src in
  n <= length src /\ escape_spec (firstn n src) = firstn n src /\
  (e = ENil /\ n = length src \/
   e = EEndOfSpan /\ exists c, nth_error src n = Some c /\ is_esc c = true).
Proof. exact esc_span_sound. Qed.
Print Assumptions C16_escape_span.

Theorem C16_unescape_span : forall at_eof src tail,
  (at_eof = true -> tail = []) ->
  let '(k, e) := unesc_span at_eof src in
  k <= length src /\
  unescape_spec (src ++ tail) = firstn k src ++ unescape_spec (skipn k src ++ tail) /\
  (e = ENil -> k = length src) /\
  (e = EEndOfSpan -> exists a b r, skipn k src = bslash :: a :: b :: r /\ should_unescape a b = true) /\
  e <> EShortDst /\ (at_eof = true -> e <> EShortSrc).
Proof.
  intros at_eof src tail Htail.
  induction src as [|c rest IH]; [cbn [unesc_span firstn skipn app]; repeat split; auto; congruence|].
  rewrite (proj2 (unesc_cons at_eof c rest)).
  pose proof (unesc_step_spec at_eof c rest tail Htail) as St.
  destruct (unesc_step at_eof c rest) as [|a b|].
  - (* UCopy *) destruct (unesc_span at_eof rest) as [k e]. destruct IH as (I1 & I2 & I3 & I4 & I5 & I6).
    cbn [length firstn skipn app]. repeat split; try assumption.
    + apply le_n_S, I1.
    + rewrite St, I2. reflexivity.
    + intro H. rewrite (I3 H). reflexivity.
  - (* USeq *) destruct St as (r & -> & -> & S).
    cbn [firstn skipn app]. repeat split; try discriminate; [apply Nat.le_0_l|]. intros _. exists a, b, r. split; [reflexivity|exact S].
  - (* UShort *) destruct St as [-> _]. repeat split; try discriminate. apply Nat.le_0_l.
Qed.
Print Assumptions C16_unescape_span.
