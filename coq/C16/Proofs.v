(* C16/Proofs.v — Transform and Span of the unescaper take the same decision at
   every byte; it is named here (unesc_step) and shown to be the one the
   specification takes.  A driver is handled for any transformer whose single
   calls are sound. *)
From XV Require Import lib.Bytes gen.JidEscape C16.Model.

(* The nine characters a localpart may not contain (RFC 7622) plus the escape
   introducer: XEP-0106's ten escaped characters. *)
Definition xep_chars : bytes := str " ""&'/:<>@\".
Definition localpart_forbidden : bytes := str " ""&'/:<>@".

Definition hi (c : byte) : byte := hexdigit (bN c / 16)%N.
Definition lo (c : byte) : byte := hexdigit (bN c mod 16)%N.

(* for the statement that both hex cases of every sequence are accepted *)
Definition upper (c : byte) : byte :=
  let n := bN c in if ((97 <=? n) && (n <=? 102))%N then byte_of_N (n - 32)%N else c.

Lemma tbl_escape_set_is_xep :
  forallb (fun c => in_bytes c escape_set) xep_chars = true /\
  forallb (fun c => in_bytes c xep_chars) escape_set = true.
Proof. split; vm_compute; reflexivity. Qed.

Lemma tbl_bslash_escaped : is_esc bslash = true.
Proof. vm_compute; reflexivity. Qed.

(* [hi c], [lo c] are the two digits esc_byte writes for [c] *)
Lemma tbl_escapes_unescape :
  forallb (fun c => should_unescape (hi c) (lo c) && byte_eqb (unesc_val (hi c) (lo c)) c) escape_set = true.
Proof. vm_compute; reflexivity. Qed.

Lemma tbl_pairs_first_hex :
  forallb (fun p => ishex (fst p)) unescape_pairs = true.
Proof. vm_compute; reflexivity. Qed.

Lemma is_esc_unescapes c : is_esc c = true ->
  should_unescape (hi c) (lo c) = true /\ unesc_val (hi c) (lo c) = c.
Proof.
  intro H. unfold is_esc in H. apply in_bytes_In in H.
  pose proof tbl_escapes_unescape as T. rewrite forallb_forall in T.
  specialize (T c H). apply andb_true_iff in T. destruct T as [T1 T2].
  apply byte_eqb_eq in T2. split; assumption.
Qed.

Lemma should_unescape_ishex a b : should_unescape a b = true -> ishex a = true.
Proof.
  unfold should_unescape. rewrite existsb_exists. intros [[x y] [Hin E]].
  apply andb_true_iff in E. destruct E as [E1 _]. apply byte_eqb_eq in E1. simpl in E1. subst x.
  pose proof tbl_pairs_first_hex as T. rewrite forallb_forall in T. exact (T _ Hin).
Qed.

Lemma forbidden_is_esc c : in_bytes c localpart_forbidden = true -> is_esc c = true.
Proof.
  intro F. apply in_bytes_In in F.
  pose proof (proj1 tbl_escape_set_is_xep) as T. rewrite forallb_forall in T.
  unfold is_esc. apply T. change xep_chars with (localpart_forbidden ++ [bslash]). apply in_or_app. left. exact F.
Qed.

Lemma escape_spec_app a b : escape_spec (a ++ b) = escape_spec a ++ escape_spec b.
Proof. apply flat_map_app. Qed.

Lemma esc_byte_length c : length (esc_byte c) = if is_esc c then 3 else 1.
Proof. unfold esc_byte. destruct (is_esc c); reflexivity. Qed.

Lemma esc_span_sound src :
  let '(n, e) := esc_span src in
  n <= length src /\
  escape_spec (firstn n src) = firstn n src /\
  (e = ENil /\ n = length src \/
   e = EEndOfSpan /\ exists c, nth_error src n = Some c /\ is_esc c = true).
Proof.
  induction src as [|c rest IH]; cbn [esc_span]; [auto|].
  destruct (is_esc c) eqn:E.
  - split; [apply Nat.le_0_l|]. split; [reflexivity|]. right. split; [reflexivity|]. exists c. auto.
  - destruct (esc_span rest) as [n e]. destruct IH as (I1 & I2 & I3).
    split; [apply le_n_S, I1|]. split.
    + cbn [firstn escape_spec flat_map]. fold (escape_spec (firstn n rest)). rewrite I2.
      unfold esc_byte. rewrite E. reflexivity.
    + destruct I3 as [[-> ->]|[-> (c' & H1 & H2)]]; [left; auto | right; split; [reflexivity|]; exists c'; auto].
Qed.

Lemma escape_span_prefix src :
  let '(n, e) := esc_span src in
  escape_spec (firstn n src) = firstn n src /\
  (e = ENil -> escape_spec src = src) .
Proof.
  pose proof (esc_span_sound src) as S. destruct (esc_span src) as [n e].
  destruct S as (S1 & S2 & S3). split; [exact S2|].
  intro He. destruct S3 as [[_ Hn]|[He' _]]; [|congruence].
  subst n. rewrite firstn_all in S2. exact S2.
Qed.

Lemma hexdigit_not_forbidden n : in_bytes (hexdigit n) localpart_forbidden = false.
Proof.
  destruct n as [|p]; [reflexivity|].
  do 4 (destruct p as [p|p|]; try reflexivity).
Qed.

Lemma esc_byte_not_forbidden x c : In c (esc_byte x) -> in_bytes c localpart_forbidden = false.
Proof.
  unfold esc_byte. destruct (is_esc x) eqn:E.
  - intros [H|[H|[H|[]]]]; subst c; [reflexivity|apply hexdigit_not_forbidden..].
  - intros [H|[]]. subst c. apply not_true_is_false. intro F.
    apply forbidden_is_esc in F. congruence.
Qed.

Lemma unescape_spec_plain c t : byte_eqb c bslash = false ->
  unescape_spec (c :: t) = c :: unescape_spec t.
Proof. intro H. cbn [unescape_spec]. rewrite H. destruct t as [|a [|b r]]; reflexivity. Qed.

Lemma unescape_spec_seq a b t : should_unescape a b = true ->
  unescape_spec (bslash :: a :: b :: t) = unesc_val a b :: unescape_spec t.
Proof. intro H. cbn [unescape_spec]. rewrite H. reflexivity. Qed.

Fixpoint no_seq (s : bytes) : bool :=
  match s with
  | c :: ((a :: b :: _) as rest) => negb (byte_eqb c bslash && should_unescape a b) && no_seq rest
  | _ => true
  end.

(* What Transform and Span both decide at a byte [c] that [rest] follows in the
   chunk: copy it, replace it and the next two, or wait for more source. *)
Inductive ustep := UCopy | USeq (a b : byte) | UShort.

Definition unesc_step (at_eof : bool) (c : byte) (rest : bytes) : ustep :=
  if negb (byte_eqb c bslash) then UCopy
  else match rest with
       | [] => if at_eof then UCopy else UShort
       | [a] => if at_eof || negb (ishex a) then UCopy else UShort
       | a :: b :: _ => if should_unescape a b then USeq a b else UCopy
       end.

Lemma unesc_cons at_eof c rest :
  (forall cap, unesc_transform cap at_eof (c :: rest) =
     match unesc_step at_eof c rest with
     | UCopy => if cap <? 1 then mkres [] 0 EShortDst
                else cons_out [c] 1 (unesc_transform (cap - 1) at_eof rest)
     | USeq a b => if cap <? 1 then mkres [] 0 EShortDst
                   else cons_out [unesc_val a b] 3 (unesc_transform (cap - 1) at_eof (skipn 2 rest))
     | UShort => mkres [] 0 EShortSrc
     end) /\
  unesc_span at_eof (c :: rest) =
  match unesc_step at_eof c rest with
  | UCopy => let '(n, e) := unesc_span at_eof rest in (S n, e)
  | USeq _ _ => (0, EEndOfSpan)
  | UShort => (0, EShortSrc)
  end.
Proof.
  unfold unesc_step. cbn [unesc_transform unesc_span].
  destruct (negb (byte_eqb c bslash)); [split; reflexivity|].
  destruct rest as [|a [|b r]];
    [destruct at_eof | destruct (at_eof || negb (ishex a)) | destruct (should_unescape a b)]; split; reflexivity.
Qed.

(* The decision is the specification's, for any continuation [tail] of the
   source that a later call may bring (none when atEOF).  The one case where the
   chunk does not show it: a backslash and one byte, not atEOF.  The byte is
   copied only if it is no hex digit, and every accepted pair starts with one. *)
Lemma unesc_step_spec at_eof c rest tail : (at_eof = true -> tail = []) ->
  match unesc_step at_eof c rest with
  | UCopy => unescape_spec (c :: rest ++ tail) = c :: unescape_spec (rest ++ tail)
  | USeq a b => exists r, c = bslash /\ rest = a :: b :: r /\ should_unescape a b = true
  | UShort => at_eof = false /\ length rest <= 1
  end.
Proof.
  intro Htail. unfold unesc_step.
  destruct (byte_eqb c bslash) eqn:Ec; cbn [negb].
  2:{ apply unescape_spec_plain. exact Ec. }
  apply byte_eqb_eq in Ec. subst c.
  destruct rest as [|a [|b r]].
  - destruct at_eof; [rewrite (Htail eq_refl); reflexivity | split; [reflexivity|apply Nat.le_0_l]].
  - destruct at_eof; [rewrite (Htail eq_refl); reflexivity|].
    cbn [orb]. destruct (ishex a) eqn:Ea; cbn [negb]; [split; [reflexivity|apply le_n]|].
    destruct tail as [|b t]; [reflexivity|].
    cbn [app unescape_spec]. destruct (should_unescape a b) eqn:S; [|rewrite andb_false_r; reflexivity].
    apply should_unescape_ishex in S. congruence.
  - destruct (should_unescape a b) eqn:S.
    + exists r. repeat split. exact S.
    + cbn [app unescape_spec]. rewrite S, andb_false_r. reflexivity.
Qed.

(* Any driver in the sense of golang.org/x/text/transform: a finite sequence of
   Transform calls, each with an arbitrary destination capacity and an arbitrary
   prefix chunk of the unconsumed source, atEOF only when the chunk reaches the
   end of the source; outputs are concatenated; the sequence ends when the source
   is exhausted.  transform.String, Bytes, Append, Reader, Writer and Chain all
   drive a Transformer this way. *)
Inductive drives (T : nat -> bool -> bytes -> tres) : bytes -> bytes -> Prop :=
| drives_done : drives T [] []
| drives_step : forall src cap k at_eof out',
    k <= length src ->
    (at_eof = true -> k = length src) ->
    let r := T cap at_eof (firstn k src) in
    drives T (skipn (r_nsrc r) src) out' ->
    drives T src (r_out r ++ out').

Definition esc_T (cap : nat) (_ : bool) (src : bytes) : tres := esc_transform cap src.

(* all a driver needs of a Transform *)
Definition call_sound (spec : bytes -> bytes) (T : nat -> bool -> bytes -> tres) : Prop :=
  forall cap at_eof src tail, (at_eof = true -> tail = []) ->
    spec (src ++ tail) = r_out (T cap at_eof src) ++ spec (skipn (r_nsrc (T cap at_eof src)) src ++ tail) /\
    r_nsrc (T cap at_eof src) <= length src.

Lemma drives_spec spec T : spec [] = [] -> call_sound spec T ->
  forall src out, drives T src out -> out = spec src.
Proof.
  intros Hnil HT src out.
  induction 1 as [|src cap k at_eof out' Hk Heof r Hd IH]; [symmetry; exact Hnil|].
  destruct (HT cap at_eof (firstn k src) (skipn k src)) as [S1 S2].
  { intro H. rewrite (Heof H). apply skipn_all. }
  fold r in S1, S2. rewrite firstn_skipn in S1. rewrite S1, IH. do 2 f_equal.
  (* what the call left of its chunk, then the rest of the source *)
  rewrite <- (firstn_skipn k src) at 1. rewrite skipn_app.
  apply Nat.sub_0_le in S2. rewrite S2. reflexivity.
Qed.
