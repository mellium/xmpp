(* C18/Properties.v — the property theorems of C18 and nothing else.
   "MUC membership follows the room's presence exactly."

   All statements are about [exec tr = Some s]: tr is ANY label sequence the
   model accepts from the initial state — any number of join / rejoin / leave /
   cancel calls on any addresses, interleaved in any order with any stanzas of
   the service — and s is the state it leads to. The model (C18/Model.v) is the
   code after the four fix: commits 3db8267, 69447fe, 068232c, 7308313 of /repo. *)
From Coq Require Import List.
Import ListNotations.
From XV Require Import lib.Lts C18.Model C18.Proofs.

(* Channels are objects (h : chid); several may have the same occupant address
   (every Client.Join makes one: LNew h a). [table s a] is the Channel registered
   for address a: last registration wins. *)

(* Join on Channel h returns success only after the room's self-presence for the
   requested occupant address has arrived: after the call started an available
   presence from h's address a was handled; WHEN IT WAS LOOKED UP (state s1) h WAS
   THE REGISTERED CHANNEL for a; and the return belongs to the handling of that
   very presence (nothing else was delivered, no Channel was registered since). *)
Theorem C18_join_success_only_after_self_presence : forall tr s k h,
  exec (tr ++ [LRet k OSuccess]) = Some s -> In (LCall k KJoin h) tr ->
  exists t1 t2 t3 a s1,
    tr = t1 ++ LCall k KJoin h :: t2 ++ LDeliver (PresAvail a) :: t3 /\
    exec (t1 ++ LCall k KJoin h :: t2) = Some s1 /\
    table s1 a = Some h /\ ch_addr (chans s1 h) = a /\
    (forall st, ~ In (LDeliver st) t3) /\ (forall k' h', ~ In (LCall k' KJoin h') t3) /\
    (forall h' a', ~ In (LNew h' a') t3).
Proof.
  intros tr s k h H Hin. apply exec_snoc in H. destruct H as (s1 & H1 & H2).
  destruct (made_call_exists _ _ _ _ _ H1 Hin) as (c & Hc & Hk & Ha).
  destruct (sp_tested (step_sound H2)) as (c1 & Hc1 & _ & _ & Es). rewrite Hc in Hc1. injection Hc1 as <-. rewrite Hk in Es.
  destruct (offer_since_presence h tr s1 H1) as (h1 & l & h2 & s0 & -> & He & (a & -> & Ht) & Hq).
  { exists k. split; [exact Es|]. intros c' Hc'. congruence. }
  pose proof (proj1 (Forall_forall _ _) Hq) as Hq'.
  (* k was called before the presence: nothing is called while the handler offers *)
  apply in_app_or in Hin. destruct Hin as [Hin|[Hin|Hin]]; [|discriminate Hin|destruct (Hq' _ Hin)].
  apply in_split in Hin. destruct Hin as (t1 & t2 & ->).
  exists t1, t2, h2, a, s0. rewrite <- app_assoc. repeat split; try assumption.
  - exact (proj2 (wf_table _ (wf_exec _ s0 He) _ _ Ht)).
  - intros st Hi. exact (Hq' _ Hi).
  - intros k' h' Hi. exact (Hq' _ Hi).
  - intros h' a' Hi. exact (Hq' _ Hi).
Qed.
Print Assumptions C18_join_success_only_after_self_presence.

(* Every Join call registers its Channel for its address, whatever the state of
   the Channel (joined or not): after an accepted LCall k KJoin h the table
   entry of h's address is h ... *)
Theorem C18_join_call_registers : forall tr s k h,
  exec (tr ++ [LCall k KJoin h]) = Some s -> table s (ch_addr (chans s h)) = Some h.
Proof.
  intros tr s k h H. apply exec_snoc in H. destruct H as [s1 [_ H2]].
  destruct (sp_wrote (step_sound H2)) as (_ & Ht & Ha). rewrite Ha. exact Ht.
Qed.
Print Assumptions C18_join_call_registers.

(* ... and an available presence, when it is looked up, is offered to a join
   context of the registered Channel only. (That the handler then passes on
   only to further contexts of the same Channel is [offer_from] in Proofs.v,
   third case.) *)
Theorem C18_presence_goes_to_registered_channel : forall tr s a h s' k c,
  exec tr = Some s -> table s a = Some h ->
  step s (LDeliver (PresAvail a)) = Some s' -> srv s' = SOffer k -> calls s' k = Some c -> c_chan c = h.
Proof.
  intros tr s a h s' k c H Ht Hs Ho Hc.
  destruct (offer_from s _ s' (c_chan c) (wf_exec tr s H) Hs) as [[_ []]|(a' & Ea & Ht')].
  - exists k. split; [exact Ho|]. intros c' Hc'. congruence.
  - injection Ea as <-. congruence.
Qed.
Print Assumptions C18_presence_goes_to_registered_channel.

(* A call (Join or Leave) returns the room's stanza error only if the room
   answered that very request with an error, after the call started. *)
Theorem C18_stanza_error_only_after_error_reply : forall tr s k,
  exec (tr ++ [LRet k OStanzaErr]) = Some s ->
  exists t1 t2 kd a, tr = t1 ++ LDeliver (ErrReply k) :: t2 /\ In (LCall k kd a) t1.
Proof.
  intros tr s k H. apply exec_snoc in H. destruct H as [s1 [H1 H2]].
  destruct (sp_tested (step_sound H2)) as (c & _ & _ & Es).
  destruct (await_after_reply k tr s1 H1 Es) as (t1 & l & t2 & s0 & -> & H0 & (-> & c0 & Hc0) & _).
  exists t1, t2, (c_kind c0), (c_chan c0). split; [reflexivity|].
  apply (caused_In (call_was_made k _ _) t1 s0 H0). exists c0. auto.
Qed.
Print Assumptions C18_stanza_error_only_after_error_reply.

(* ... and the context's error only if its context was cancelled; there is no
   fourth outcome, and a call returns at most once. *)
Theorem C18_context_error_otherwise : forall tr s k o,
  exec (tr ++ [LRet k o]) = Some s ->
  (o = OSuccess \/ o = OStanzaErr \/ o = OCtxErr) /\
  (o = OCtxErr -> In (LCancel k) tr) /\
  (forall o', ~ In (LRet k o') tr).
Proof.
  intros tr s k o H. destruct (exec_snoc _ _ _ H) as (s1 & H1 & H2).
  destruct (sp_tested (step_sound H2)) as (c & Hc & Hp & G). split; [|split].
  - destruct o; auto. destruct G.
  - intros ->. apply (caused_In (done_by_cancel k) tr s1 H1). eauto.
  - intros o' Hin. destruct (returned_for_good tr s1 k o' H1 Hin) as (c' & Hc' & Hp'). congruence.
Qed.
Print Assumptions C18_context_error_otherwise.

(* Conversely the room's answer decides the return value. When the error reply
   to the request of a waiting, uncancelled call is handled, the call can return
   the stanza error and (for a join) nothing else. (This theorem and the three
   other "completes" / "skipped" theorems below hold of every state s, reachable
   or not: their proofs do not use [exec tr = Some s].) *)
Theorem C18_error_reply_is_returned : forall tr s k c,
  exec tr = Some s ->
  srv s = SIdle -> calls s k = Some c -> c_phase c = PWait -> c_done c = false -> c_replied c = false ->
  exists s1 s2,
    step s (LDeliver (ErrReply k)) = Some s1 /\
    step s1 (LRet k OStanzaErr) = Some s2 /\
    step s1 (LRet k OCtxErr) = None /\
    (c_kind c = KJoin -> step s1 (LRet k OSuccess) = None).
Proof. intros tr s k c _. exact (error_reply_returned s k c). Qed.
Print Assumptions C18_error_reply_is_returned.

(* When the self-presence for address a is handled while Channel h is registered
   for a and the context of a waiting, uncancelled join on h is the pending one,
   that join can return success — Joined() on h is true from then on — and
   nothing else. *)
Theorem C18_self_presence_completes_join : forall tr s k c a h rest,
  exec tr = Some s ->
  srv s = SIdle -> table s a = Some h -> ch_jq (chans s h) = k :: rest ->
  calls s k = Some c -> c_kind c = KJoin -> c_chan c = h -> c_phase c = PWait -> c_done c = false ->
  exists s1 s2,
    step s (LDeliver (PresAvail a)) = Some s1 /\
    step s1 (LRet k OSuccess) = Some s2 /\
    ch_joined (chans s2 h) = true /\
    step s1 (LRet k OCtxErr) = None /\
    step s1 (LRet k OStanzaErr) = None.
Proof. intros tr s k c a h rest _. exact (self_presence_completes_join s k c a h rest). Qed.
Print Assumptions C18_self_presence_completes_join.

(* A stale context of an earlier failed or cancelled join sits in the buffer and
   the new join is blocked publishing behind it: the handler takes the stale
   context, the blocked publisher gets the buffer slot, the handler sees the
   stale context done, takes the new one and completes the join; the presence
   callback is not invoked. *)
Theorem C18_stale_join_context_skipped : forall tr s k0 c0 k c a h rest,
  exec tr = Some s ->
  srv s = SIdle -> table s a = Some h -> ch_jq (chans s h) = k0 :: k :: rest ->
  calls s k0 = Some c0 -> c_done c0 = true -> c_chan c0 = h ->
  calls s k = Some c -> c_kind c = KJoin -> c_chan c = h -> c_phase c = PQueued ->
  k <> k0 -> mem k rest = false ->
  exists s1 s2 s3 s4,
    step s (LDeliver (PresAvail a)) = Some s1 /\ step s1 (LPushed k) = Some s2 /\
    step s2 LSeeDone = Some s3 /\ step s3 (LRet k OSuccess) = Some s4 /\
    ch_joined (chans s4 h) = true /\ cb_pres s4 = cb_pres s.
Proof. intros tr s k0 c0 k c a h rest _. exact (stale_context_skipped s k0 c0 k c a h rest). Qed.
Print Assumptions C18_stale_join_context_skipped.

(* The property: Joined() on a Channel is true exactly from a successful join on
   it until the unavailable presence of its occupant address has been handled
   ([member_window] reads that window off the history alone). *)
Definition C18_membership_window_statement : Prop :=
  forall tr s h, exec tr = Some s -> ch_joined (chans s h) = member_window tr h.

(* It holds on every history in which no Leave on that Channel returned the
   room's error and the Channel is never orphaned (whenever the unavailable
   presence of its address is handled while it is a member, it is the registered
   Channel: no other Channel for the same address has replaced it) ... *)
Theorem C18_membership_window_partial : forall tr s h,
  exec tr = Some s ->
  (forall k, In (LRet k OStanzaErr) tr -> ~ In (LCall k KLeave h) tr) ->
  never_orphaned tr h ->
  ch_joined (chans s h) = member_window tr h.
Proof.
  intros tr s h H Hfree Horph.
  destruct (agree_exec true h tr s H (fun _ => window_spared tr h Hfree Horph)) as (_ & _ & _ & Hj). exact Hj.
Qed.
Print Assumptions C18_membership_window_partial.

(* ... and in general membership is exactly [member_impl]: that window cut short
   by a Leave that returned the room's error, and not ended by an unavailable
   presence that arrives while another Channel is registered; every value
   Joined() returns is that one. *)
Theorem C18_membership_exact : forall tr s h,
  exec tr = Some s -> ch_joined (chans s h) = member_impl tr h.
Proof. exact membership_impl. Qed.
Print Assumptions C18_membership_exact.

(* Channel.Joined() answers with that value: a query the model accepts after tr
   reports [member_impl tr h]. *)
Theorem C18_joined_reports_membership : forall tr h b s,
  exec (tr ++ [LQuery h b]) = Some s -> b = member_impl tr h.
Proof.
  intros tr a b s H. apply exec_snoc in H. destruct H as [s1 [H1 H2]].
  rewrite <- (membership_impl tr s1 a H1). exact (sp_tested (step_sound H2)).
Qed.
Print Assumptions C18_joined_reports_membership.

(* The full statement is false of the code as it must stay (muc_test.go
   TestPartError requires Joined() to be false after a refused Leave): join,
   self-presence, Leave, error reply ... *)
Theorem C18_membership_window_refuted :
  exists tr s h, exec tr = Some s /\ ch_joined (chans s h) <> member_window tr h.
Proof.
  exists refute_trace.
  destruct (defined_some (exec refute_trace)) as [s E]; [vm_compute; reflexivity|].
  exists s, 0. split; [exact E|].
  rewrite (run_proj (fun s => ch_joined (chans s 0)) _ _ false E) by (vm_compute; reflexivity).
  vm_compute. discriminate.
Qed.
Print Assumptions C18_membership_window_refuted.

(* ... and, without any refused Leave, of a Channel that a second Client.Join for
   its address has replaced in the table: it does not see the occupant's
   unavailable presence and stays a member (known finding). *)
Theorem C18_membership_orphan_refuted :
  exists s, exec orphan_trace = Some s /\ ch_joined (chans s 0) = true /\ member_window orphan_trace 0 = false /\
            (forall k, ~ In (LRet k OStanzaErr) orphan_trace).
Proof.
  destruct (defined_some (exec orphan_trace)) as [s E]; [vm_compute; reflexivity|].
  exists s. split; [exact E|].
  split; [apply (run_proj (fun s => ch_joined (chans s 0)) _ _ _ E); vm_compute; reflexivity|]. split; [vm_compute; reflexivity|].
  intros k Hin. cbn in Hin. repeat (destruct Hin as [Hin|Hin]; [discriminate Hin|]). destruct Hin.
Qed.
Print Assumptions C18_membership_orphan_refuted.

(* Leave on Channel h returns success only after the unavailable presence of h's
   address was handled, after the call started, while h was the registered
   Channel. *)
Theorem C18_leave_returns_on_unavailable_or_error : forall tr s k h,
  exec (tr ++ [LRet k OSuccess]) = Some s -> In (LCall k KLeave h) tr ->
  exists t1 t2 t3 a s1,
    tr = t1 ++ LCall k KLeave h :: t2 ++ LDeliver (PresUnavail a) :: t3 /\
    exec (t1 ++ LCall k KLeave h :: t2) = Some s1 /\ table s1 a = Some h /\ ch_addr (chans s1 h) = a.
Proof.
  intros tr s k h H Hin. apply exec_snoc in H. destruct H as (s1 & H1 & H2).
  destruct (made_call_exists _ _ _ _ _ H1 Hin) as (c & Hc & Hk & Ha).
  destruct (sp_tested (step_sound H2)) as (c1 & Hc1 & _ & Ep & Ed). rewrite Hc in Hc1. injection Hc1 as <-. rewrite Hk, Ha in Ed.
  destruct (departure_notified k h tr s1 H1) as (t & l & t3 & s0 & -> & H0 & (a & -> & Ht & Hc0) & _).
  { split; [exists c; auto|exact Ed]. }
  (* the call was made before the presence was handled *)
  destruct (in_split _ _ (caused_In (call_was_made k _ _) t s0 H0 Hc0)) as (t1 & t2 & ->).
  exists t1, t2, t3, a, s0. rewrite <- app_assoc. repeat split; try assumption.
  exact (proj2 (wf_table _ (wf_exec _ s0 H0) _ _ Ht)).
Qed.
Print Assumptions C18_leave_returns_on_unavailable_or_error.

(* Conversely, once that presence is handled membership ends and the waiting
   Leave can return; and the notification is kept for it: no step of anybody
   else takes it away, wherever the Leave call is on its way to its select. *)
Theorem C18_unavailable_completes_leave : forall tr s k c a h,
  exec tr = Some s ->
  srv s = SIdle -> table s a = Some h ->
  calls s k = Some c -> c_kind c = KLeave -> c_chan c = h -> c_phase c = PWait ->
  exists s1 s2,
    step s (LDeliver (PresUnavail a)) = Some s1 /\
    ch_joined (chans s1 h) = false /\ table s1 a = None /\
    step s1 (LRet k OSuccess) = Some s2.
Proof. intros tr s k c a h _. exact (unavailable_completes_leave s k c a h). Qed.
Print Assumptions C18_unavailable_completes_leave.

(* The kept notification: while a Leave waits and the departure of its Channel
   has been notified, every step other than the return of that Leave leaves
   both as they are (one step; by induction, any number). *)
Theorem C18_departure_notification_kept : forall tr s l s' k c,
  exec tr = Some s -> step s l = Some s' ->
  calls s k = Some c -> c_kind c = KLeave -> c_phase c = PWait -> ch_dep (chans s (c_chan c)) = true ->
  (forall o, l <> LRet k o) ->
  ch_dep (chans s' (c_chan c)) = true /\
  exists c', calls s' k = Some c' /\ c_kind c' = KLeave /\ c_phase c' = PWait /\ c_chan c' = c_chan c.
Proof.
  intros tr s l s' k c H. exact (departure_kept s l s' k c (wf_exec tr s H)).
Qed.
Print Assumptions C18_departure_notification_kept.

(* Presences from an address for which no Channel was ever made (no join was
   ever requested for it) change nothing, whatever their payload is —
   well-formed (available or unavailable) or one that does not decode (PresBad:
   unknown role or affiliation, malformed jid): the resulting state is the state
   before, so there is no callback, no effect on any call, the Serve loop is
   still idle (no error was returned to it) and everything that could happen
   before can happen after, e.g. a later join. *)
Theorem C18_unjoined_rooms_ignored : forall tr s a,
  exec tr = Some s -> (forall h, ~ In (LNew h a) tr) -> srv s = SIdle ->
  step s (LDeliver (PresAvail a)) = Some s /\ step s (LDeliver (PresUnavail a)) = Some s /\
  step s (LDeliver (PresBad a)) = Some s.
Proof.
  intros tr s a H Hno Hs.
  assert (He : table s a = None).
  { destruct (table s a) as [h|] eqn:E; [|reflexivity].
    exfalso. exact (Hno h (entry_needs_channel tr s a h H E)). }
  cbn [step]. rewrite Hs. cbn [deliver]. rewrite He. repeat split; reflexivity.
Qed.
Print Assumptions C18_unjoined_rooms_ignored.

(* (The contrast, to show that the payload matters where the address is managed:
   there the undecodable payload is an error that ends the Serve loop.) *)
Theorem C18_managed_bad_payload_ends_serve : forall s a h,
  srv s = SIdle -> table s a = Some h ->
  exists s', step s (LDeliver (PresBad a)) = Some s' /\ srv s' = SDead /\
             forall st, step s' (LDeliver st) = None.
Proof.
  intros s a h Hs He. eexists. cbn [step]. rewrite Hs. cbn [deliver]. rewrite He.
  split; [reflexivity|]. split; [reflexivity|]. intros st. reflexivity.
Qed.
Print Assumptions C18_managed_bad_payload_ends_serve.

(* A normal message is a list of child elements: muc#user payloads with an
   invite (CInvite i), muc#user payloads without (declined invitation, status),
   x elements of other namespaces (jabber:x:conference, delay, ...), anything
   else. [invites_of tr] is the property's side: every invite element of every
   delivered message, once, in order. *)
Definition C18_invitation_once_statement : Prop :=
  forall tr s, exec tr = Some s -> cb_inv s = invites_of tr.

(* It holds on every history whose messages carry at most one muc#user payload
   each, whatever other children they have and however many ... *)
Theorem C18_invitation_once_partial : forall tr s,
  exec tr = Some s ->
  (forall cs, In (LDeliver (Msg cs)) tr -> single_payload cs) ->
  cb_inv s = invites_of tr.
Proof.
  intros tr s H Hs. rewrite (invites_exact tr s H). exact (delivered_single tr Hs).
Qed.
Print Assumptions C18_invitation_once_partial.

(* ... in general the callback log is exactly [delivered_of tr]: per message,
   one call per muc#user payload, each with the last payload's invitation ... *)
Theorem C18_invitation_exact : forall tr s,
  exec tr = Some s -> cb_inv s = delivered_of tr.
Proof. exact invites_exact. Qed.
Print Assumptions C18_invitation_exact.

(* ... so the full statement is false: a message with two muc#user payloads
   (the multiplexer runs the handler once per matching child and the handler
   cannot tell which child it was run for). *)
Theorem C18_invitation_once_refuted :
  exists tr s, exec tr = Some s /\ cb_inv s <> invites_of tr.
Proof.
  exists [LDeliver (Msg [CInvite 1; CInvite 2])].
  eexists. split; [vm_compute; reflexivity|]. vm_compute. discriminate.
Qed.
Print Assumptions C18_invitation_once_refuted.
