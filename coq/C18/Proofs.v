(* C18/Proofs.v — how one step of the MUC client model can change a call, a
   Channel, the handler or a table entry (four relations, fields of
   [step_spec], which [step_sound] reads off the text of [step] in one pass);
   the invariant of states that rests on them ([wf], with [uniq]: one call in
   flight per Channel); what the history determines of the state (membership:
   [agree] with a fold of the history) and what the state remembers of the
   history (the instances of [provenance] and [persistence] of lib/Lts.v);
   invitation logs read off a history; the tables read from muc/muc.go and
   muc/room.go. *)
From Coq Require Import List.
Import ListNotations.
From XV Require Import lib.Bytes lib.ListAux lib.Lts gen.Muc C18.Model.

(* Break a hypothesis [step s l = Some s'] into its leaves: one per branch of
   the step function that accepts the label, with the tests it made as
   hypotheses (a passed test for a fresh call or Channel id is substituted). *)
Ltac step_leaves H :=
  unfold step, ret, deliver in H;
  repeat (match type of H with
          | context [match ?x with _ => _ end] =>
              let E := fresh "E" in destruct x eqn:E; try discriminate H
          | context [if ?x then _ else _] =>
              let E := fresh "E" in destruct x eqn:E; try discriminate H
          end);
  try (injection H as H);
  repeat match goal with E : _ && _ = true |- _ => apply andb_prop in E; destruct E end;
  repeat match goal with E : Nat.eqb _ _ = true |- _ => apply Nat.eqb_eq in E end;
  try subst.

Ltac simp_state :=
  cbn [calls ncalls chans nchans table srv cb_pres cb_inv set_call add_call set_chan add_chan set_table set_srv log_pres log_invs take
       c_kind c_chan c_phase c_done c_replied with_phase with_done with_replied returned
       ch_made ch_addr ch_joined ch_jq ch_dep with_joined with_jq with_dep departed].

Lemma eqb_refl' : forall n, Nat.eqb n n = true.
Proof. intro n. apply Nat.eqb_refl. Qed.

Lemma serve_eqb_eq : forall x y, serve_eqb x y = true -> x = y.
Proof.
  intros [|a|a|] [|b|b|] H; cbn in H; try discriminate; try reflexivity;
    apply Nat.eqb_eq in H; subst; reflexivity.
Qed.

Lemma mem_In : forall k l, mem k l = true <-> In k l.
Proof. exact (existsb_eqb_In Nat.eqb Nat.eqb_eq). Qed.

Lemma In_remove_id : forall k x l, In x (remove_id k l) -> In x l.
Proof.
  intros k x l. induction l as [|y r IH]; cbn [remove_id]; intro H; [exact H|].
  destruct (Nat.eqb y k); [right; exact H|].
  destruct H as [H|H]; [left; exact H|right; apply IH; exact H].
Qed.

Lemma exec_snoc : forall tr l s, exec (tr ++ [l]) = Some s -> exists s1, exec tr = Some s1 /\ step s1 l = Some s.
Proof. intros tr l s H. exact (run_snoc_some _ _ step tr l init s H). Qed.

Lemma take_spec : forall s h,
  ch_jq (chans s h) = [] /\ take s h = log_pres (set_srv s SIdle) (ch_addr (chans s h)) \/
  exists k r, ch_jq (chans s h) = k :: r /\ take s h = set_srv (set_chan s h (with_jq (chans s h) r)) (SOffer k).
Proof. intros s h. unfold take. destruct (ch_jq (chans s h)) as [|k r]; eauto. Qed.

(* Each relation lists, for one call, one Channel, the handler or one table
   entry, the ways a step can change it, mostly with the label that does it
   and what the step function tested. Without a label: [cc_advance], LPush and
   LPushed alike (a Join on its way to the buffer, short of its return); [hc_take], the
   hand-over of LDeliver (PresAvail _) and of LSeeDone alike; [sc_idle] and
   [sc_dead], every way the handler comes to rest (an empty buffer included:
   [sc_avail] and [sc_seedone] name the context that heads it) or Serve ends. None says
   that a label MUST change its target (the first constructor always
   applies): what a label writes for certain is the field [sp_wrote] of [step_spec];
   [mstep_sound], which needs the exact effect of five labels, computes it. *)

Inductive call_change (s : state) (l : label) (k : cid) : option call -> option call -> Prop :=
| cc_same : forall oc, call_change s l k oc oc
| cc_new : forall kd h, l = LCall k kd h -> k = ncalls s -> idle s h = true -> ch_made (chans s h) = true ->
    call_change s l k None (Some (mkcall kd h (match kd with KJoin => PStart | KLeave => PWait end) false false))
| cc_advance : forall c p, c_kind c = KJoin -> is_ret (c_phase c) = false -> is_ret p = false ->
    call_change s l k (Some c) (Some (with_phase c p))
| cc_cancel : forall c, l = LCancel k -> call_change s l k (Some c) (Some (with_done c))
| cc_reply : forall c, l = LDeliver (ErrReply k) -> call_change s l k (Some c) (Some (with_replied c))
| cc_ret : forall c o, l = LRet k o -> is_ret (c_phase c) = false -> call_change s l k (Some c) (Some (returned c o)).

Inductive chan_change (s : state) (l : label) (x : chid) : chan -> Prop :=
| hc_same : chan_change s l x (chans s x)
| hc_new : forall a, l = LNew x a -> x = nchans s -> chan_change s l x (mkchan true a false [] false)
| hc_leave : forall k, l = LCall k KLeave x -> idle s x = true -> chan_change s l x (with_dep (chans s x) false)
| hc_push : forall k c, l = LPush k -> calls s k = Some c -> c_kind c = KJoin -> c_chan c = x ->
    chan_change s l x (with_jq (chans s x) (ch_jq (chans s x) ++ [k]))
| hc_unpush : forall k y r, l = LRet k OCtxErr -> ch_jq (chans s x) = y :: r ->
    chan_change s l x (with_jq (chans s x) (y :: remove_id k r))
| hc_take : forall k r, ch_jq (chans s x) = k :: r -> chan_change s l x (with_jq (chans s x) r)
| hc_refused : forall k c, l = LRet k OStanzaErr -> calls s k = Some c -> c_chan c = x ->
    chan_change s l x (with_joined (chans s x) false)
| hc_joined : forall k c, l = LRet k OSuccess -> calls s k = Some c -> c_chan c = x ->
    chan_change s l x (with_joined (chans s x) true)
| hc_left : forall k c, l = LRet k OSuccess -> calls s k = Some c -> c_chan c = x -> c_phase c = PWait ->
    chan_change s l x (with_dep (chans s x) false)
| hc_depart : forall a, l = LDeliver (PresUnavail a) -> table s a = Some x -> chan_change s l x (departed (chans s x)).

Inductive srv_change (s : state) (l : label) : serve -> Prop :=
| sc_same : srv_change s l (srv s)
| sc_avail : forall a h k r, l = LDeliver (PresAvail a) -> table s a = Some h -> ch_jq (chans s h) = k :: r ->
    srv_change s l (SOffer k)
| sc_seedone : forall k0 c k r, l = LSeeDone -> srv s = SOffer k0 -> calls s k0 = Some c ->
    ch_jq (chans s (c_chan c)) = k :: r -> srv_change s l (SOffer k)
| sc_await : forall k c, l = LDeliver (ErrReply k) -> calls s k = Some c -> srv_change s l (SAwait k)
| sc_idle : srv_change s l SIdle
| sc_dead : srv_change s l SDead.

Inductive table_change (s : state) (l : label) (a : addr) : option chid -> Prop :=
| tc_same : table_change s l a (table s a)
| tc_new : forall h, l = LNew h a -> table_change s l a (Some h)
| tc_join : forall k h, l = LCall k KJoin h -> ch_made (chans s h) = true -> a = ch_addr (chans s h) ->
    table_change s l a (Some h)
| tc_unavail : l = LDeliver (PresUnavail a) -> table_change s l a None.

(* While the presence handler offers to a join context it holds managedM and
   Serve is inside it: no Channel is made or registered and nothing is delivered. *)
Definition quiet (l : label) : Prop :=
  match l with LNew _ _ | LCall _ KJoin _ | LDeliver _ => False | _ => True end.

Definition has_call (s : state) (k : cid) (kd : kind) (h : chid) : Prop :=
  exists c, calls s k = Some c /\ c_kind c = kd /\ c_chan c = h.

(* What one step does: how it may change each component (the four relations;
   for the calls in a state whose next call id is free, which [wf] gives), what
   it counts and logs, what its label writes for certain, and what [step]
   tested before it let the label pass (as far as the proofs ask: nothing but
   quiet labels while the handler offers, the tests of a return, the answer of
   Joined). *)
Set Implicit Arguments.
Record step_spec (s : state) (l : label) (s' : state) : Prop := mkspec {
  sp_call : forall k, calls s (ncalls s) = None -> call_change s l k (calls s k) (calls s' k);
  sp_chan : forall x, chan_change s l x (chans s' x);
  sp_srv : srv_change s l (srv s');
  sp_table : forall a, table_change s l a (table s' a);
  sp_ncalls : ncalls s' = match l with LCall _ _ _ => S (ncalls s) | _ => ncalls s end;
  sp_nchans : nchans s' = match l with LNew _ _ => S (nchans s) | _ => nchans s end;
  sp_inv : cb_inv s' = cb_inv s ++ match l with LDeliver (Msg cs) => msg_calls cs | _ => [] end;
  sp_wrote : match l with
             | LNew h a => h = nchans s /\ chans s' h = mkchan true a false [] false /\ table s' a = Some h
             (* every join call registers its Channel for its address before anything else
                happens (last registration wins); a Leave drops a stale notification *)
             | LCall k kd h =>
                 has_call s' k kd h /\
                 match kd with
                 | KJoin => table s' (ch_addr (chans s h)) = Some h /\ ch_addr (chans s' h) = ch_addr (chans s h)
                 | KLeave => ch_dep (chans s' h) = false
                 end
             | LRet k _ => exists c, calls s' k = Some c /\ is_ret (c_phase c) = true
             | _ => True
             end;
  sp_quiet : forall k, srv s = SOffer k -> quiet l;
  sp_tested : match l with
              | LRet k o =>
                  exists c, calls s k = Some c /\ is_ret (c_phase c) = false /\
                  match o with
                  | OSuccess => c_phase c = PWait /\
                      match c_kind c with KJoin => srv s = SOffer k | KLeave => ch_dep (chans s (c_chan c)) = true end
                  | OStanzaErr => srv s = SAwait k
                  | OCtxErr => c_done c = true
                  | OOther => False
                  end
              | LQuery h b => b = ch_joined (chans s h)
              | _ => True
              end }.
Unset Implicit Arguments.

(* [step] is read once: its leaves, and in each leaf the fields in their order.
   A component of the computed state at an index is the old one (the first
   constructor) or what the step wrote there (the constructor its label names). *)
Lemma step_sound {s l s'} : step s l = Some s' -> step_spec s l s'.
Proof.
  intros H.
  destruct l as [hn an|k0 kd h|k0|k0|k0 o|k0|st|  |k0|h b]; step_leaves H;
    try (match goal with |- context [take s ?h] => destruct (take_spec s h) as [[Eq ->]|(k1 & r1 & Eq & ->)] end);
    (split; simp_state;
     [ intros kx Hfresh; try apply cc_same;
       match goal with |- context [Nat.eqb ?y ?x] => destruct (Nat.eqb_spec y x) as [->|_] end; try apply cc_same;
       (* the call the label names is new (LCall) or was there (all other labels) *)
       first [rewrite Hfresh|match goal with Ec : calls _ _ = Some _ |- _ => rewrite Ec end];
       constructor; try reflexivity; try assumption;
       (* left, LPush, LPushed and LRet: the phase that was tested is not PRet *)
       match goal with Ep : c_phase _ = _ |- _ => rewrite Ep end; reflexivity
     | intros hx; try apply hc_same;
       match goal with |- context [Nat.eqb ?y ?z] => destruct (Nat.eqb_spec y z) as [->|_] end; try apply hc_same;
       try (econstructor; (reflexivity || eassumption));
       (* left: the buffer is empty, and yet k is among its blocked publishers *)
       match goal with Em : mem _ (tl []) = true |- _ => discriminate Em end
     | try apply sc_same; try apply sc_idle; try apply sc_dead; econstructor; (reflexivity || eassumption)
     | intros ax; try apply tc_same;
       match goal with |- context [Nat.eqb ?y ?z] => destruct (Nat.eqb_spec y z) as [->|_] end; try apply tc_same;
       econstructor; (reflexivity || eassumption)
     | reflexivity
     | reflexivity
     | rewrite ?app_nil_r; reflexivity
     | unfold has_call; simp_state; rewrite ?Nat.eqb_refl; eauto 7
     | intros kq Ho; try exact I; rewrite Ho in *; discriminate
     | try exact I; try (eexists; split; [eassumption|]);
       repeat match goal with E : c_phase _ = _ |- _ => rewrite E | E : c_kind _ = _ |- _ => rewrite E end;
       auto using serve_eqb_eq, Bool.eqb_prop ]).
Qed.

Lemma new_channel_registers : forall s h a s',
  step s (LNew h a) = Some s' -> table s' a = Some h /\ ch_addr (chans s' h) = a /\ ch_joined (chans s' h) = false.
Proof. intros s h a s' H. destruct (sp_wrote (step_sound H)) as (_ & -> & Ht). auto. Qed.

(* what HandleInvite is called with, read off the history: per delivered message
   the calls of [msg_calls] *)
Definition delivered_of (tr : list label) : list nat :=
  flat_map (fun l => match l with LDeliver (Msg cs) => msg_calls cs | _ => [] end) tr.

(* the property's side: every invite element of every delivered message, once, in order *)
Definition invites_in (cs : list child) : list nat :=
  flat_map (fun c => match c with CInvite i => [i] | _ => [] end) cs.
Definition invites_of (tr : list label) : list nat :=
  flat_map (fun l => match l with LDeliver (Msg cs) => invites_in cs | _ => [] end) tr.

Lemma invites_exact : forall tr s, exec tr = Some s -> cb_inv s = delivered_of tr.
Proof.
  intros tr s H.
  apply (invariant_hist _ _ step (fun h s => cb_inv s = delivered_of h) init) with (tr := tr); [reflexivity| |exact H].
  intros h s0 l s1 _ IH Hs. rewrite (sp_inv (step_sound Hs)), IH. unfold delivered_of. rewrite flat_map_app.
  cbn [flat_map]. rewrite app_nil_r. reflexivity.
Qed.

(* a message with at most one muc#user payload, whatever else it carries *)
Definition single_payload (cs : list child) : Prop := length (filter is_userx cs) <= 1.

Lemma no_userx : forall cs acc, filter is_userx cs = [] -> decoded cs acc = acc /\ invites_in cs = [].
Proof.
  induction cs as [|c r IH]; intros acc H; [split; reflexivity|].
  destruct c; cbn [filter is_userx] in H; try discriminate H; exact (IH acc H).
Qed.

(* the one muc#user payload decides: the children after it cannot change what
   was decoded, the children before it are skipped on both sides *)
Lemma msg_calls_single : forall cs, single_payload cs -> msg_calls cs = invites_in cs.
Proof.
  unfold single_payload, msg_calls. intros cs. generalize (@None nat).
  induction cs as [|c r IH]; intros acc Hl; [destruct acc; reflexivity|].
  destruct c; cbn [filter is_userx length decoded] in *; try exact (IH acc Hl).
  all: assert (Hr : filter is_userx r = []) by (destruct (filter is_userx r); [reflexivity|cbn [length] in Hl; lia]);
    rewrite (proj1 (no_userx r _ Hr)), ?Hr; unfold invites_in; cbn [flat_map app length repeat]; fold (invites_in r);
    rewrite (proj2 (no_userx r acc Hr)); reflexivity.
Qed.

Lemma delivered_single : forall tr,
  (forall cs, In (LDeliver (Msg cs)) tr -> single_payload cs) -> delivered_of tr = invites_of tr.
Proof.
  unfold delivered_of, invites_of. induction tr as [|l tr IH]; intros Hs; [reflexivity|].
  cbn [flat_map]. rewrite IH by (intros cs Hin; apply Hs; right; exact Hin). f_equal.
  destruct l as [| | | | | |[| | | |cs|]| | |]; try reflexivity.
  apply msg_calls_single. apply Hs. left. reflexivity.
Qed.

(* call k is in flight on Channel h (the reading of [idle]: no such k) *)
Definition inflight (s : state) (k : cid) (h : chid) : Prop :=
  exists c, calls s k = Some c /\ c_chan c = h /\ is_ret (c_phase c) = false.

Definition uniq (s : state) : Prop := forall h k1 k2, inflight s k1 h -> inflight s k2 h -> k1 = k2.

Record wf (s : state) : Prop := mkwf {
  wf_bound : forall k c, calls s k = Some c -> k < ncalls s;
  wf_jq : forall h k, In k (ch_jq (chans s h)) -> has_call s k KJoin h;
  wf_made : forall h, ch_made (chans s h) = true -> h < nchans s;
  wf_joined : forall h, ch_joined (chans s h) = true -> ch_made (chans s h) = true;
  wf_call : forall k c, calls s k = Some c -> ch_made (chans s (c_chan c)) = true;
  wf_table : forall a h, table s a = Some h -> ch_made (chans s h) = true /\ ch_addr (chans s h) = a;
  wf_uniq : uniq s }.

Lemma wf_init : wf init.
Proof.
  constructor; cbn; intros; try discriminate; try contradiction.
  intros h k1 k2 (c & Hc & _). discriminate Hc.
Qed.

Lemma step_call : forall s l s' k, wf s -> step s l = Some s' -> call_change s l k (calls s k) (calls s' k).
Proof.
  intros s l s' k W H. apply (sp_call (step_sound H)).
  destruct (calls s (ncalls s)) as [c|] eqn:E; [|reflexivity]. apply (wf_bound _ W) in E. lia.
Qed.

Lemma step_calls_fwd : forall s l s' k c, wf s -> step s l = Some s' -> calls s k = Some c ->
  has_call s' k (c_kind c) (c_chan c).
Proof.
  intros s l s' k c W H Hc. unfold has_call. generalize (step_call s l s' k W H). rewrite Hc. generalize (calls s' k).
  intros oc CC. inversion CC; subst; eexists; (split; [reflexivity|split; reflexivity]).
Qed.

Lemma step_calls_back : forall s l s' k c', wf s -> step s l = Some s' -> calls s' k = Some c' ->
  (exists c, calls s k = Some c /\ c_kind c' = c_kind c /\ c_chan c' = c_chan c) \/
  (l = LCall k (c_kind c') (c_chan c') /\ k = ncalls s /\ idle s (c_chan c') = true /\ ch_made (chans s (c_chan c')) = true).
Proof.
  intros s l s' k c' W H Hc. generalize (step_call s l s' k W H). rewrite Hc. generalize (calls s k).
  intros oc CC. inversion CC; subst; try (left; eexists; split; [reflexivity|split; reflexivity]).
  right. auto.
Qed.

Lemma step_chan_addr : forall s l s' x, step s l = Some s' ->
  (ch_made (chans s' x) = ch_made (chans s x) /\ ch_addr (chans s' x) = ch_addr (chans s x)) \/
  (x = nchans s /\ l = LNew x (ch_addr (chans s' x))).
Proof.
  intros s l s' x H. destruct (sp_chan (step_sound H) x); try (left; split; reflexivity). right. auto.
Qed.

Lemma idle_spec : forall s h k, wf s -> idle s h = true -> ~ inflight s k h.
Proof.
  intros s h k W Hi (c & Hc & Ha & Hp). unfold idle in Hi. rewrite forallb_forall in Hi.
  specialize (Hi k). rewrite Hc, Ha, Nat.eqb_refl, Hp in Hi. discriminate Hi.
  apply in_seq. pose proof (wf_bound _ W _ _ Hc). lia.
Qed.

Lemma ret_permanent_step : forall s l s' k c, wf s ->
  step s l = Some s' -> calls s k = Some c -> is_ret (c_phase c) = true ->
  exists c', calls s' k = Some c' /\ is_ret (c_phase c') = true.
Proof.
  intros s l s' k c W H Hc Hp. generalize (step_call s l s' k W H). rewrite Hc. generalize (calls s' k).
  intros oc CC. inversion CC; subst; try congruence; eexists; (split; [reflexivity|exact Hp]).
Qed.

Lemma step_inflight_back : forall s l s' k h, wf s -> step s l = Some s' -> inflight s' k h ->
  inflight s k h \/ k = ncalls s /\ idle s h = true.
Proof.
  intros s l s' k h W H (c' & Hc & <- & Hp).
  destruct (step_calls_back _ _ _ _ _ W H Hc) as [(c & Hc0 & _ & Ha)|(_ & Hk & Hi & _)]; [left|right; auto].
  exists c. split; [exact Hc0|split; [auto|]]. destruct (is_ret (c_phase c)) eqn:E; [|reflexivity].
  destruct (ret_permanent_step _ _ _ _ _ W H Hc0 E) as (c1 & Hc1 & Hp1). congruence.
Qed.

Lemma uniq_step : forall s l s', wf s -> step s l = Some s' -> uniq s'.
Proof.
  intros s l s' W H h k1 k2 I1 I2.
  destruct (step_inflight_back _ _ _ _ _ W H I1) as [J1|[-> Hi1]];
  destruct (step_inflight_back _ _ _ _ _ W H I2) as [J2|[-> Hi2]].
  - exact (wf_uniq _ W h k1 k2 J1 J2).
  - destruct (idle_spec _ _ _ W Hi2 J1).
  - destruct (idle_spec _ _ _ W Hi1 J2).
  - reflexivity.
Qed.

Lemma wf_step : forall s l s', wf s -> step s l = Some s' -> wf s'.
Proof.
  intros s l s' W H. destruct (step_sound H) as [_ Hchan _ Htab Hn Hm _ Hw _ _].
  assert (Hmade : forall x, ch_made (chans s x) = true ->
            ch_made (chans s' x) = true /\ ch_addr (chans s' x) = ch_addr (chans s x)).
  { intros x Hx. destruct (step_chan_addr s l s' x H) as [[-> ->]|[-> _]]; [auto|].
    apply (wf_made _ W) in Hx. lia. }
  constructor.
  - intros k c' Hc'. rewrite Hn. destruct (step_calls_back s l s' k c' W H Hc') as [(c & Hc & _)|(-> & -> & _)]; [|lia].
    apply (wf_bound _ W) in Hc. destruct l; auto with arith.
  - intros h k Hin.
    assert (Hold : has_call s k KJoin h).
    { pose proof (wf_jq _ W h k) as Wq. revert Hin.
      destruct (Hchan h) as [ | | | k0 c0 _ Hc0 Hk0 Ha0 | k0 y r _ Eq | k0 r Eq | | | | ];
        cbn [ch_jq with_jq with_dep with_joined departed]; intro Hin; try exact (Wq Hin).
      - destruct Hin.
      - apply in_app_or in Hin. destruct Hin as [Hin|[<-|[]]]; [exact (Wq Hin)|exists c0; auto].
      - apply Wq. rewrite Eq. destruct Hin as [<-|Hin]; [left; reflexivity|right; exact (In_remove_id _ _ _ Hin)].
      - apply Wq. rewrite Eq. right. exact Hin. }
    destruct Hold as (c & Hc & <- & <-). exact (step_calls_fwd s l s' k c W H Hc).
  - intros h Hh. rewrite Hm. destruct (step_chan_addr s l s' h H) as [[Em _]|[-> ->]]; [|lia].
    rewrite Em in Hh. apply (wf_made _ W) in Hh. destruct l; auto with arith.
  - intros h. pose proof (wf_joined _ W h) as Wj.
    destruct (Hchan h) as [ | | | | | | | k0 c0 _ Hc0 <- | | ];
      cbn [ch_joined ch_made with_jq with_dep with_joined departed]; intro Hj; try discriminate Hj; try exact (Wj Hj).
    exact (wf_call _ W _ _ Hc0).
  - intros k c' Hc'. destruct (step_calls_back s l s' k c' W H Hc') as [(c & Hc & _ & ->)|(_ & _ & _ & Hh)].
    + exact (proj1 (Hmade _ (wf_call _ W _ _ Hc))).
    + exact (proj1 (Hmade _ Hh)).
  - intros a h. destruct (Htab a) as [ |h0 ->|k0 h0 _ Hh ->| ]; intro Ht.
    + destruct (wf_table _ W _ _ Ht) as [Hh <-]. exact (Hmade h Hh).
    + injection Ht as ->. destruct Hw as (_ & -> & _). split; reflexivity.
    + injection Ht as ->. exact (Hmade h Hh).
    + discriminate Ht.
  - exact (uniq_step s l s' W H).
Qed.

Lemma wf_exec : forall tr s, exec tr = Some s -> wf s.
Proof. exact (invariant_run _ _ step wf init wf_init wf_step). Qed.

Definition waiting_leave (s : state) (k : cid) (h : chid) : Prop :=
  exists c, calls s k = Some c /\ c_kind c = KLeave /\ c_phase c = PWait /\ c_chan c = h.

Lemma step_leave_wait : forall s l s' k h, wf s -> step s l = Some s' -> waiting_leave s' k h ->
  waiting_leave s k h \/ l = LCall k KLeave h.
Proof.
  intros s l s' k h W H (c' & Hc & Hk & Hp & <-). unfold waiting_leave.
  generalize (step_call s l s' k W H). rewrite Hc. generalize (calls s k).
  intros oc CC. inversion CC as [ |kd h0 Hl|c p Hq| | | ]; subst; try discriminate Hp;
    try (left; eexists; split; [reflexivity|auto]).
  - right. cbn [c_kind] in Hk. rewrite Hk. reflexivity.
  - cbn [c_kind with_phase] in Hk. rewrite Hk in Hq. discriminate Hq.
Qed.

Lemma waiting_leave_kept : forall s l s' k h, wf s -> step s l = Some s' -> waiting_leave s k h ->
  (forall o, l <> LRet k o) -> waiting_leave s' k h.
Proof.
  intros s l s' k h W H (c & Hc & Hk & Hp & <-) Hl. unfold waiting_leave.
  generalize (step_call s l s' k W H). rewrite Hc. generalize (calls s' k).
  intros oc CC. inversion CC as [ | |? ? Hq| | |? o]; subst.
  2: (* cc_advance: k is a Leave *) congruence.
  4: (* cc_ret *) exfalso; exact (Hl o eq_refl).
  all: eexists; (split; [reflexivity|auto]).
Qed.

Lemma departure_kept : forall s l s' k c,
  wf s -> step s l = Some s' ->
  calls s k = Some c -> c_kind c = KLeave -> c_phase c = PWait -> ch_dep (chans s (c_chan c)) = true ->
  (forall o, l <> LRet k o) ->
  ch_dep (chans s' (c_chan c)) = true /\
  exists c', calls s' k = Some c' /\ c_kind c' = KLeave /\ c_phase c' = PWait /\ c_chan c' = c_chan c.
Proof.
  intros s l s' k c W H Hc Hk Hp Hd Hl.
  assert (Hfl : inflight s k (c_chan c)) by (exists c; rewrite Hp; auto).
  split; [|apply (waiting_leave_kept s l s' k _ W H); [exists c|]; auto].
  destruct (sp_chan (step_sound H) (c_chan c)) as [ |a _ Hx|k0 _ Hi| | | | | |k0 c0 -> Hc0 Ha0 Hp0| ];
    cbn [ch_dep with_jq with_dep with_joined departed]; try assumption; try reflexivity; exfalso.
  - (* a new Channel: not the one of k *)
    pose proof (wf_made _ W _ (wf_call _ W _ _ Hc)). lia.
  - (* a Leave starts on the same Channel: k is in flight there *)
    exact (idle_spec _ _ _ W Hi Hfl).
  - (* another Leave takes the notification: it would be in flight on the same Channel *)
    apply (Hl OSuccess). f_equal. symmetry. apply (wf_uniq _ W _ _ _ Hfl). exists c0. rewrite Hp0. auto.
Qed.

(* The property's membership window, read off a history alone. The history also
   tells which Channel has which address (LNew) and which Channel is registered
   for an address (LNew, LCall _ KJoin _: last wins; the unavailable presence
   removes the entry).
   [strict = true], the property: a Channel is a member from the return of a
   successful join on it until the unavailable presence of ITS ADDRESS is handled.
   [strict = false], the code: ... until the unavailable presence of its address
   is handled WHILE IT IS THE REGISTERED Channel (a Channel that another one has
   replaced in the table does not see it), or a Leave on it returns the room's
   error (kept because the test suite demands it). *)
Record mspec := mkms {
  ms_call : cid -> option (kind * chid); ms_addr : chid -> addr;
  ms_table : addr -> option chid; ms_mem : chid -> bool }.

Definition ms0 : mspec := mkms (fun _ => None) (fun _ => 0) (fun _ => None) (fun _ => false).

Definition fset {A : Type} (f : nat -> A) (x : nat) (v : A) : nat -> A :=
  fun y => if Nat.eqb y x then v else f y.

Definition mstep (strict : bool) (m : mspec) (l : label) : mspec :=
  match l with
  | LNew h a => mkms (ms_call m) (fset (ms_addr m) h a) (fset (ms_table m) a (Some h)) (ms_mem m)
  | LCall k kd h =>
      mkms (fset (ms_call m) k (Some (kd, h))) (ms_addr m)
           (match kd with
            | KJoin => fset (ms_table m) (ms_addr m h) (Some h)
            | KLeave => ms_table m
            end) (ms_mem m)
  | LRet k OSuccess =>
      match ms_call m k with
      | Some (KJoin, h) => mkms (ms_call m) (ms_addr m) (ms_table m) (fset (ms_mem m) h true)
      | _ => m
      end
  | LRet k OStanzaErr =>
      if strict then m else
      match ms_call m k with
      | Some (KLeave, h) => mkms (ms_call m) (ms_addr m) (ms_table m) (fset (ms_mem m) h false)
      | _ => m
      end
  | LDeliver (PresUnavail a) =>
      if strict
      then mkms (ms_call m) (ms_addr m) (fset (ms_table m) a None)
                (fun h => if Nat.eqb (ms_addr m h) a then false else ms_mem m h)
      else match ms_table m a with
           | Some h => mkms (ms_call m) (ms_addr m) (fset (ms_table m) a None) (fset (ms_mem m) h false)
           | None => m
           end
  | _ => m
  end.

Definition member_window (tr : list label) (h : chid) : bool := ms_mem (fold_left (mstep true) tr ms0) h.
Definition member_impl (tr : list label) (h : chid) : bool := ms_mem (fold_left (mstep false) tr ms0) h.

(* the deviations: a refused Leave ends membership ... *)
Definition refute_trace : list label :=
  [LNew 0 0; LCall 0 KJoin 0; LPush 0; LPushed 0; LDeliver (PresAvail 0); LRet 0 OSuccess;
   LCall 1 KLeave 0; LDeliver (ErrReply 1); LRet 1 OStanzaErr].

(* ... and a Channel replaced in the table by a second Client.Join for its address
   does not see the occupant's unavailable presence: it stays a member *)
Definition orphan_trace : list label :=
  [LNew 0 0; LCall 0 KJoin 0; LPush 0; LPushed 0; LDeliver (PresAvail 0); LRet 0 OSuccess;
   LNew 1 0; LDeliver (PresUnavail 0)].

Definition info (c : call) : kind * chid := (c_kind c, c_chan c).

Definition agree (h : chid) (m : mspec) (s : state) : Prop :=
  (forall k, ms_call m k = option_map info (calls s k)) /\
  (forall x, ms_addr m x = ch_addr (chans s x)) /\
  (forall a, ms_table m a = table s a) /\
  ch_joined (chans s h) = ms_mem m h.

(* the labels [mstep false] does not look at leave the four tracked components alone *)
Definition untracked (l : label) : Prop :=
  match l with
  | LNew _ _ | LCall _ _ _ | LRet _ OSuccess | LRet _ OStanzaErr | LDeliver (PresUnavail _) => False
  | _ => True
  end.

Lemma agree_frame : forall h m s l s', wf s -> step s l = Some s' -> untracked l -> agree h m s -> agree h m s'.
Proof.
  intros h m s l s' W H Hu (Hc & Ha & Ht & Hj). repeat split.
  - intros k. rewrite Hc. generalize (step_call s l s' k W H). generalize (calls s k) (calls s' k).
    intros oc oc' CC. inversion CC; subst; try reflexivity. destruct Hu.
  - intros x. rewrite Ha. destruct (step_chan_addr s l s' x H) as [[_ ->]|[_ ->]]; [reflexivity|destruct Hu].
  - intros a. rewrite Ht. destruct (sp_table (step_sound H) a); subst; try reflexivity; destruct Hu.
  - rewrite <- Hj. destruct (sp_chan (step_sound H) h); subst; try reflexivity; destruct Hu.
Qed.

(* The property's step [mstep true] differs from the code's at two labels: the
   refused Leave (the property keeps the member) and the unavailable presence
   (the property ends the membership of every Channel of the address, registered
   or not). A step spares Channel h if neither deviation touches it: no Leave on
   h is refused, and h, if it is a member with the address of the unavailable
   presence, is the registered Channel. *)
Definition spares (s : state) (l : label) (h : chid) : Prop :=
  (forall k c, l = LRet k OStanzaErr -> calls s k = Some c -> c_kind c = KLeave -> c_chan c <> h) /\
  (forall a, l = LDeliver (PresUnavail a) -> ch_addr (chans s h) = a -> ch_joined (chans s h) = true -> table s a = Some h).

Ltac rew_calls :=
  repeat match goal with
  | E : calls ?s ?k = Some _ |- context [calls ?s ?k] => rewrite E
  | E : c_kind ?c = _ |- context [c_kind ?c] => rewrite E
  | E : table ?s ?a = _ |- context [table ?s ?a] => rewrite E
  end.

(* The four components [mspec] tracks evolve by the code's [mstep false], and at
   a step that spares h by the property's [mstep true] as well. For the labels
   [mstep] looks at the state after the step is computed; what is left is the
   membership of h at a new Channel and where the property's step deviates. *)
Lemma mstep_sound : forall strict h m s l s', wf s -> agree h m s -> step s l = Some s' ->
  (strict = true -> spares s l h) -> agree h (mstep strict m l) s'.
Proof.
  intros b h m s l s' W A H Hsp. pose proof (fun Hu => agree_frame h m s l s' W H Hu A) as F.
  destruct l as [hn an|k kd a|k|k|k [| | |]|k|[a|a|k|a|cs|]|  |k|a b0]; cbn [mstep]; try exact (F I).
  all: clear F; destruct A as (Hc & Ha & Ht & Hj); step_leaves H;
  try (match goal with E : calls _ ?k = Some _ |- context [ms_call _ ?k] => rewrite (Hc k), E; cbn [option_map info] end);
  try (match goal with E : table _ ?a = _ |- context [ms_table _ ?a] => rewrite (Ht a), E end);
  try (match goal with |- context [if ?x then _ else _] => is_var x; destruct x end);
  (split; [intros kx|split; [intros hx|split; [intros ax|]]]);
  (* One component of [agree] after a computed step. Both sides are the old
     component updated at the same index: compute the component of the new state,
     rewrite the abstract side with the agreement, and decide the index comparisons. *)
  try (solve [rew_calls;
              cbn [calls chans table set_call add_call set_chan add_chan set_table set_srv];
              unfold fset; cbn [ms_call ms_addr ms_table ms_mem];
              rewrite ?Hc, ?Ha, ?Ht, <- ?Hj;
              repeat match goal with |- context [Nat.eqb ?a ?b] => destruct (Nat.eqb_spec a b) as [->|?] end;
              rew_calls; reflexivity]).
  all: cbn [chans set_chan set_table add_chan ms_mem]; rewrite ?Ha, <- ?Hj.
  - (* a new Channel: it was not joined *)
    destruct (Nat.eqb_spec h (nchans s)) as [->|_]; [|reflexivity]. cbn [ch_joined].
    destruct (ch_joined (chans s (nchans s))) eqn:Ej; [|reflexivity]. apply (wf_joined _ W), (wf_made _ W) in Ej. lia.
  - (* the property keeps the member when a Leave is refused: that Leave is on another Channel *)
    destruct (Nat.eqb_spec h (c_chan c)) as [->|_]; [|reflexivity].
    match goal with Ec : calls s k = Some c, Ek : c_kind c = KLeave |- _ =>
      destruct (proj1 (Hsp eq_refl) k c eq_refl Ec Ek eq_refl) end.
  - (* the registered Channel has the address ... *)
    match goal with Et : table s a = Some ?h0 |- _ =>
      destruct (Nat.eqb_spec h h0) as [->|Hne]; [rewrite (proj2 (wf_table _ W _ _ Et)), Nat.eqb_refl; reflexivity|] end.
    (* ... and another Channel of the address is no member: it would be the registered one *)
    destruct (Nat.eqb_spec (ch_addr (chans s h)) a) as [Ea|_]; [|reflexivity].
    apply Bool.not_true_is_false. intro Ej. pose proof (proj2 (Hsp eq_refl) a eq_refl Ea Ej). congruence.
  - destruct (Nat.eqb_spec (ch_addr (chans s' h)) a) as [Ea|_]; [|reflexivity].
    apply Bool.not_true_is_false. intro Ej. pose proof (proj2 (Hsp eq_refl) a eq_refl Ea Ej). congruence.
Qed.

Definition spared (tr : list label) (h : chid) : Prop :=
  forall t1 l t2 s1, tr = t1 ++ l :: t2 -> exec t1 = Some s1 -> spares s1 l h.

(* what the history determines of the state: the four components [mspec] tracks,
   read off by the code's fold, and by the property's if every step spared h *)
Lemma agree_exec : forall strict h tr s, exec tr = Some s -> (strict = true -> spared tr h) ->
  agree h (fold_left (mstep strict) tr ms0) s.
Proof.
  intros b h.
  apply (invariant_hist _ _ step (fun tr s => (b = true -> spared tr h) -> agree h (fold_left (mstep b) tr ms0) s) init).
  - repeat split; reflexivity.
  - intros tr s l s' Hex A H Hsp. rewrite fold_left_app.
    apply (mstep_sound b _ _ _ _ _ (wf_exec _ _ Hex)); [apply A|exact H|].
    + intros Eb t1 l0 t2 s1 ->. apply (Hsp Eb t1 l0 (t2 ++ [l])). rewrite <- app_assoc. reflexivity.
    + intros Eb. exact (Hsp Eb tr l [] s eq_refl Hex).
Qed.

Lemma membership_impl : forall tr s h, exec tr = Some s -> ch_joined (chans s h) = member_impl tr h.
Proof. intros tr s h H. destruct (agree_exec false h tr s H) as (_ & _ & _ & Hj); [discriminate|exact Hj]. Qed.

(* A Channel is never "orphaned" in a history if, whenever the unavailable presence of its
   address is handled while it is a member, it is the registered Channel. *)
Definition never_orphaned (tr : list label) (h : chid) : Prop :=
  forall t1 t2 a s1, tr = t1 ++ LDeliver (PresUnavail a) :: t2 -> exec t1 = Some s1 ->
  ch_addr (chans s1 h) = a -> ch_joined (chans s1 h) = true -> table s1 a = Some h.

(* a computable check of [never_orphaned] for concrete histories *)
Fixpoint never_orphaned_b (s : state) (tr : list label) (h : chid) : bool :=
  match tr with
  | [] => true
  | l :: r =>
      (match l with
       | LDeliver (PresUnavail a) =>
           if Nat.eqb (ch_addr (chans s h)) a && ch_joined (chans s h)
           then match table s a with Some h' => Nat.eqb h' h | None => false end
           else true
       | _ => true
       end) &&
      match step s l with Some s' => never_orphaned_b s' r h | None => true end
  end.

Lemma never_orphaned_b_sound : forall tr h, never_orphaned_b init tr h = true -> never_orphaned tr h.
Proof.
  intros tr h Hb t1 t2 a s1 Htr Hex Ha Hj. unfold exec in Hex. subst tr.
  revert Hb Hex. generalize init. induction t1 as [|l t1 IH]; intros s0 Hb Hex.
  - cbn [run] in Hex. injection Hex as <-. cbn [app never_orphaned_b] in Hb.
    apply andb_true_iff in Hb. destruct Hb as [Hb _].
    rewrite Ha, Nat.eqb_refl, Hj in Hb. cbn [andb] in Hb.
    destruct (table s0 a) as [h'|]; [|discriminate Hb]. apply Nat.eqb_eq in Hb. subst h'. reflexivity.
  - cbn [run] in Hex. destruct (step s0 l) as [s'|] eqn:Hs; [|discriminate Hex].
    cbn [app never_orphaned_b] in Hb. apply andb_true_iff in Hb. destruct Hb as [_ Hb]. rewrite Hs in Hb.
    exact (IH s' Hb Hex).
Qed.

Lemma step_dep : forall s l s' h, step s l = Some s' -> ch_dep (chans s' h) = true ->
  ch_dep (chans s h) = true \/ exists a, l = LDeliver (PresUnavail a) /\ table s a = Some h.
Proof.
  intros s l s' h H. destruct (sp_chan (step_sound H) h);
    cbn [ch_dep with_jq with_dep with_joined departed]; intro Hd; try discriminate Hd; eauto.
Qed.

(* What the state remembers of the history. Each fact is an instance of
   [caused_by] or of [persistence] (lib/Lts.v); its proof is the one-step argument
   "where can this come from", mostly an inversion of one of the four relations. *)

Lemma call_was_made : forall k kd h,
  caused_by step init (fun s => has_call s k kd h) (fun _ l => l = LCall k kd h) (fun _ => True).
Proof.
  intros k kd h. apply provenance.
  - intros (c & Hc & _). discriminate Hc.
  - intros h0 s l s' Hr Hs (c' & Hc' & <- & <-).
    destruct (step_calls_back _ _ _ _ _ (wf_exec _ _ Hr) Hs Hc') as [(c & Hc & -> & ->)|(-> & _)]; [left|right; reflexivity].
    split; [exists c; auto|exact I].
Qed.

Lemma made_call_exists : forall tr s k kd h, exec tr = Some s -> In (LCall k kd h) tr -> has_call s k kd h.
Proof.
  intros tr s k kd h. apply (persistence step init (fun s => has_call s k kd h)).
  - intros s0 s' Hs. exact (proj1 (sp_wrote (step_sound Hs))).
  - intros h0 s0 l s' Hr Hs (c & Hc & <- & <-). exact (step_calls_fwd _ _ _ _ _ (wf_exec _ _ Hr) Hs Hc).
Qed.

(* The handler is inside the handling of a presence it looked up for Channel h:
   it offers to a join context of h. (Said without asking that the call offered
   to exists; where that matters [wf_jq] gives it.) *)
Definition offers_to (s : state) (h : chid) : Prop :=
  exists k, srv s = SOffer k /\ forall c, calls s k = Some c -> c_chan c = h.

(* It comes to offer to a context of h by looking up an available presence
   while h is the registered Channel; after that it only passes from one
   context of h's buffer to the next (LSeeDone), and while it offers no Channel
   is made or registered and nothing is delivered. *)
Lemma offer_from : forall s l s' h, wf s -> step s l = Some s' -> offers_to s' h ->
  offers_to s h /\ quiet l \/ exists a, l = LDeliver (PresAvail a) /\ table s a = Some h.
Proof.
  intros s l s' h W Hs (k & Ho & Hch).
  assert (Hk : forall c, calls s k = Some c -> c_chan c = h).
  { intros c Hc. destruct (step_calls_fwd _ _ _ _ _ W Hs Hc) as (c' & Hc' & _ & <-). exact (Hch c' Hc'). }
  assert (Hhead : forall x r, ch_jq (chans s x) = k :: r -> x = h).
  { intros x r Eq. destruct (wf_jq _ W x k) as (c & Hc & _ & <-); [rewrite Eq; left; reflexivity|exact (Hk c Hc)]. }
  generalize (sp_srv (step_sound Hs)). rewrite Ho. intro CS.
  inversion CS as [Hs0|a hh k1 r Hl Ht Hq|k0 c0 k1 r Hl Hs0 Hc0 Hq| | | ]; subst.
  - (* the same offer goes on *)
    left. split; [exists k; auto|exact (sp_quiet (step_sound Hs) Hs0)].
  - (* the presence is looked up: k heads the buffer of the registered Channel *)
    right. exists a. split; [reflexivity|]. rewrite Ht. f_equal. exact (Hhead _ _ Hq).
  - (* the context offered to was done: the next one of the same Channel, within the same presence *)
    left. split; [|exact I]. exists k0. split; [exact Hs0|].
    intros c Hc. rewrite Hc0 in Hc. injection Hc as <-. exact (Hhead _ _ Hq).
Qed.

Lemma offer_since_presence : forall h,
  caused_by step init (fun s => offers_to s h)
    (fun s l => exists a, l = LDeliver (PresAvail a) /\ table s a = Some h) quiet.
Proof.
  intros h. apply provenance.
  - intros (k & Hs & _). discriminate Hs.
  - intros h0 s l s' Hr. exact (offer_from s l s' h (wf_exec _ _ Hr)).
Qed.

(* Serve waits for the request sender of k only after the error reply to k,
   which was handled when k was a call *)
Lemma await_after_reply : forall k,
  caused_by step init (fun s => srv s = SAwait k)
    (fun s l => l = LDeliver (ErrReply k) /\ exists c, calls s k = Some c) (fun _ => True).
Proof.
  intros k. apply provenance; [discriminate|].
  intros h0 s l s' _ Hs HP. generalize (sp_srv (step_sound Hs)). rewrite HP. intro CS.
  inversion CS as [Hs0| | |k0 c0 Hl Hc0| | ].
  - left. split; [auto|exact I].
  - right. eauto.
Qed.

(* a context is done only by cancellation or by the return of its call *)
Lemma done_by_cancel : forall k,
  caused_by step init (fun s => exists c, calls s k = Some c /\ c_done c = true /\ is_ret (c_phase c) = false)
    (fun _ l => l = LCancel k) (fun _ => True).
Proof.
  intros k. apply provenance.
  - intros (c & Hc & _). discriminate Hc.
  - intros h0 s l s' Hr Hs (c' & Hc' & Hd & Hp).
    generalize (step_call s l s' k (wf_exec _ _ Hr) Hs). rewrite Hc'. generalize (calls s k).
    intros oc CC. inversion CC; subst;
      try discriminate; try (right; reflexivity); left; (split; [|exact I]); eexists; (split; [reflexivity|]); auto.
Qed.

Lemma returned_for_good : forall tr s k o, exec tr = Some s -> In (LRet k o) tr ->
  exists c, calls s k = Some c /\ is_ret (c_phase c) = true.
Proof.
  intros tr s k o. apply (persistence step init (fun s => exists c, calls s k = Some c /\ is_ret (c_phase c) = true)).
  - intros s0 s' Hs. exact (sp_wrote (step_sound Hs)).
  - intros h0 s0 l s' Hr Hs (c & Hc & Hp). exact (ret_permanent_step _ _ _ _ _ (wf_exec _ _ Hr) Hs Hc Hp).
Qed.

(* a kept notification for a waiting Leave comes from the unavailable presence
   of an address for which its Channel was the registered one, handled after the
   call started *)
Lemma departure_notified : forall k h,
  caused_by step init (fun s => waiting_leave s k h /\ ch_dep (chans s h) = true)
    (fun s l => exists a, l = LDeliver (PresUnavail a) /\ table s a = Some h /\ has_call s k KLeave h) (fun _ => True).
Proof.
  intros k h. apply provenance.
  - intros [(c & Hc & _) _]. discriminate Hc.
  - intros h0 s l s' Hr Hs [Hw' Hd].
    destruct (step_leave_wait _ _ _ _ _ (wf_exec _ _ Hr) Hs Hw') as [Hw|Hl].
    + destruct (step_dep _ _ _ _ Hs Hd) as [Hd0|(a & Hl & Ht)]; [left; auto|right].
      destruct Hw as (c & Hc & Hk & _ & Ha). exists a. repeat split; try assumption. exists c. auto.
    + (* the call has just started: it dropped any stale notification *)
      subst l. rewrite (proj2 (sp_wrote (step_sound Hs))) in Hd. discriminate Hd.
Qed.

Lemma channel_was_made : forall x a,
  caused_by step init (fun s => ch_made (chans s x) = true /\ ch_addr (chans s x) = a) (fun _ l => l = LNew x a) (fun _ => True).
Proof.
  intros x a. apply provenance.
  - intros [Hm _]. discriminate Hm.
  - intros h0 s l s' _ Hs [Hm <-].
    destruct (step_chan_addr s l s' x Hs) as [[<- <-]|[_ ->]]; [left; repeat split; auto|right; reflexivity].
Qed.

(* on a history without a refused Leave on h and on which h is never orphaned
   every step spares h (the refused call would have its LCall in the history) *)
Lemma window_spared : forall tr h,
  (forall k, In (LRet k OStanzaErr) tr -> ~ In (LCall k KLeave h) tr) -> never_orphaned tr h -> spared tr h.
Proof.
  intros tr h Hfree Horph t1 l t2 s1 -> Hex. split.
  - intros k c -> Hc Hk Ha. apply (Hfree k); apply in_or_app; [right; left; reflexivity|left].
    apply (caused_In (call_was_made k _ _) t1 s1 Hex). exists c. auto.
  - intros a ->. exact (Horph t1 t2 a s1 eq_refl Hex).
Qed.

Lemma entry_needs_channel : forall tr s a h, exec tr = Some s -> table s a = Some h -> In (LNew h a) tr.
Proof.
  intros tr s a h H Ht. apply (caused_In (channel_was_made h a) tr s H).
  exact (wf_table _ (wf_exec tr s H) _ _ Ht).
Qed.

(* What a stanza that reaches a waiting call enables, in any state (reachable
   or not): the returns it allows and those it excludes. *)
Lemma error_reply_returned : forall s k c,
  srv s = SIdle -> calls s k = Some c -> c_phase c = PWait -> c_done c = false -> c_replied c = false ->
  exists s1 s2,
    step s (LDeliver (ErrReply k)) = Some s1 /\
    step s1 (LRet k OStanzaErr) = Some s2 /\
    step s1 (LRet k OCtxErr) = None /\
    (c_kind c = KJoin -> step s1 (LRet k OSuccess) = None).
Proof.
  intros s k c Hs Hc Hp Hd Hr.
  eexists. eexists. split; [|split; [|split]].
  - cbn [step]. rewrite Hs. cbn [deliver]. rewrite Hc, Hp, Hd, Hr. cbn [negb andb]. reflexivity.
  - cbn [step]. simp_state. rewrite Nat.eqb_refl. unfold ret. simp_state. rewrite Hp. cbn [serve_eqb]. rewrite Nat.eqb_refl.
    reflexivity.
  - cbn [step]. simp_state. rewrite Nat.eqb_refl. unfold ret. simp_state. rewrite Hd. reflexivity.
  - intros Hk. cbn [step]. simp_state. rewrite Nat.eqb_refl. unfold ret. simp_state. rewrite Hp, Hk. reflexivity.
Qed.

Lemma self_presence_completes_join : forall s k c a h rest,
  srv s = SIdle -> table s a = Some h -> ch_jq (chans s h) = k :: rest ->
  calls s k = Some c -> c_kind c = KJoin -> c_chan c = h -> c_phase c = PWait -> c_done c = false ->
  exists s1 s2,
    step s (LDeliver (PresAvail a)) = Some s1 /\
    step s1 (LRet k OSuccess) = Some s2 /\
    ch_joined (chans s2 h) = true /\
    step s1 (LRet k OCtxErr) = None /\
    step s1 (LRet k OStanzaErr) = None.
Proof.
  intros s k c a h rest Hs He Hq Hc Hk Ha Hp Hd.
  eexists. eexists. split; [|split; [|split; [|split]]].
  - cbn [step]. rewrite Hs. cbn [deliver]. rewrite He. unfold take. rewrite Hq. reflexivity.
  - cbn [step]. simp_state. rewrite Hc. unfold ret. simp_state. rewrite Hp, Hk. cbn [serve_eqb]. rewrite Nat.eqb_refl.
    reflexivity.
  - simp_state. rewrite Ha, Nat.eqb_refl. reflexivity.
  - cbn [step]. simp_state. rewrite Hc. unfold ret. rewrite Hd. reflexivity.
  - cbn [step]. simp_state. rewrite Hc. unfold ret. rewrite Hp. reflexivity.
Qed.

Lemma stale_context_skipped : forall s k0 c0 k c a h rest,
  srv s = SIdle -> table s a = Some h -> ch_jq (chans s h) = k0 :: k :: rest ->
  calls s k0 = Some c0 -> c_done c0 = true -> c_chan c0 = h ->
  calls s k = Some c -> c_kind c = KJoin -> c_chan c = h -> c_phase c = PQueued ->
  k <> k0 -> mem k rest = false ->
  exists s1 s2 s3 s4,
    step s (LDeliver (PresAvail a)) = Some s1 /\ step s1 (LPushed k) = Some s2 /\
    step s2 LSeeDone = Some s3 /\ step s3 (LRet k OSuccess) = Some s4 /\
    ch_joined (chans s4 h) = true /\ cb_pres s4 = cb_pres s.
Proof.
  intros s k0 c0 k c a h rest Hs He Hq Hc0 Hd0 Ha0 Hc Hk Ha Hp Hne Hm.
  assert (E1 : Nat.eqb k0 k = false) by (apply Nat.eqb_neq; auto).
  do 4 eexists. split; [|split; [|split; [|split; [|split]]]].
  - cbn [step]. rewrite Hs. cbn [deliver]. rewrite He. unfold take. rewrite Hq. reflexivity.
  - cbn [step]. simp_state. rewrite Hc, Hk, Hp, Ha, Nat.eqb_refl. simp_state. cbn [tl]. rewrite Hm. reflexivity.
  - cbn [step]. simp_state. rewrite E1, Hc0, Hd0, Ha0. unfold take. simp_state. rewrite Nat.eqb_refl. simp_state. reflexivity.
  - cbn [step]. simp_state. rewrite Nat.eqb_refl. unfold ret. simp_state. cbn [serve_eqb]. rewrite Hk, Nat.eqb_refl. reflexivity.
  - simp_state. rewrite Ha, Nat.eqb_refl. reflexivity.
  - reflexivity.
Qed.

Lemma unavailable_completes_leave : forall s k c a h,
  srv s = SIdle -> table s a = Some h ->
  calls s k = Some c -> c_kind c = KLeave -> c_chan c = h -> c_phase c = PWait ->
  exists s1 s2,
    step s (LDeliver (PresUnavail a)) = Some s1 /\
    ch_joined (chans s1 h) = false /\ table s1 a = None /\
    step s1 (LRet k OSuccess) = Some s2.
Proof.
  intros s k c a h Hs He Hc Hk Ha Hp.
  eexists. eexists. split; [|split; [|split]].
  - cbn [step]. rewrite Hs. cbn [deliver]. rewrite He. reflexivity.
  - simp_state. rewrite Nat.eqb_refl. reflexivity.
  - simp_state. rewrite Nat.eqb_refl. reflexivity.
  - cbn [step]. simp_state. rewrite Hc. unfold ret. simp_state. rewrite Hp, Hk, Ha, Nat.eqb_refl. simp_state. reflexivity.
Qed.

(* The model's ch_jq (a buffer of one join context, further publishers blocked)
   and ch_dep (one kept departure notification) are the channels the code makes;
   HandleClient registers the handler for exactly the stanzas [deliver] routes to
   it; Joined returns the membership flag. Regenerated from muc/muc.go and
   muc/room.go on every run (gen/Muc.v): a source edit breaks these. *)
Lemma tbl_join_capacity : muc_join_capacity = 1.
Proof. vm_compute. reflexivity. Qed.
Lemma tbl_depart_capacity : muc_depart_capacity = 1.
Proof. vm_compute. reflexivity. Qed.
Lemma tbl_registrations :
  muc_handles_available_presence && muc_handles_unavailable_presence && muc_handles_normal_message = true /\
  muc_registrations = 3.
Proof. vm_compute. split; reflexivity. Qed.
(* every registration is for the muc#user x payload and nothing wider: the
   multiplexer calls the client's handler once per muc#user x child ([is_userx])
   and never for an x of another namespace *)
Lemma tbl_patterns :
  muc_ns_user = str "http://jabber.org/protocol/muc#user" /\
  muc_patterns =
    [(str "Presence", str "AvailablePresence", muc_ns_user, str "x");
     (str "Presence", str "UnavailablePresence", muc_ns_user, str "x");
     (str "Message", str "NormalMessage", muc_ns_user, str "x")].
Proof. vm_compute. split; reflexivity. Qed.
(* HandlePresence consults the table and drops the presence of an address that
   is not managed BEFORE it decodes the payload ([deliver] on [PresBad]) *)
Lemma tbl_lookup_before_decode : muc_presence_lookup_before_decode = true.
Proof. vm_compute. reflexivity. Qed.
(* Channel.JoinPresence registers the Channel under the address of the request
   under no condition but those of the enclosing function body (the model's
   LCall _ KJoin h sets the table entry whatever the state of h) *)
Lemma tbl_join_registers_unconditionally : muc_join_registers_unconditionally = true.
Proof. vm_compute. reflexivity. Qed.
Lemma tbl_joined_returns_flag : muc_joined_returns_flag = true.
Proof. vm_compute. reflexivity. Qed.
