(* C18/Examples.v — non-vacuity: concrete, non-trivial instances of the
   hypotheses of every theorem of Properties.v, and the test-suite scenarios
   (muc_test.go) replayed through the model. *)
From Coq Require Import List.
Import ListNotations.
From XV Require Import C18.Model C18.Proofs.

Definition accepted (tr : list label) : bool := match exec tr with Some _ => true | None => false end.

(* Channel 0 is made for address 0 by the first Client.Join *)
Definition join0 : list label := [LNew 0 0; LCall 0 KJoin 0; LPush 0; LPushed 0].

(* TestJoinPartMuc: join, self-presence, leave, unavailable presence; Joined() true in between *)
Definition ex_join_part : list label :=
  join0 ++ [LDeliver (PresAvail 0); LRet 0 OSuccess; LQuery 0 true;
   LCall 1 KLeave 0; LDeliver (PresUnavail 0); LRet 1 OSuccess; LQuery 0 false].
Example ex_join_part_ok : accepted ex_join_part = true.
Proof. vm_compute. reflexivity. Qed.

(* TestJoinError *)
Definition ex_join_error : list label :=
  join0 ++ [LDeliver (ErrReply 0); LRet 0 OStanzaErr; LQuery 0 false].
Example ex_join_error_ok : accepted ex_join_error = true.
Proof. vm_compute. reflexivity. Qed.

(* TestPartError: Joined() is false after the refused Leave (the deviation) *)
Example ex_part_error_ok : accepted (refute_trace ++ [LQuery 0 false]) = true.
Proof. vm_compute. reflexivity. Qed.

(* TestJoinCancel: a context cancelled before the call publishes *)
Example ex_join_cancel_ok : accepted [LNew 0 0; LCall 0 KJoin 0; LCancel 0; LRet 0 OCtxErr] = true.
Proof. vm_compute. reflexivity. Qed.
Example ex_join_cancel_ok2 : accepted (join0 ++ [LCancel 0; LRet 0 OCtxErr]) = true.
Proof. vm_compute. reflexivity. Qed.

(* the model refuses what the property forbids *)
Example ex_no_success_without_presence : accepted (join0 ++ [LRet 0 OSuccess]) = false.
Proof. vm_compute. reflexivity. Qed.
Example ex_no_success_for_other_room : accepted (join0 ++ [LDeliver (PresAvail 1); LRet 0 OSuccess]) = false.
Proof. vm_compute. reflexivity. Qed.
Example ex_no_joined_before_success : accepted (join0 ++ [LQuery 0 true]) = false.
Proof. vm_compute. reflexivity. Qed.
Example ex_no_ctx_error_without_cancel : accepted (join0 ++ [LRet 0 OCtxErr]) = false.
Proof. vm_compute. reflexivity. Qed.
Example ex_no_second_return : accepted (ex_join_error ++ [LRet 0 OStanzaErr]) = false.
Proof. vm_compute. reflexivity. Qed.
Example ex_no_call_on_unmade_channel : accepted [LCall 0 KJoin 0] = false /\ accepted [LNew 1 0] = false.
Proof. vm_compute. split; reflexivity. Qed.

(* the departure handled before Leave reaches its select is kept (fix 69447fe) *)
Example ex_departure_kept : accepted
  (join0 ++ [LDeliver (PresAvail 0); LRet 0 OSuccess;
   LCall 1 KLeave 0; LDeliver (PresUnavail 0); LDeliver Other; LCancel 0; LRet 1 OSuccess]) = true.
Proof. vm_compute. reflexivity. Qed.

(* rejoin after leaving completes (fix 068232c), and a kick's stale notification is dropped *)
Example ex_rejoin : accepted
  (ex_join_part ++ [LCall 2 KJoin 0; LPush 2; LPushed 2; LDeliver (PresAvail 0); LRet 2 OSuccess; LQuery 0 true;
                    LDeliver (PresUnavail 0); LQuery 0 false; LCall 3 KJoin 0; LPush 3; LPushed 3;
                    LDeliver (PresAvail 0); LRet 3 OSuccess; LCall 4 KLeave 0; LQuery 0 true]) = true.
Proof. vm_compute. reflexivity. Qed.
Example ex_stale_notification_dropped : accepted
  (ex_join_part ++ [LCall 2 KJoin 0; LPush 2; LPushed 2; LDeliver (PresAvail 0); LRet 2 OSuccess;
                    LDeliver (PresUnavail 0); LCall 3 KJoin 0; LPush 3; LPushed 3;
                    LDeliver (PresAvail 0); LRet 3 OSuccess; LCall 4 KLeave 0; LRet 4 OSuccess]) = false.
Proof. vm_compute. reflexivity. Qed.

(* Channel 0 is joined; a second Client.Join for the same address (Channel 1) is given up; Channel 0
   re-synchronizes: its join call registers it again, the self-presence reaches it and the rejoin
   succeeds (seeded change C18-m11 breaks exactly this history) *)
Definition ex_second_join_given_up : list label :=
  join0 ++ [LDeliver (PresAvail 0); LRet 0 OSuccess;
            LNew 1 0; LCall 1 KJoin 1; LPush 1; LPushed 1; LCancel 1; LRet 1 OCtxErr; LQuery 0 true; LQuery 1 false].
Example ex_resync_after_second_join : accepted
  (ex_second_join_given_up ++ [LCall 2 KJoin 0; LPush 2; LPushed 2; LDeliver (PresAvail 0); LRet 2 OSuccess;
                               LQuery 0 true; LCall 3 KLeave 0; LDeliver (PresUnavail 0); LRet 3 OSuccess; LQuery 0 false]) = true.
Proof. vm_compute. reflexivity. Qed.
(* without the re-registration the presence would be taken by the abandoned Channel 1 (its stale
   context, then the callback): the model has no such run *)
Example ex_presence_not_to_abandoned_channel : accepted
  (ex_second_join_given_up ++ [LCall 2 KJoin 0; LPush 2; LPushed 2; LDeliver (PresAvail 0); LSeeDone]) = false.
Proof. vm_compute. reflexivity. Qed.
(* before Channel 0 re-registers, the room's presence does go to Channel 1: stale context, then callback *)
Example ex_presence_to_registered_channel :
  option_map cb_pres (exec (ex_second_join_given_up ++ [LDeliver (PresAvail 0); LSeeDone])) = Some [0].
Proof. vm_compute. reflexivity. Qed.
(* the second Client.Join succeeds: both Channels are members; the unavailable presence reaches the
   registered one only (known finding: the first stays joined) *)
Example ex_second_join_succeeds : accepted
  (join0 ++ [LDeliver (PresAvail 0); LRet 0 OSuccess;
             LNew 1 0; LCall 1 KJoin 1; LPush 1; LPushed 1; LDeliver (PresAvail 0); LRet 1 OSuccess;
             LQuery 0 true; LQuery 1 true; LCall 2 KLeave 0; LDeliver (PresUnavail 0); LQuery 1 false; LQuery 0 true;
             LCancel 2; LRet 2 OCtxErr]) = true.
Proof. vm_compute. reflexivity. Qed.
(* ... and fails with the room's error: Channel 0 is still a member and still not registered *)
Example ex_second_join_refused :
  option_map (fun s => (ch_joined (chans s 0), table s 0)) (exec
  (join0 ++ [LDeliver (PresAvail 0); LRet 0 OSuccess;
             LNew 1 0; LCall 1 KJoin 1; LPush 1; LPushed 1; LDeliver (ErrReply 1); LRet 1 OStanzaErr])) = Some (true, Some 1).
Proof. vm_compute. reflexivity. Qed.
(* two Channels of one address with joins in flight at once: the presence completes the one registered last *)
Example ex_two_pending_joins : accepted
  (join0 ++ [LNew 1 0; LCall 1 KJoin 1; LPush 1; LPushed 1; LDeliver (PresAvail 0); LRet 1 OSuccess;
             LDeliver (PresAvail 0); LCancel 0; LRet 0 OCtxErr]) = true /\
  accepted (join0 ++ [LNew 1 0; LCall 1 KJoin 1; LPush 1; LPushed 1; LDeliver (PresAvail 0); LRet 0 OSuccess]) = false.
Proof. vm_compute. split; reflexivity. Qed.

(* hypotheses of C18_join_success_only_after_self_presence / C18_join_call_registers / C18_leave_... /
   C18_stanza_error_... / C18_context_error_otherwise *)
Example hyp_join_success : exists s, exec ((join0 ++ [LDeliver (PresAvail 0)]) ++ [LRet 0 OSuccess]) = Some s.
Proof. eexists. vm_compute. reflexivity. Qed.
Example hyp_join_call : exists s, exec (ex_second_join_given_up ++ [LCall 2 KJoin 0]) = Some s.
Proof. eexists. vm_compute. reflexivity. Qed.
Example hyp_leave_success : exists s, exec ([LNew 0 0; LCall 0 KJoin 0; LNew 1 1; LCall 1 KJoin 1; LCancel 0; LRet 0 OCtxErr; LCall 2 KLeave 0; LDeliver (PresUnavail 0)] ++ [LRet 2 OSuccess]) = Some s.
Proof. eexists. vm_compute. reflexivity. Qed.
Example hyp_stanza_error : exists s, exec ((join0 ++ [LDeliver (ErrReply 0)]) ++ [LRet 0 OStanzaErr]) = Some s.
Proof. eexists. vm_compute. reflexivity. Qed.
Example hyp_ctx_error : exists s, exec ((join0 ++ [LDeliver (PresAvail 0); LCancel 0]) ++ [LRet 0 OCtxErr]) = Some s.
Proof. eexists. vm_compute. reflexivity. Qed.

(* hypotheses of C18_error_reply_is_returned, C18_self_presence_completes_join and
   C18_presence_goes_to_registered_channel: a waiting join on Channel 0 of address 3 *)
Example hyp_waiting_join : exists s c,
  exec [LNew 0 3; LCall 0 KJoin 0; LPush 0; LPushed 0] = Some s /\ srv s = SIdle /\ calls s 0 = Some c /\
  c_phase c = PWait /\ c_done c = false /\ c_replied c = false /\ c_kind c = KJoin /\ c_chan c = 0 /\
  table s 3 = Some 0 /\ ch_jq (chans s 0) = [0].
Proof. eexists. eexists. vm_compute. repeat split; reflexivity. Qed.

(* hypotheses of C18_stale_join_context_skipped: a failed join's context ahead of a blocked publisher *)
Example hyp_stale_context : exists s c0 c,
  exec [LNew 0 2; LCall 0 KJoin 0; LPush 0; LPushed 0; LDeliver (ErrReply 0); LRet 0 OStanzaErr; LCall 1 KJoin 0; LPush 1] = Some s /\
  srv s = SIdle /\ table s 2 = Some 0 /\ ch_jq (chans s 0) = [0; 1] /\
  calls s 0 = Some c0 /\ c_done c0 = true /\ c_chan c0 = 0 /\
  calls s 1 = Some c /\ c_kind c = KJoin /\ c_chan c = 0 /\ c_phase c = PQueued.
Proof. do 3 eexists. vm_compute. repeat split; reflexivity. Qed.

(* hypotheses of C18_unavailable_completes_leave / C18_departure_notification_kept *)
Example hyp_waiting_leave : exists s c,
  exec [LNew 0 1; LCall 0 KJoin 0; LPush 0; LPushed 0; LDeliver (PresAvail 1); LRet 0 OSuccess; LCall 1 KLeave 0] = Some s /\
  srv s = SIdle /\ table s 1 = Some 0 /\ calls s 1 = Some c /\ c_kind c = KLeave /\ c_chan c = 0 /\ c_phase c = PWait.
Proof. do 2 eexists. vm_compute. repeat split; reflexivity. Qed.
Example hyp_kept : exists s c,
  exec [LNew 0 1; LCall 0 KJoin 0; LPush 0; LPushed 0; LDeliver (PresAvail 1); LRet 0 OSuccess; LCall 1 KLeave 0; LDeliver (PresUnavail 1)] = Some s /\
  calls s 1 = Some c /\ c_kind c = KLeave /\ c_phase c = PWait /\ ch_dep (chans s (c_chan c)) = true.
Proof. do 2 eexists. vm_compute. repeat split; reflexivity. Qed.

(* hypotheses of C18_membership_window_partial with a non-trivial window; the spec itself *)
Example hyp_window : member_window ex_join_part 0 = false /\ member_window (firstn 7 ex_join_part) 0 = true /\
  member_window (firstn 5 ex_join_part) 0 = false /\ member_window ex_join_part 1 = false.
Proof. vm_compute. repeat split; reflexivity. Qed.
Example hyp_window_free : forall k, In (LRet k OStanzaErr) ex_join_part -> ~ In (LCall k KLeave 0) ex_join_part.
Proof. intros k H. cbn in H. repeat (destruct H as [H|H]; [discriminate H|]). destruct H. Qed.
Example hyp_never_orphaned : never_orphaned ex_join_part 0 /\
  never_orphaned (ex_second_join_given_up ++ [LCall 2 KJoin 0; LPush 2; LPushed 2; LDeliver (PresAvail 0); LRet 2 OSuccess;
                                              LCall 3 KLeave 0; LDeliver (PresUnavail 0)]) 0.
Proof. split; apply never_orphaned_b_sound; vm_compute; reflexivity. Qed.
(* ... and it fails where the known finding is: the orphan history *)
Example ex_orphaned : never_orphaned_b init orphan_trace 0 = false.
Proof. vm_compute. reflexivity. Qed.

(* C18_unjoined_rooms_ignored: no Channel was ever made for address 7, the handler is idle, other rooms are busy *)
Example hyp_unjoined : exists s, exec ex_join_error = Some s /\ srv s = SIdle /\ (forall h, ~ In (LNew h 7) ex_join_error).
Proof.
  eexists. split; [vm_compute; reflexivity|]. split; [reflexivity|].
  intros k H. cbn in H. repeat (destruct H as [H|H]; [discriminate H|]). destruct H.
Qed.

(* ... the same presence with a payload that does not decode: ignored for address 7, fatal for the
   managed address 0 (hypotheses of C18_managed_bad_payload_ends_serve) *)
Example ex_bad_payload_unjoined :
  option_map srv (exec (ex_join_error ++ [LDeliver (PresBad 7); LDeliver (PresAvail 7); LNew 1 7; LCall 1 KJoin 1])) = Some SIdle.
Proof. vm_compute. reflexivity. Qed.
Example hyp_bad_payload_managed : exists s, exec ex_join_error = Some s /\ srv s = SIdle /\ table s 0 = Some 0.
Proof. eexists. split; [vm_compute; reflexivity|]. split; reflexivity. Qed.
Example ex_bad_payload_managed :
  option_map srv (exec (ex_join_error ++ [LDeliver (PresBad 0)])) = Some SDead /\
  exec (ex_join_error ++ [LDeliver (PresBad 0); LDeliver Other]) = None.
Proof. vm_compute. split; reflexivity. Qed.

(* C18_invitation_once_partial: invitations with the customary extra children (legacy
   jabber:x:conference x, delay, body), a declined invitation, a status notification; every
   message has at most one muc#user payload *)
Definition ex_msgs : list label :=
  [LDeliver (Msg [CInvite 4]); LDeliver Other; LDeliver (Msg [COther; CInvite 9; CForeignX]);
   LDeliver (Msg [CForeignX; CForeignX; CInvite 4; COther]); LDeliver (Msg [CUserX; CForeignX]);
   LDeliver (Msg [CForeignX]); LDeliver (Msg [])].
Example ex_invites : option_map cb_inv (exec ex_msgs) = Some [4; 9; 4] /\ invites_of ex_msgs = [4; 9; 4].
Proof. vm_compute. split; reflexivity. Qed.
Example hyp_single_payload : forall cs, In (LDeliver (Msg cs)) ex_msgs -> single_payload cs.
Proof.
  intros cs H. cbn in H. unfold single_payload.
  repeat (destruct H as [H|H]; [try discriminate H; injection H as <-; cbn; auto|]). destruct H.
Qed.
(* what the refuted full statement is about: two muc#user payloads in one message *)
Example ex_two_payloads :
  option_map cb_inv (exec [LDeliver (Msg [CInvite 1; CInvite 2])]) = Some [2; 2] /\
  option_map cb_inv (exec [LDeliver (Msg [CInvite 1; CUserX])]) = Some [] /\
  option_map cb_inv (exec [LDeliver (Msg [CUserX; CInvite 1])]) = Some [1; 1].
Proof. vm_compute. repeat split; reflexivity. Qed.
