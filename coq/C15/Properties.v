(* C15/Properties.v — the property theorems of C15 and nothing else.
   "An in-band bytestream is a reliable ordered byte pipe."

   The model is that of the repaired library (/repo main: open inspects
   the reply, handlePayload decodes before it commits, Read waits in a loop on
   a signal channel with room for one pending signal, Close deregisters).
   The theorems named C15_pinned_*_refuted record, on the model of the pinned
   tree's design, why those repairs were needed. *)
From XV Require Import lib.Bytes lib.Base64 gen.Ibb C15.Model C15.Proofs C15.ProofsRecv C15.ProofsMore.

(* Statement order of handlePayload (read from the AST): the wake-up of a
   pending Read is an unconditional top-level statement after the append to the
   read buffer, and no successful return lies between the two. Whatever the
   carrier, an accepted packet reaches the notify; this is what lets the model
   make the notify part of the deliver step for both carriers. (Two error
   returns lie in between: the buffer write and the acknowledgement failing.) *)
Theorem C15_src_notify_on_every_success_path :
  ibb_payload_notify_unconditional = true /\ ibb_payload_success_returns_before_notify = 0.
Proof. split; reflexivity. Qed.
Print Assumptions C15_src_notify_on_every_success_path.

(* rmStream deletes the entry of a session identifier only if it still refers
   to the connection being closed; Close and closeNoNotify reach closeRead
   (by reading conn.go, the only caller of rmStream) only after markClosed has succeeded, so a
   second Close on a closed connection returns before it. The model's tbl_rm
   and the early return of ECloseLocal on a closed connection rest on this. *)
Theorem C15_src_unregister_is_guarded :
  ibb_rmstream_guarded = true /\
  ibb_close_closeread_after_markclosed = true /\
  ibb_closenonotify_closeread_after_markclosed = true /\
  ibb_closeread_call_sites = 2.
Proof. repeat split; reflexivity. Qed.
Print Assumptions C15_src_unregister_is_guarded.

(* Open succeeds only on a reply of type result; a refused open request
   returns no connection and leaves the handler exactly as it was; an open
   request that nobody listens for is refused with not-acceptable. *)
Theorem C15_open_only_if_accepted :
  (forall r, open_succeeds r = true -> r = OpenResult) /\
  (forall h sid bs, h_step h (EOpenLocal sid bs false) = (h, OOpen false)) /\
  (forall h sid bs, h_step h (EOpenRemote sid bs false) = (h, OReply (RErr NotAcceptable))).
Proof.
  repeat split. intros r H. destruct r; [reflexivity|discriminate|discriminate].
Qed.
Print Assumptions C15_open_only_if_accepted.

(* The i-th data packet carries sequence number seq0 + i modulo 65536. *)
Theorem C15_packets_consecutive : forall bs seq0 ops i p,
  (seq0 < 65536)%N ->
  nth_error (sender bs seq0 ops) i = Some p ->
  p_seq p = ((seq0 + N.of_nat i) mod 65536)%N.
Proof. intros bs seq0 ops i p Hs H. exact (number_seq _ _ _ _ Hs H). Qed.
Print Assumptions C15_packets_consecutive.

(* Every packet decodes on its own, and the packets decoded one by one and
   concatenated are exactly the bytes written (Close included: nothing stays
   behind in the bufio layer or in the encoder). *)
Theorem C15_packets_carry_written : forall bs seq0 ops,
  Forall (fun p => exists d, decode_go (p_data p) = Some d) (sender bs seq0 ops) /\
  decode_go_pieces (map p_data (sender bs seq0 ops)) = Some (written ops).
Proof.
  intros bs seq0 ops. pose proof (packets_carry_written bs seq0 ops) as H.
  split; [|exact H]. exact (proj1 (Forall_map p_data _ _) (decode_go_pieces_each _ _ H)).
Qed.
Print Assumptions C15_packets_carry_written.

(* Stream integrity for every connection and every history of a handler,
   session identifiers reused at will: the bytes read from a connection,
   followed by what is buffered for it, are exactly the bytes of the data
   packets accepted while it was the connection registered under their
   identifier - once, in order, unmodified. *)
Theorem C15_stream_integrity : forall es h' os id c',
  h_run h_empty es = (h', os) -> get h' id = Some c' ->
  reads_of id es os ++ rc_buf c' = concat (map payload_of (accepted_to id h_empty es)).
Proof.
  intros es h' os id c' H Hg. pose proof (integrity_run _ _ _ _ _ _ inv_empty H Hg) as E.
  unfold rd_of, pk_of in E. destruct id; exact E.
Qed.
Print Assumptions C15_stream_integrity.

(* Whatever else happens on the handler - reads of any size at any time, bad
   packets, other streams, older and newer streams under the same identifier,
   redundant Close calls, buffer limits - if the packets accepted for a
   connection are those of a sender, what the application has read followed by
   what is still buffered is exactly the bytes written. *)
Theorem C15_pipe_any_interleaving : forall es h' os id c' bs seq0 ops,
  h_run h_empty es = (h', os) -> get h' id = Some c' ->
  accepted_to id h_empty es = sender bs seq0 ops ->
  reads_of id es os ++ rc_buf c' = written ops.
Proof.
  intros es h' os id c' bs seq0 ops H Hg Ha.
  rewrite (C15_stream_integrity _ _ _ _ _ H Hg), Ha.
  apply payload_concat_pieces. apply packets_carry_written.
Qed.
Print Assumptions C15_pipe_any_interleaving.

(* Delivered in order to the connection registered under the identifier, which
   has room by the receiver's own estimate (or no limit), all packets of a
   sender are accepted - on either carrier - the buffer grows by exactly the
   bytes written, and no other connection is touched. *)
Theorem C15_pipe_delivers_exactly : forall bs ops h iq sid id c,
  lookup h sid = Some (id, c) -> rc_rclosed c = false ->
  has_room c (map p_data (sender bs (rc_seq c) ops)) ->
  exists h' c',
    h_run h (deliver iq sid (sender bs (rc_seq c) ops)) =
      (h', repeat (OReply (if iq then RAck else RSilent)) (length (sender bs (rc_seq c) ops))) /\
    lookup h' sid = Some (id, c') /\ rc_buf c' = rc_buf c ++ written ops /\ rc_rclosed c' = false /\
    (forall j, j <> id -> get h' j = get h j).
Proof.
  intros bs ops h iq sid id c Hl Hc Hm.
  pose proof (packets_carry_written bs (rc_seq c) ops) as Hd. unfold sender in *. rewrite number_data in *.
  destruct (deliver_all_accepted _ h iq sid id c _ Hl Hc Hm Hd) as (h' & c' & Hr & Hl' & Hb & Hc' & Ho).
  exists h', c'. rewrite number_length. repeat split; assumption.
Qed.
Print Assumptions C15_pipe_delivers_exactly.

(* The receiver's estimate exceeds the bytes written by at most two per packet. *)
Theorem C15_room_estimate : forall bs seq0 ops,
  cap_need (map p_data (sender bs seq0 ops)) <= length (written ops) + 2 * length (sender bs seq0 ops).
Proof.
  intros bs seq0 ops. unfold sender. rewrite number_data, number_length.
  destruct (sender_pieces_spec bs ops) as [chunks [-> <-]]. rewrite map_length.
  apply cap_need_encode.
Qed.
Print Assumptions C15_room_estimate.

(* Unknown or closed session: item-not-found; out of sequence:
   unexpected-request; over the buffer limit: resource-constraint;
   undecodable: bad-request - and in each case the handler's state is exactly
   what it was. *)
Theorem C15_bad_packets_refused : forall h iq sid seq data,
  (lookup h sid = None -> handle_payload h iq sid seq data = (h, RErr ItemNotFound)) /\
  (forall id c, lookup h sid = Some (id, c) ->
     (rc_rclosed c = true -> handle_payload h iq sid seq data = (h, RErr ItemNotFound)) /\
     (rc_rclosed c = false -> seq <> rc_seq c ->
        handle_payload h iq sid seq data = (h, RErr UnexpectedRequest)) /\
     (rc_rclosed c = false -> seq = rc_seq c -> fits c data = false ->
        handle_payload h iq sid seq data = (h, RErr ResourceConstraint)) /\
     (rc_rclosed c = false -> seq = rc_seq c -> fits c data = true -> decode_go data = None ->
        handle_payload h iq sid seq data = (h, RErr BadRequest))).
Proof.
  intros h iq sid seq data. rewrite handle_payload_eq. split; [intros ->; reflexivity|].
  intros id c ->. unfold refusal. repeat split.
  - intros ->. reflexivity.
  - intros -> Hs. apply N.eqb_neq in Hs. rewrite Hs. reflexivity.
  - intros -> Hs ->. apply N.eqb_eq in Hs. rewrite Hs. reflexivity.
  - intros -> Hs -> ->. apply N.eqb_eq in Hs. rewrite Hs. reflexivity.
Qed.
Print Assumptions C15_bad_packets_refused.

(* Any error reply whatsoever means nothing changed. *)
Theorem C15_refused_leaves_state : forall h iq sid seq data h' e,
  handle_payload h iq sid seq data = (h', RErr e) -> h' = h.
Proof.
  intros h iq sid seq data h' e. rewrite handle_payload_eq.
  destruct (lookup h sid) as [[id c]|]; [destruct (refusal c seq data)|];
    intro H; try (injection H as <- _; reflexivity). destruct iq; discriminate.
Qed.
Print Assumptions C15_refused_leaves_state.

(* A packet with none of the four defects is accepted (acknowledged on the iq
   carrier, silently on the message carrier), appended to the connection
   registered under the identifier and to no other. *)
Theorem C15_good_packet_accepted : forall h iq sid seq data id c d,
  lookup h sid = Some (id, c) -> rc_rclosed c = false -> seq = rc_seq c -> fits c data = true ->
  decode_go data = Some d ->
  handle_payload h iq sid seq data =
    (upd h id (fun _ => accept_data c seq data d), if iq then RAck else RSilent) /\
  buf_of (fst (handle_payload h iq sid seq data)) id = rc_buf c ++ d /\
  (forall j, j <> id -> get (fst (handle_payload h iq sid seq data)) j = get h j) /\
  lookup (fst (handle_payload h iq sid seq data)) sid = Some (id, accept_data c seq data d).
Proof.
  intros h iq sid seq data id c d Hl Hc Hs Hf Hd.
  rewrite (handle_payload_good _ iq _ _ _ _ _ _ Hl Hc Hs Hf Hd). cbn [fst].
  destruct (lookup_get _ _ _ _ Hl) as [Hg _].
  split; [reflexivity|]. split; [|split].
  - unfold buf_of. rewrite (get_upd_same _ _ _ _ Hg). reflexivity.
  - intros j Hj. apply get_upd_other. exact Hj.
  - apply (lookup_upd_same _ _ _ _ (fun _ => accept_data c seq data d) Hl).
Qed.
Print Assumptions C15_good_packet_accepted.

(* Nothing was ever opened: data and close requests are refused. *)
Theorem C15_unopened_is_unknown : forall iq sid seq data,
  h_step h_empty (EData iq sid seq data) = (h_empty, OReply (RErr ItemNotFound)) /\
  h_step h_empty (ECloseRemote sid) = (h_empty, OReply (RErr ItemNotFound)).
Proof. intros. split; reflexivity. Qed.
Print Assumptions C15_unopened_is_unknown.

(* Opening under an identifier - fresh, in use, or used before - registers the
   new connection under it; every existing connection stays what it is. *)
Theorem C15_open_registers_new : forall h sid bs,
  lookup (add_conn h sid bs) sid = Some (length (h_conns h), new_conn sid bs) /\
  (forall id c, get h id = Some c -> get (add_conn h sid bs) id = Some c).
Proof.
  intros h sid bs. split.
  - unfold lookup, add_conn at 1. cbn [h_tbl]. rewrite tbl_find_set, bytes_eqb_refl, get_add_new. reflexivity.
  - intros id c Hg. apply get_add_old. exact Hg.
Qed.
Print Assumptions C15_open_registers_new.

(* Close on one connection never changes which connection is registered under
   an identifier when that is another connection - in particular a newer
   stream under the same identifier survives the Close of an older one. *)
Theorem C15_old_close_keeps_new_stream : forall h id sid j c,
  lookup h sid = Some (j, c) -> j <> id ->
  lookup (fst (h_step h (ECloseLocal id))) sid = Some (j, c) /\
  snd (h_step h (ECloseLocal id)) = ONone.
Proof.
  intros h id sid j c Hl Hne. cbn [h_step].
  destruct (get h id) as [ci|] eqn:Eg; [|split; [exact Hl|reflexivity]].
  destruct (rc_rclosed ci); cbn [fst snd]; split; try reflexivity; [exact Hl|].
  apply close_keeps_other_stream; assumption.
Qed.
Print Assumptions C15_old_close_keeps_new_stream.

(* A second Close on a closed connection does nothing at all. *)
Theorem C15_redundant_close_is_noop : forall h id c,
  get h id = Some c -> rc_rclosed c = true -> h_step h (ECloseLocal id) = (h, ONone).
Proof. intros h id c Hg Hc. cbn [h_step]. rewrite Hg, Hc. reflexivity. Qed.
Print Assumptions C15_redundant_close_is_noop.

(* After every history the connection registered under an identifier carries
   that identifier and is open: packets never reach a closed connection. *)
Theorem C15_registered_is_open : forall es h os sid id c,
  h_run h_empty es = (h, os) -> lookup h sid = Some (id, c) ->
  rc_sid c = sid /\ rc_rclosed c = false.
Proof.
  intros es h os sid id c H Hl. exact (wf_lookup _ _ _ _ (proj2 (inv_run _ _ _ _ inv_empty H)) Hl).
Qed.
Print Assumptions C15_registered_is_open.

(* A closed connection stays closed and never receives another packet,
   whatever happens later - reopening under its identifier included. *)
Theorem C15_closed_conn_is_frozen : forall es h h' os id c,
  inv h -> h_run h es = (h', os) -> get h id = Some c -> rc_rclosed c = true ->
  exists c', get h' id = Some c' /\ rc_rclosed c' = true /\ rc_pk c' = rc_pk c /\ rc_sid c' = rc_sid c.
Proof.
  intros es h h' os id c _ H Hg Hc.
  apply (frozen_run c id es h h' os); [|exact H]. exists c. repeat split; assumption.
Qed.
Print Assumptions C15_closed_conn_is_frozen.

(* every handler reachable from the empty one satisfies the invariant used above *)
Theorem C15_inv_reachable : forall es h os, h_run h_empty es = (h, os) -> inv h.
Proof. exact (fun es h os => inv_run es h_empty h os inv_empty). Qed.
Print Assumptions C15_inv_reachable.

(* A close request for a registered stream is acknowledged; from then on every
   data packet for the identifier is refused with item-not-found and changes
   nothing; the application reads what was buffered, in non-empty pieces, and
   then end-of-file. *)
Theorem C15_close_then_drain : forall h sid id c n,
  0 < n -> lookup h sid = Some (id, c) -> rc_sid c = sid ->
  let h1 := fst (h_step h (ECloseRemote sid)) in
  snd (h_step h (ECloseRemote sid)) = OReply RAck /\
  (forall iq seq data, handle_payload h1 iq sid seq data = (h1, RErr ItemNotFound)) /\
  exists k h' pre,
    h_run h1 (repeat (ERead id n) (S k)) = (h', pre ++ [ORead [] true]) /\
    Forall (fun o => exists d, o = ORead d false /\ d <> []) pre /\
    reads_of id (repeat (ERead id n) (S k)) (pre ++ [ORead [] true]) = rc_buf c.
Proof.
  intros h sid id c n Hn Hl Hs h1. unfold h1. rewrite (close_remote_known _ _ _ _ Hl). cbn [fst snd].
  destruct (lookup_get _ _ _ _ Hl) as [Hg _].
  split; [reflexivity|]. split.
  - intros iq seq data. apply handle_payload_unknown. apply (lookup_after_close _ _ _ _ Hl Hs).
  - exact (drain_closed n id _ _ Hn (get_close_same _ _ _ Hg) eq_refl).
Qed.
Print Assumptions C15_close_then_drain.

(* The same for the application's own Close: afterwards the connection is not
   registered under its identifier any more, and its reader drains the buffer
   and then reads end-of-file. *)
Theorem C15_local_close_then_drain : forall h id c n,
  0 < n -> get h id = Some c -> rc_rclosed c = false ->
  let h1 := fst (h_step h (ECloseLocal id)) in
  (forall sid j cj, lookup h1 sid = Some (j, cj) -> j <> id \/ rc_sid c <> sid) /\
  exists k h' pre,
    h_run h1 (repeat (ERead id n) (S k)) = (h', pre ++ [ORead [] true]) /\
    Forall (fun o => exists d, o = ORead d false /\ d <> []) pre /\
    reads_of id (repeat (ERead id n) (S k)) (pre ++ [ORead [] true]) = rc_buf c.
Proof.
  intros h id c n Hn Hg Hc h1. unfold h1. cbn [h_step]. rewrite Hg, Hc. cbn [fst]. split.
  - intros sid j cj Hl. destruct (lookup_get _ _ _ _ Hl) as [_ Ht].
    rewrite (tbl_close _ _ _ Hg) in Ht. apply tbl_find_rm_some in Ht.
    destruct (Nat.eq_dec j id) as [E|N]; [right; apply Ht; exact E|left; exact N].
  - exact (drain_closed n id _ _ Hn (get_close_same _ _ _ Hg) eq_refl).
Qed.
Print Assumptions C15_local_close_then_drain.

(* The peer's close request is always answered: for every state of a registered
   stream - after every history, including one in which a data packet of the
   local writer was refused and its error is still pending in the buffered
   writer - the request is acknowledged, the stream is deregistered and what
   was buffered for the reader is untouched. *)
Theorem C15_peer_close_always_answered : forall h sid id c,
  lookup h sid = Some (id, c) ->
  h_step h (ECloseRemote sid) = (close_conn h id, OReply RAck) /\
  get (close_conn h id) id = Some (set_rclosed c) /\
  buf_of (close_conn h id) id = rc_buf c /\
  (rc_sid c = sid -> lookup (close_conn h id) sid = None).
Proof.
  intros h sid id c H. destruct (lookup_get _ _ _ _ H) as [Hg _].
  split; [apply (close_remote_known _ _ _ _ H)|].
  split; [apply (get_close_same _ _ _ Hg)|].
  split; [unfold buf_of; rewrite (get_close_same _ _ _ Hg); reflexivity|].
  intro Hs. apply (lookup_after_close _ _ _ _ H Hs).
Qed.
Print Assumptions C15_peer_close_always_answered.

(* After every history the registered connection carries its identifier, so
   the acknowledged close request also deregisters it. *)
Theorem C15_peer_close_answered_after_any_history : forall es h os sid id c,
  h_run h_empty es = (h, os) -> lookup h sid = Some (id, c) ->
  snd (h_step h (ECloseRemote sid)) = OReply RAck /\
  lookup (fst (h_step h (ECloseRemote sid))) sid = None.
Proof.
  intros es h os sid id c Hr H. destruct (C15_peer_close_always_answered _ _ _ _ H) as (E & _ & _ & Hn).
  rewrite E. split; [reflexivity|]. exact (Hn (proj1 (C15_registered_is_open _ _ _ _ _ _ Hr H))).
Qed.
Print Assumptions C15_peer_close_answered_after_any_history.

(* A refused data packet is the local writer's business: that Write/Flush
   fails, every later one fails too and sends nothing, the table and the read
   side are unchanged. *)
Theorem C15_refused_write_sticks : forall h id c,
  get h id = Some c -> rc_rclosed c = false -> rc_werr c = false ->
  let h1 := upd h id set_werr in
  h_step h (EWrite id false) = (h1, OWrite false) /\
  (forall acc, h_step h1 (EWrite id acc) = (h1, OWrite false)) /\
  (forall j, buf_of h1 j = buf_of h j) /\
  h_tbl h1 = h_tbl h.
Proof.
  intros h id c Hf Hc Hw h1.
  assert (Hf1 : get h1 id = Some (set_werr c)) by (apply get_upd_same; exact Hf).
  split; [|split; [|split]].
  - cbn [h_step]. rewrite Hf, Hc, Hw. reflexivity.
  - intro acc. cbn [h_step]. rewrite Hf1. cbn [set_werr rc_rclosed rc_werr]. rewrite Hc. reflexivity.
  - intro j. unfold buf_of. destruct (Nat.eq_dec j id) as [->|Hne].
    + rewrite Hf1, Hf. reflexivity.
    + unfold h1. rewrite get_upd_other by exact Hne. reflexivity.
  - reflexivity.
Qed.
Print Assumptions C15_refused_write_sticks.

(* No lost wake-up. After every schedule: a reader blocked in its wait has
   nothing to read and the stream is open; a reader that has found the buffer
   empty and not yet started to wait gets through as soon as there is data or
   the stream was closed. *)
Theorem C15_reader_no_lost_wakeup : forall tr s,
  lrun l_init tr = Some s ->
  (reader_blocked s = true -> l_buf s = [] /\ l_closed s = false) /\
  (forall n, l_pc s = PChecked n -> l_buf s <> [] \/ l_closed s = true ->
     exists s' b, lstep s LWait = Some s' /\ l_pc s' = PWoken n b).
Proof.
  intros tr s H. pose proof (linv_reachable _ _ H) as [_ Hpc]. unfold pc_ok in Hpc. split.
  - unfold reader_blocked. intro Hb. destruct (l_pc s); try discriminate.
    destruct Hpc as (_ & Hbuf & Hcl). split; assumption.
  - intros n Epc Hd. rewrite Epc in Hpc. unfold lstep. rewrite Epc.
    destruct (l_tok s); [eexists _, _; split; reflexivity|].
    destruct (l_closed s); [eexists _, _; split; reflexivity|].
    exfalso. destruct Hd as [Hd|Hd]; [|discriminate]. destruct (proj2 Hpc Hd); discriminate.
Qed.
Print Assumptions C15_reader_no_lost_wakeup.

(* The wake-up does not depend on the carrier: an accepted packet in an iq or
   in a message hands the signal to a reader blocked in the receive, and queues
   it for a reader that has found the buffer empty and not yet started to wait. *)
Theorem C15_deliver_wakes_reader_on_either_carrier : forall s iq d n,
  l_closed s = false ->
  (l_pc s = PRecv n ->
     exists s', lstep s (LDeliver iq d) = Some s' /\ l_pc s' = PWoken n true /\ l_buf s' = l_buf s ++ d /\
                hd_error (l_log s') = Some (accepted_obs iq)) /\
  (l_pc s = PChecked n ->
     exists s', lstep s (LDeliver iq d) = Some s' /\ l_pc s' = PChecked n /\ l_tok s' = true /\
                l_buf s' = l_buf s ++ d /\ hd_error (l_log s') = Some (accepted_obs iq)).
Proof.
  intros s iq d n Hc. split; intro Hp; unfold lstep; rewrite Hp, Hc; eexists; repeat split; reflexivity.
Qed.
Print Assumptions C15_deliver_wakes_reader_on_either_carrier.

(* Progress: in every reachable state with data buffered, the reader's own
   steps alone make Read return a non-empty prefix of the buffer. *)
Theorem C15_reader_gets_buffered_data : forall tr s,
  lrun l_init tr = Some s -> l_buf s <> [] ->
  exists tr' s' d,
    lrun s tr' = Some s' /\ Forall reader_label tr' /\
    hd_error (l_log s') = Some (BReturned d false) /\ d <> [] /\
    l_buf s = d ++ l_buf s' /\ l_read s' = l_read s ++ d.
Proof.
  intros tr s H Hb.
  destruct (read_returns s (linv_reachable _ _ H) (or_introl Hb))
    as (tr' & s' & d & e & Hrun & Hlab & [Hlog Hbuf Hread _ _ _ He]).
  destruct e; [destruct He as (_ & Hnil & _); contradiction|].
  exists tr', s', d. repeat split; assumption.
Qed.
Print Assumptions C15_reader_gets_buffered_data.

(* Read returns end-of-file only after the close and only when everything that
   was delivered has been read. *)
Theorem C15_eof_only_after_close : forall tr s l d,
  lrun l_init tr = Some s ->
  step_obs s l = Some (BReturned d true) ->
  d = [] /\ l_closed s = true /\ l_buf s = [] /\ l_read s = l_delivered s.
Proof.
  intros tr s l d H Ho.
  destruct (step_obs_returned _ _ _ _ _ H Ho) as [s' [_ _ _ _ _ _ (Hd & Hb & Hc)]].
  repeat split; try assumption. rewrite <- (linv_stream _ (linv_reachable _ _ H)), Hb, app_nil_r. reflexivity.
Qed.
Print Assumptions C15_eof_only_after_close.

(* After the close, from every reachable state, the reader's own steps alone
   read everything that was delivered and then end-of-file. *)
Theorem C15_reader_drains_after_close : forall tr s,
  lrun l_init tr = Some s -> l_closed s = true ->
  exists tr' s', lrun s tr' = Some s' /\ Forall reader_label tr' /\
    l_closed s' = true /\ l_delivered s' = l_delivered s /\ l_read s' = l_delivered s /\
    l_buf s' = [] /\ l_pc s' = PIdle /\ hd_error (l_log s') = Some (BReturned [] true).
Proof.
  intros tr s H Hcl. exact (reader_drains s (linv_reachable _ _ H) Hcl).
Qed.
Print Assumptions C15_reader_drains_after_close.

(* In every schedule what has been read followed by the buffer is what was
   delivered; a read without end-of-file returns a non-empty prefix of the
   buffer. *)
Theorem C15_reads_in_order : forall tr s,
  lrun l_init tr = Some s ->
  l_read s ++ l_buf s = l_delivered s /\
  (forall l d, step_obs s l = Some (BReturned d false) -> d <> [] /\ exists rest, l_buf s = d ++ rest).
Proof.
  intros tr s H. split; [exact (linv_stream _ (linv_reachable _ _ H))|].
  intros l d Ho. destruct (step_obs_returned _ _ _ _ _ H Ho) as [s' [_ Hb _ _ _ _ Hd]].
  split; [exact Hd|]. exists (l_buf s'). exact Hb.
Qed.
Print Assumptions C15_reads_in_order.

(* After the close nothing is delivered any more. *)
Theorem C15_closed_refuses : forall s iq d s',
  l_closed s = true -> lstep s (LDeliver iq d) = Some s' ->
  l_buf s' = l_buf s /\ l_delivered s' = l_delivered s /\ hd_error (l_log s') = Some BRefused.
Proof.
  intros s iq d s' Hc H. unfold lstep in H. rewrite Hc in H.
  destruct (l_pc s); injection H as <-; repeat split; reflexivity.
Qed.
Print Assumptions C15_closed_refuses.

(* open() returned a connection for an error reply *)
Theorem C15_pinned_open_refuted : exists r, open_succeeds_pinned r = true /\ r <> OpenResult.
Proof. exists (OpenError NotAcceptable). split; [reflexivity|discriminate]. Qed.
Print Assumptions C15_pinned_open_refuted.

(* a packet refused with bad-request left its decoded prefix behind and used
   up its sequence number *)
Theorem C15_pinned_refusal_refuted :
  exists c iq seq data c',
    payload_conn_pinned c iq seq data = (c', RErr BadRequest) /\
    rc_buf c' <> rc_buf c /\ rc_seq c' <> rc_seq c.
Proof.
  exists pinned_witness_conn, true, 1%N, (str "REVG!!!!"). eexists.
  split; [vm_compute; reflexivity|]. split; discriminate.
Qed.
Print Assumptions C15_pinned_refusal_refuted.

(* a reader blocked for ever with data in its buffer *)
Theorem C15_pinned_lost_wakeup_refuted :
  exists tr s, lrun_pinned l_init tr = Some s /\ reader_blocked s = true /\ l_buf s <> [].
Proof.
  exists [LStart 4; LDeliver false (str "ab"); LWait].
  eexists. split; [vm_compute; reflexivity|]. split; [reflexivity|discriminate].
Qed.
Print Assumptions C15_pinned_lost_wakeup_refuted.

(* end-of-file on an open stream (woken by an empty data packet) *)
Theorem C15_pinned_eof_before_close_refuted :
  exists tr s, lrun_pinned l_init tr = Some s /\
               hd_error (l_log s) = Some (BReturned [] true) /\ l_closed s = false.
Proof.
  exists [LStart 4; LWait; LDeliver true []; LResume].
  eexists. split; [vm_compute; reflexivity|]. split; reflexivity.
Qed.
Print Assumptions C15_pinned_eof_before_close_refuted.

(* main before 02a6c9c, fix "a peer's close request is answered whatever the
   writer's state": the stale error of the buffered writer escaped from the close
   handler, Serve ended and the request stayed unanswered *)
Theorem C15_stale_close_unanswered_refuted :
  exists c, rc_werr c = true /\ rc_rclosed c = false /\ close_remote_reply_stale c = None.
Proof. exists (set_werr (new_conn (str "a") 8)). repeat split; reflexivity. Qed.
Print Assumptions C15_stale_close_unanswered_refuted.

(* main before 983eb38, fix "closing a stream does not unregister a newer stream
   with the same session ID": the unguarded rmStream removed the newer stream *)
Theorem C15_unguarded_rmstream_refuted :
  exists t sid id j, tbl_find t sid = Some j /\ j <> id /\ tbl_find (tbl_rm_unguarded t sid id) sid = None /\
                     tbl_find (tbl_rm t sid id) sid = Some j.
Proof.
  exists [(str "x", 1)], (str "x"), 0, 1. repeat split; try reflexivity. discriminate.
Qed.
Print Assumptions C15_unguarded_rmstream_refuted.
