(* C15/ProofsMore.v — the receive-buffer limit; the reader's transition system
   (invariant, what a step does, liveness by explicit reader-only schedules);
   the witness connection for the pinned tree's handlePayload. *)
From Coq Require Import ZArith.
From XV Require Import lib.Bytes lib.Base64 lib.Lts gen.Ibb C15.Model C15.Proofs C15.ProofsRecv.

(* the room a list of packets needs by the receiver's own estimate *)
Fixpoint cap_need (pieces : list bytes) : nat :=
  match pieces with
  | [] => 0
  | p :: rest => decoded_len (length p) + cap_need rest
  end.

Definition has_room (c : rconn) (pieces : list bytes) : Prop :=
  (rc_max c <= 0)%Z \/
  (Z.of_nat (length (rc_buf c)) + Z.of_nat (cap_need pieces) <= rc_max c)%Z.

Lemma fits_unlimited : forall c data, (rc_max c <= 0)%Z -> fits c data = true.
Proof.
  intros c data H. unfold fits. destruct (0 <? rc_max c)%Z eqn:E; [|reflexivity].
  apply Z.ltb_lt in E. lia.
Qed.

Lemma fits_room : forall c p rest, has_room c (p :: rest) -> fits c p = true.
Proof.
  intros c p rest [H|H].
  - apply fits_unlimited. exact H.
  - unfold fits. cbn [cap_need] in H.
    destruct (0 <? rc_max c)%Z; [|reflexivity]. cbn [andb negb].
    destruct (rc_max c <? Z.of_nat (length (rc_buf c)) + Z.of_nat (decoded_len (length p)))%Z eqn:E;
      [|reflexivity].
    apply Z.ltb_lt in E. lia.
Qed.

Lemma deliver_all_accepted : forall pieces h iq sid id c b,
  lookup h sid = Some (id, c) -> rc_rclosed c = false -> has_room c pieces ->
  decode_go_pieces pieces = Some b ->
  exists h' c',
    h_run h (deliver iq sid (number (rc_seq c) pieces)) =
      (h', repeat (OReply (if iq then RAck else RSilent)) (length pieces)) /\
    lookup h' sid = Some (id, c') /\ rc_buf c' = rc_buf c ++ b /\ rc_rclosed c' = false /\
    (forall j, j <> id -> get h' j = get h j).
Proof.
  induction pieces as [|p rest IH]; intros h iq sid id c b Hl Hc Hm Hd; cbn [decode_go_pieces] in Hd.
  - injection Hd as <-. exists h, c. rewrite app_nil_r. repeat split; assumption.
  - destruct (decode_go p) as [a|] eqn:Ea; [|discriminate].
    destruct (decode_go_pieces rest) as [b'|] eqn:Eb; [|discriminate].
    injection Hd as <-.
    pose proof (handle_payload_good _ iq _ _ _ _ _ _ Hl Hc eq_refl (fits_room _ _ _ Hm) Ea) as Hh.
    set (c1 := accept_data c (rc_seq c) p a) in *.
    destruct (IH (upd h id (fun _ => c1)) iq sid id c1 b') as (h' & c' & Hrun & Hl' & Hb' & Hc' & Ho').
    + apply (lookup_upd_same _ _ _ _ (fun _ => c1) Hl).
    + exact Hc.
    + (* room for the rest: the packet added no more than its estimate *)
      destruct Hm as [Hm|Hm]; [left; exact Hm|right].
      cbn [c1 accept_data rc_buf rc_max]. cbn [cap_need] in Hm. rewrite app_length.
      pose proof (decode_go_length_le _ _ Ea). lia.
    + reflexivity.
    + exists h', c'. cbn [number deliver map p_seq p_data h_run h_step length repeat].
      unfold deliver in Hrun. change (rc_seq c1) with (seq_next (rc_seq c)) in Hrun.
      rewrite Hh, Hrun. repeat split; try assumption.
      * rewrite Hb'. cbn [c1 accept_data rc_buf]. rewrite <- app_assoc. reflexivity.
      * intros j Hj. rewrite (Ho' j Hj). apply get_upd_other. exact Hj.
Qed.

Lemma cap_need_encode : forall chunks,
  cap_need (map encode chunks) <= length (concat chunks) + 2 * length chunks.
Proof.
  induction chunks as [|c rest IH]; cbn [map cap_need concat length]; [lia|].
  rewrite app_length, encode_length. unfold decoded_len.
  replace (4 * ((length c + 2) / 3)) with ((length c + 2) / 3 * 4) by lia.
  rewrite Nat.div_mul by discriminate.
  pose proof (Nat.div_mod (length c + 2) 3 ltac:(discriminate)).
  pose proof (Nat.mod_upper_bound (length c + 2) 3 ltac:(discriminate)). lia.
Qed.

Definition reader_label (l : label) : Prop :=
  match l with LStart n => n <> 0 | LWait | LResume => True | _ => False end.

(* what the program counter promises about the rest of the state *)
Definition pc_ok (s : lstate) : Prop :=
  match l_pc s with
  | PIdle => True
  | PChecked n => n <> 0 /\ (l_buf s <> [] -> l_tok s = true \/ l_closed s = true)
  | PRecv n => n <> 0 /\ l_buf s = [] /\ l_closed s = false
  | PWoken n isopen => n <> 0 /\ (isopen = false -> l_closed s = true)
  end.

Record linv (s : lstate) : Prop := mklinv {
  linv_stream : l_read s ++ l_buf s = l_delivered s;
  linv_pc : pc_ok s }.

Lemma linv_init : linv l_init.
Proof. split; [reflexivity|exact I]. Qed.

Lemma read_locked_empty : forall s n, l_buf s = [] ->
  read_locked s n =
    mkls [] (l_tok s) (l_closed s) (PChecked n) (l_delivered s) (l_read s) (BParked :: l_log s).
Proof. intros s n H. unfold read_locked. rewrite H. reflexivity. Qed.

Lemma read_locked_data : forall s n, l_buf s <> [] ->
  read_locked s n =
    mkls (skipn n (l_buf s)) (l_tok s) (l_closed s) PIdle (l_delivered s)
         (l_read s ++ firstn n (l_buf s)) (BReturned (firstn n (l_buf s)) false :: l_log s).
Proof. intros s n H. unfold read_locked. destruct (l_buf s); [contradiction|reflexivity]. Qed.

Record read_returned (s s' : lstate) (d : bytes) (eof : bool) : Prop := mkreturned {
  rr_log : hd_error (l_log s') = Some (BReturned d eof);
  rr_buf : l_buf s = d ++ l_buf s';
  rr_read : l_read s' = l_read s ++ d;
  rr_closed : l_closed s' = l_closed s;
  rr_delivered : l_delivered s' = l_delivered s;
  rr_pc : l_pc s' = PIdle;
  rr_eof : if eof then d = [] /\ l_buf s = [] /\ l_closed s = true else d <> [] }.

(* Between two returns only the queued signal and the program counter change,
   and every step of the reader makes this sum smaller. The ranks follow the
   cycle PIdle > PWoken _ true > PChecked > PWoken _ false; taking the queued
   signal moves the counter up from PChecked to PWoken _ true, so the signal
   weighs more than that rise. A reader in PRecv can make no step. *)
Definition rank (pc : rpc) : nat :=
  match pc with PIdle => 4 | PWoken _ true => 3 | PChecked _ => 2 | PWoken _ false => 1 | PRecv _ => 0 end.

Definition measure (s : lstate) : nat := (if l_tok s then 4 else 0) + rank (l_pc s).

(* a step of the reader that does not return *)
Record waits_on (s s1 : lstate) : Prop := mkwaits {
  wo_buf : l_buf s1 = l_buf s;
  wo_read : l_read s1 = l_read s;
  wo_closed : l_closed s1 = l_closed s;
  wo_delivered : l_delivered s1 = l_delivered s;
  wo_down : measure s1 < measure s }.

(* What a step does: it keeps the invariant; if it logs a return, Read has
   returned as it should; and a step of the reader itself either is such a
   return or leaves the data alone and goes down the measure. *)
Record step_ok (s : lstate) (l : label) (s' : lstate) : Prop := mkstepok {
  so_inv : linv s';
  so_ret : forall d e, hd_error (l_log s') = Some (BReturned d e) -> read_returned s s' d e;
  so_wait : reader_label l -> waits_on s s' \/ exists d e, hd_error (l_log s') = Some (BReturned d e) }.

(* the locked region, entered from PIdle or PWoken _ true *)
Lemma read_locked_ok : forall s l n,
  n <> 0 -> 2 < rank (l_pc s) -> l_read s ++ l_buf s = l_delivered s -> step_ok s l (read_locked s n).
Proof.
  intros s l n Hn Hr Hs. destruct (l_buf s) as [|b0 br] eqn:Eb.
  - rewrite (read_locked_empty _ _ Eb). split; [|intros d e Ho; discriminate|].
    + split; [exact Hs|]. split; [exact Hn|]. intro H. contradiction.
    + intros _. left. split; cbn; try reflexivity; [symmetry; exact Eb|]. unfold measure. cbn. lia.
  - rewrite read_locked_data by (rewrite Eb; discriminate). split.
    + split; [|exact I]. cbn. rewrite <- app_assoc, firstn_skipn, Eb. exact Hs.
    + intros d e Ho. injection Ho as <- <-. split; cbn; rewrite ?Eb; try reflexivity.
      * symmetry. apply firstn_skipn.
      * destruct n; [contradiction|discriminate].
    + intros _. right. eexists _, _. reflexivity.
Qed.

(* only LStart and LResume log a return: both through the locked region, and
   LResume after the close also with end-of-file *)
Lemma lstep_ok : forall s l s', linv s -> lstep s l = Some s' -> step_ok s l s'.
Proof.
  intros s l s' [Hs Hpc] H. unfold pc_ok in Hpc. unfold lstep in H.
  destruct l as [n| | |iq d0|].
  - (* LStart *)
    destruct (l_pc s) eqn:Epc; try discriminate. destruct (Nat.eqb_spec n 0) as [|Hn]; [discriminate|].
    injection H as <-. apply read_locked_ok; [exact Hn|rewrite Epc; cbn; lia|exact Hs].
  - (* LWait: a queued signal, the close, or the receive. Only the signal and
       the counter change: the measure falls from 4 + 2 to 3, or from 2 to 1 or 0. *)
    destruct (l_pc s) as [|m|m|m o] eqn:Epc; try discriminate. destruct Hpc as [Hm Hw].
    destruct (l_tok s) eqn:Et; [|destruct (l_closed s) eqn:Ecl]; injection H as <-;
      (split; [split; [exact Hs|]|intros d e Ho; discriminate
              |intros _; left; split; cbn; rewrite ?Ecl; try reflexivity;
               unfold measure; cbn; rewrite Epc, Et; cbn; lia]).
    + split; [exact Hm|discriminate].
    + split; [exact Hm|reflexivity].
    + (* nothing queued, not closed: the buffer was empty *)
      repeat split; try assumption. cbn. destruct (l_buf s); [reflexivity|].
      destruct Hw; discriminate.
  - (* LResume: woken by a signal; woken by the close with an empty, a non-empty buffer *)
    destruct (l_pc s) as [|m|m|m o] eqn:Epc; try discriminate. destruct Hpc as [Hm Hw].
    destruct o; [injection H as <-; apply read_locked_ok; [exact Hm|rewrite Epc; cbn; lia|exact Hs]|].
    destruct (l_buf s) as [|b0 br] eqn:Eb; injection H as <-; split;
      try (intros _; right; eexists _, _; reflexivity).
    + split; [exact Hs|exact I].
    + intros d e Ho. injection Ho as <- <-. split; cbn; rewrite ?Eb; try reflexivity.
      * symmetry. apply app_nil_r.
      * repeat split. apply Hw. reflexivity.
    + split; [|exact I]. cbn. rewrite <- app_assoc, firstn_skipn. exact Hs.
    + intros d e Ho. injection Ho as <- <-. split; cbn; rewrite ?Eb; try reflexivity.
      * symmetry. apply firstn_skipn.
      * destruct m; [contradiction|discriminate].
  - (* LDeliver: refused when closed; else by program counter PIdle, PChecked, PRecv, PWoken *)
    destruct (l_closed s) eqn:Ecl.
    + injection H as <-. split; [|intros d e Ho; discriminate|intros []].
      split; [exact Hs|]. unfold pc_ok. cbn. destruct (l_pc s); assumption.
    + assert (Hs' : l_read s ++ l_buf s ++ d0 = l_delivered s ++ d0) by (rewrite app_assoc, Hs; reflexivity).
      destruct (l_pc s) as [|m|m|m o]; injection H as <-;
        (split; [split; [exact Hs'|]|intros d e Ho; destruct iq; discriminate|intros []]); unfold pc_ok; cbn.
      * exact I.
      * split; [apply Hpc|]. intros _. left. reflexivity.
      * split; [apply Hpc|discriminate].
      * (* a reader woken by the close excludes an open stream *)
        split; [apply Hpc|]. intro Ho. discriminate (proj2 Hpc Ho).
  - (* LClose, by program counter *)
    injection H as <-. split; [|intros d e Ho; discriminate|intros []]. split; [exact Hs|]. unfold pc_ok. cbn.
    destruct (l_pc s) as [|m|m|m o]; [exact I| | |]; (split; [apply Hpc|]).
    + intros _. right. reflexivity.
    + reflexivity.
    + reflexivity.
Qed.

Lemma lstep_inv : forall s l s', linv s -> lstep s l = Some s' -> linv s'.
Proof. intros s l s' Hi H. exact (so_inv _ _ _ (lstep_ok _ _ _ Hi H)). Qed.

Theorem linv_reachable : forall tr s, lrun l_init tr = Some s -> linv s.
Proof. exact (invariant_run lstate label lstep linv l_init linv_init lstep_inv). Qed.

Theorem step_obs_returned : forall tr s l d e,
  lrun l_init tr = Some s -> step_obs s l = Some (BReturned d e) ->
  exists s', read_returned s s' d e.
Proof.
  intros tr s l d e H Ho. unfold step_obs in Ho. destruct (lstep s l) as [s'|] eqn:Hst; [|discriminate].
  exists s'. exact (so_ret _ _ _ (lstep_ok _ _ _ (linv_reachable _ _ H) Hst) d e Ho).
Qed.

Lemma lrun_cons : forall s l s1 tr s',
  lstep s l = Some s1 -> lrun s1 tr = Some s' -> lrun s (l :: tr) = Some s'.
Proof. intros s l s1 tr s' H1 H2. unfold lrun in *. cbn [run]. rewrite H1. exact H2. Qed.

Lemma reader_enabled : forall s,
  linv s -> l_buf s <> [] \/ l_closed s = true ->
  exists l s1, reader_label l /\ lstep s l = Some s1.
Proof.
  intros s [_ Hpc] Hd. unfold pc_ok in Hpc. unfold lstep.
  destruct (l_pc s) as [|n|n|n o].
  - exists (LStart 1). eexists. split; [discriminate|reflexivity].
  - exists LWait. destruct (l_tok s); [|destruct (l_closed s)]; eexists; split; try exact I; reflexivity.
  - (* PRecv: nothing buffered, not closed *)
    exfalso. destruct Hpc as (_ & Hb & Hc). destruct Hd; congruence.
  - exists LResume. destruct o; [|destruct (l_buf s)]; eexists; split; try exact I; reflexivity.
Qed.

Theorem read_returns : forall s,
  linv s -> l_buf s <> [] \/ l_closed s = true ->
  exists tr s' d e, lrun s tr = Some s' /\ Forall reader_label tr /\ read_returned s s' d e.
Proof.
  intro s. induction s as [s IH] using (induction_ltof1 _ measure). intros Hi Hd.
  destruct (reader_enabled s Hi Hd) as (l & s1 & Hl & Hst).
  destruct (lstep_ok _ _ _ Hi Hst) as [Hi1 Hret Hw].
  destruct (Hw Hl) as [[Wb Wr Wc Wd Wm]|(d & e & Ho)].
  - destruct (IH s1 Wm Hi1) as (tr & s' & d & e & Hrun & Hlab & R); [rewrite Wb, Wc; exact Hd|].
    exists (l :: tr), s', d, e. split; [apply (lrun_cons _ _ _ _ _ Hst Hrun)|].
    split; [constructor; assumption|]. destruct R as [Rl Rb Rr Rc Rd Rp Re].
    rewrite Wb in Rb, Re. rewrite Wr in Rr. rewrite Wc in Rc, Re. rewrite Wd in Rd. split; assumption.
  - exists [l], s1, d, e. split; [apply (lrun_cons _ _ _ _ _ Hst); reflexivity|].
    split; [repeat constructor; exact Hl|exact (Hret d e Ho)].
Qed.

(* every return with data shortens the buffer *)
Lemma reader_drains : forall s,
  linv s -> l_closed s = true ->
  exists tr' s', lrun s tr' = Some s' /\ Forall reader_label tr' /\
    l_closed s' = true /\ l_delivered s' = l_delivered s /\ l_read s' = l_delivered s /\
    l_buf s' = [] /\ l_pc s' = PIdle /\ hd_error (l_log s') = Some (BReturned [] true).
Proof.
  intro s. induction s as [s IH] using (induction_ltof1 _ (fun s => length (l_buf s))). intros Hi Hc.
  destruct (read_returns s Hi (or_intror Hc)) as (tr1 & s1 & d & e & Hrun & Hlab & R).
  destruct R as [Hlog Hbuf Hread Hcl Hdel Hpc He]. destruct e.
  - (* end-of-file: the buffer was empty, so everything delivered has been read *)
    destruct He as (-> & Hb & _). exists tr1, s1. rewrite Hb in Hbuf.
    rewrite Hcl, Hdel, Hread, app_nil_r, <- (linv_stream _ Hi), Hb, app_nil_r. repeat split; auto.
  - destruct (IH s1) as (tr2 & s2 & Hrun2 & Hlab2 & Hfin).
    + unfold ltof. rewrite Hbuf, app_length. destruct d; [contradiction|]. cbn. lia.
    + exact (invariant_run _ _ lstep linv s Hi lstep_inv tr1 s1 Hrun).
    + rewrite Hcl. exact Hc.
    + exists (tr1 ++ tr2), s2. rewrite Hdel in Hfin.
      split; [|split; [apply Forall_app; split; assumption|exact Hfin]].
      unfold lrun in *. rewrite run_app, Hrun. exact Hrun2.
Qed.

Definition pinned_witness_conn : rconn :=
  mkrc (str "a") 8 1 (str "ABC") (Z.of_N ibb_max_buffer) false false [] [].

(* the repaired handlePayload on the input of C15_pinned_refusal_refuted:
   "REVG" decodes to "DEF", "!!!!" is not base64 *)
Lemma repaired_on_pinned_witness :
  payload_conn pinned_witness_conn true 1%N (str "REVG!!!!") = (pinned_witness_conn, RErr BadRequest).
Proof. vm_compute. reflexivity. Qed.
