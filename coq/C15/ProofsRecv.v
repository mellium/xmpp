(* C15/ProofsRecv.v — lemmas about the receiver model: the handler's stream
   table with reusable session identifiers, handlePayload, reads, closes. *)
From XV Require Import lib.Bytes lib.Base64 C15.Model C15.Proofs.

Lemma nth_upd_list : forall l id f j,
  nth_error (upd_list l id f) j = if j =? id then option_map f (nth_error l j) else nth_error l j.
Proof.
  induction l as [|c0 l IH]; intros [|id] f [|j]; cbn; try reflexivity.
  - destruct (j =? id); reflexivity.
  - apply IH.
Qed.

Lemma upd_list_none : forall l id f, nth_error l id = None -> upd_list l id f = l.
Proof.
  induction l as [|c0 l IH]; intros [|id] f H; cbn in *; try reflexivity; try discriminate.
  rewrite IH by exact H. reflexivity.
Qed.

Lemma upd_list_const_same : forall l id c, nth_error l id = Some c -> upd_list l id (fun _ => c) = l.
Proof.
  induction l as [|c0 l IH]; intros [|id] c H; cbn in *; try discriminate.
  - injection H as <-. reflexivity.
  - rewrite IH by exact H. reflexivity.
Qed.

Lemma upd_list_length : forall l id f, length (upd_list l id f) = length l.
Proof. induction l as [|c0 l IH]; intros [|id] f; cbn; try reflexivity. rewrite IH. reflexivity. Qed.

Lemma Forall_upd_list : forall (P : rconn -> Prop) l id f,
  Forall P l -> (forall c, nth_error l id = Some c -> P c -> P (f c)) -> Forall P (upd_list l id f).
Proof.
  intros P. induction l as [|c0 l IH]; intros [|id] f H Hf; cbn; try exact H.
  - inversion H as [|? ? H1 H2]; subst. constructor; [apply Hf; [reflexivity|exact H1]|exact H2].
  - inversion H as [|? ? H1 H2]; subst. constructor; [exact H1|]. apply IH; [exact H2|].
    intros c Hc. apply Hf. exact Hc.
Qed.

Lemma get_upd : forall h id f j,
  get (upd h id f) j = if j =? id then option_map f (get h j) else get h j.
Proof. intros h id f j. apply nth_upd_list. Qed.

Lemma get_upd_same : forall h id f c, get h id = Some c -> get (upd h id f) id = Some (f c).
Proof. intros h id f c H. rewrite get_upd, Nat.eqb_refl, H. reflexivity. Qed.

Lemma get_upd_other : forall h id j f, j <> id -> get (upd h id f) j = get h j.
Proof. intros h id j f H. rewrite get_upd. apply Nat.eqb_neq in H. rewrite H. reflexivity. Qed.

Lemma upd_const_same : forall h id c, get h id = Some c -> upd h id (fun _ => c) = h.
Proof.
  intros [cs t] id c H. unfold upd. cbn [h_conns h_tbl]. unfold get in H. cbn in H.
  rewrite (upd_list_const_same _ _ _ H). reflexivity.
Qed.

Lemma tbl_upd : forall h id f, h_tbl (upd h id f) = h_tbl h.
Proof. reflexivity. Qed.

Lemma tbl_find_drop : forall t sid s,
  tbl_find (tbl_drop t sid) s = if bytes_eqb sid s then None else tbl_find t s.
Proof.
  induction t as [|[s0 i] t IH]; intros sid s; cbn [tbl_drop filter fst tbl_find].
  - destruct (bytes_eqb sid s); reflexivity.
  - destruct (bytes_eqb s0 sid) eqn:E; cbn [negb tbl_find]; fold (tbl_drop t sid); rewrite IH.
    + apply bytes_eqb_eq in E. subst s0. destruct (bytes_eqb sid s); reflexivity.
    + destruct (bytes_eqb s0 s) eqn:E0; [|reflexivity].
      apply bytes_eqb_eq in E0. subst s0. destruct (bytes_eqb sid s) eqn:E1; [|reflexivity].
      apply bytes_eqb_eq in E1. subst s. rewrite bytes_eqb_refl in E. discriminate.
Qed.

Lemma tbl_find_set : forall t sid id s,
  tbl_find (tbl_set t sid id) s = if bytes_eqb sid s then Some id else tbl_find t s.
Proof.
  intros t sid id s. unfold tbl_set. cbn [tbl_find]. rewrite tbl_find_drop.
  destruct (bytes_eqb sid s); reflexivity.
Qed.

Lemma tbl_find_rm : forall t sid id s,
  tbl_find (tbl_rm t sid id) s =
    if bytes_eqb sid s
    then match tbl_find t s with Some j => if j =? id then None else Some j | None => None end
    else tbl_find t s.
Proof.
  intros t sid id s. unfold tbl_rm.
  destruct (bytes_eqb sid s) eqn:E.
  - apply bytes_eqb_eq in E. subst s.
    destruct (tbl_find t sid) as [j|] eqn:Ef; [|exact Ef].
    destruct (j =? id); [|exact Ef]. rewrite tbl_find_drop, bytes_eqb_refl. reflexivity.
  - destruct (tbl_find t sid) as [j|]; [|reflexivity].
    destruct (j =? id); [|reflexivity]. rewrite tbl_find_drop, E. reflexivity.
Qed.

Lemma tbl_find_rm_some : forall t sid id s j,
  tbl_find (tbl_rm t sid id) s = Some j -> tbl_find t s = Some j /\ (j = id -> sid <> s).
Proof.
  intros t sid id s j H. rewrite tbl_find_rm in H. destruct (bytes_eqb sid s) eqn:E.
  - destruct (tbl_find t s) as [j0|]; [|discriminate].
    destruct (j0 =? id) eqn:Ej; [discriminate|]. injection H as <-.
    split; [reflexivity|]. intros ->. rewrite Nat.eqb_refl in Ej. discriminate.
  - split; [exact H|]. intros _ ->. rewrite bytes_eqb_refl in E. discriminate.
Qed.

Lemma lookup_get : forall h sid id c, lookup h sid = Some (id, c) -> get h id = Some c /\ tbl_find (h_tbl h) sid = Some id.
Proof.
  intros h sid id c H. unfold lookup in H.
  destruct (tbl_find (h_tbl h) sid) as [j|]; [|discriminate].
  destruct (get h j) as [c0|] eqn:Eg; [|discriminate]. injection H as <- <-. split; [exact Eg|reflexivity].
Qed.

Lemma lookup_upd_same : forall h sid id c f,
  lookup h sid = Some (id, c) -> lookup (upd h id f) sid = Some (id, f c).
Proof.
  intros h sid id c f H. destruct (lookup_get _ _ _ _ H) as [Hg Ht].
  unfold lookup. rewrite tbl_upd, Ht, (get_upd_same _ _ _ _ Hg). reflexivity.
Qed.

Lemma lookup_upd_other : forall h sid id j c f,
  lookup h sid = Some (j, c) -> j <> id -> lookup (upd h id f) sid = Some (j, c).
Proof.
  intros h sid id j c f H Hne. destruct (lookup_get _ _ _ _ H) as [Hg Ht].
  unfold lookup. rewrite tbl_upd, Ht, (get_upd_other _ _ _ _ Hne), Hg. reflexivity.
Qed.

Lemma lookup_upd_none : forall h sid id f, lookup h sid = None -> get h id <> None \/ True ->
  tbl_find (h_tbl h) sid = None -> lookup (upd h id f) sid = None.
Proof. intros h sid id f _ _ Ht. unfold lookup. rewrite tbl_upd, Ht. reflexivity. Qed.

Lemma payload_conn_eq : forall c iq seq data,
  payload_conn c iq seq data =
    match refusal c seq data with
    | Some e => (c, RErr e)
    | None => (accept_data c seq data (payload_of (mkpkt seq data)), if iq then RAck else RSilent)
    end.
Proof.
  intros c iq seq data. unfold payload_conn, refusal, payload_of. cbn [p_data].
  destruct (rc_rclosed c); [reflexivity|]. destruct (negb (seq =? rc_seq c)%N); [reflexivity|].
  destruct (negb (fits c data)); [reflexivity|]. destruct (decode_go data); reflexivity.
Qed.

Lemma handle_payload_eq : forall h iq sid seq data,
  handle_payload h iq sid seq data =
    match lookup h sid with
    | None => (h, RErr ItemNotFound)
    | Some (id, c) =>
        match refusal c seq data with
        | Some e => (h, RErr e)
        | None => (upd h id (fun _ => accept_data c seq data (payload_of (mkpkt seq data))),
                   if iq then RAck else RSilent)
        end
    end.
Proof.
  intros h iq sid seq data. unfold handle_payload. destruct (lookup h sid) as [[id c]|] eqn:El; [|reflexivity].
  rewrite payload_conn_eq. destruct (refusal c seq data); [|reflexivity].
  rewrite (upd_const_same _ _ _ (proj1 (lookup_get _ _ _ _ El))). reflexivity.
Qed.

Lemma handle_payload_unknown : forall h iq sid seq data,
  lookup h sid = None -> handle_payload h iq sid seq data = (h, RErr ItemNotFound).
Proof. intros h iq sid seq data H. rewrite handle_payload_eq, H. reflexivity. Qed.

Lemma handle_payload_good : forall h iq sid seq data id c d,
  lookup h sid = Some (id, c) -> rc_rclosed c = false -> seq = rc_seq c -> fits c data = true ->
  decode_go data = Some d ->
  handle_payload h iq sid seq data =
    (upd h id (fun _ => accept_data c seq data d), if iq then RAck else RSilent).
Proof.
  intros h iq sid seq data id c d Hl Hc Hs Hf Hd. rewrite handle_payload_eq, Hl.
  apply N.eqb_eq in Hs. unfold refusal, payload_of. cbn [p_data]. rewrite Hc, Hs, Hf, Hd. reflexivity.
Qed.

(* per connection: what was read, followed by what is buffered, is the bytes
   of the packets accepted for it *)
Definition conn_ok (c : rconn) : Prop := rc_rd c ++ rc_buf c = accepted_bytes c.

(* the table refers to existing, open connections carrying that identifier *)
Definition wf (h : handler) : Prop :=
  forall sid id, tbl_find (h_tbl h) sid = Some id ->
    exists c, get h id = Some c /\ rc_sid c = sid /\ rc_rclosed c = false.

Definition inv (h : handler) : Prop := Forall conn_ok (h_conns h) /\ wf h.

Lemma inv_empty : inv h_empty.
Proof. split; [constructor|]. intros sid id H. discriminate. Qed.

Lemma wf_lookup : forall h sid id c,
  wf h -> lookup h sid = Some (id, c) -> rc_sid c = sid /\ rc_rclosed c = false.
Proof.
  intros h sid id c Hw Hl. destruct (lookup_get _ _ _ _ Hl) as [Hg Ht].
  destruct (Hw sid id Ht) as [c0 [Hg0 Hc]]. rewrite Hg in Hg0. injection Hg0 as <-. exact Hc.
Qed.

(* what an event may do to a connection that it does not close *)
Record conn_keeps (c c1 : rconn) : Prop := mkkeeps {
  keeps_sid : rc_sid c1 = rc_sid c;
  keeps_rclosed : rc_rclosed c1 = rc_rclosed c;
  keeps_ok : conn_ok c -> conn_ok c1;
  keeps_pk : rc_rclosed c = true -> rc_pk c1 = rc_pk c }.

Lemma keeps_accept : forall c seq data,
  refusal c seq data = None -> conn_keeps c (accept_data c seq data (payload_of (mkpkt seq data))).
Proof.
  intros c seq data Hr. split; try reflexivity.
  - unfold conn_ok, accepted_bytes. cbn [accept_data rc_rd rc_buf rc_pk]. intro H.
    rewrite map_app, concat_app. cbn [map concat]. rewrite app_nil_r, app_assoc, H. reflexivity.
  - intro Hc. unfold refusal in Hr. rewrite Hc in Hr. discriminate.
Qed.

Lemma keeps_take : forall n c, conn_keeps c (take_read n c).
Proof.
  intros n c. split; try reflexivity.
  unfold conn_ok, accepted_bytes. cbn [take_read rc_rd rc_buf rc_pk].
  rewrite <- app_assoc, firstn_skipn. intro H. exact H.
Qed.

Lemma keeps_max : forall m c, conn_keeps c (set_max m c).
Proof. intros m c. split; try reflexivity. intro H. exact H. Qed.

Lemma keeps_werr : forall c, conn_keeps c (set_werr c).
Proof. intros c. split; try reflexivity. intro H. exact H. Qed.

Lemma conns_close : forall h id,
  h_conns (close_conn h id) = upd_list (h_conns h) id set_rclosed.
Proof.
  intros h id. unfold close_conn. destruct (get h id) as [c|] eqn:Eg; [reflexivity|].
  symmetry. apply upd_list_none. exact Eg.
Qed.

Lemma get_close : forall h id j, get (close_conn h id) j = get (upd h id set_rclosed) j.
Proof. intros h id j. unfold get. rewrite conns_close. reflexivity. Qed.

Lemma get_close_same : forall h id c, get h id = Some c -> get (close_conn h id) id = Some (set_rclosed c).
Proof. intros h id c H. rewrite get_close. apply get_upd_same. exact H. Qed.

Lemma get_close_other : forall h id j, j <> id -> get (close_conn h id) j = get h j.
Proof. intros h id j H. rewrite get_close. apply get_upd_other. exact H. Qed.

Lemma tbl_close : forall h id c, get h id = Some c -> h_tbl (close_conn h id) = tbl_rm (h_tbl h) (rc_sid c) id.
Proof. intros h id c H. unfold close_conn. rewrite H. reflexivity. Qed.

Lemma get_add_old : forall h sid bs id c, get h id = Some c -> get (add_conn h sid bs) id = Some c.
Proof.
  intros h sid bs id c H. unfold get, add_conn in *. cbn [h_conns].
  rewrite nth_error_app1; [exact H|]. apply nth_error_Some. congruence.
Qed.

Lemma get_add_new : forall h sid bs, get (add_conn h sid bs) (length (h_conns h)) = Some (new_conn sid bs).
Proof.
  intros h sid bs. unfold get, add_conn. cbn [h_conns].
  rewrite nth_error_app2 by lia. rewrite Nat.sub_diag. reflexivity.
Qed.

Lemma inv_add : forall h sid bs, inv h -> inv (add_conn h sid bs).
Proof.
  intros h sid bs [Hc Hw]. split.
  - unfold add_conn. cbn [h_conns]. apply Forall_app. split; [exact Hc|]. repeat constructor.
  - intros s j Ht. unfold add_conn in Ht. cbn [h_tbl] in Ht.
    rewrite tbl_find_set in Ht. destruct (bytes_eqb sid s) eqn:E.
    + apply bytes_eqb_eq in E. subst s. injection Ht as <-.
      exists (new_conn sid bs). rewrite get_add_new. repeat split; reflexivity.
    + destruct (Hw s j Ht) as [c [Hg [Hs Hcl]]].
      exists c. rewrite (get_add_old _ _ _ _ _ Hg). repeat split; assumption.
Qed.

Lemma inv_upd : forall h id f,
  inv h -> (forall c, get h id = Some c -> conn_keeps c (f c)) -> inv (upd h id f).
Proof.
  intros h id f [Hc Hw] Hf. split.
  - apply Forall_upd_list; [exact Hc|]. intros c Hg. apply (keeps_ok _ _ (Hf c Hg)).
  - intros sid j Ht. destruct (Hw sid j Ht) as [c [Hg [Hs Hcl]]].
    destruct (Nat.eq_dec j id) as [->|Hne].
    + exists (f c). rewrite (get_upd_same _ _ _ _ Hg). destruct (Hf c Hg) as [H1 H2 _ _].
      split; [reflexivity|]. split; congruence.
    + exists c. rewrite (get_upd_other _ _ _ _ Hne). repeat split; assumption.
Qed.

Lemma inv_close : forall h id, inv h -> inv (close_conn h id).
Proof.
  intros h id [Hc Hw]. split.
  - rewrite conns_close. apply Forall_upd_list; [exact Hc|]. intros c _ H. exact H.
  - destruct (get h id) as [c|] eqn:Eg; [|unfold close_conn; rewrite Eg; exact Hw].
    intros sid j Ht. rewrite (tbl_close _ _ _ Eg) in Ht.
    apply tbl_find_rm_some in Ht. destruct Ht as [Ht Hne].
    destruct (Hw sid j Ht) as [c0 [Hg [Hs Hcl]]].
    exists c0. rewrite get_close_other; [repeat split; assumption|].
    (* the entry of sid that refers to id itself is the one that went *)
    intros ->. apply Hne; [reflexivity|]. rewrite Eg in Hg. injection Hg as <-. exact Hs.
Qed.

Inductive h_effect (h : handler) : handler -> Prop :=
| eff_none : h_effect h h
| eff_add sid bs : h_effect h (add_conn h sid bs)
| eff_close id : h_effect h (close_conn h id)
| eff_upd id f : (forall c, get h id = Some c -> conn_keeps c (f c)) -> h_effect h (upd h id f).

Definition rd_of (h : handler) (id : nat) : bytes := match get h id with Some c => rc_rd c | None => [] end.
Definition pk_of (h : handler) (id : nat) : list packet := match get h id with Some c => rc_pk c | None => [] end.

(* the data packets of a run that were accepted (acknowledged, or - on the
   message carrier - not answered with an error) while the connection with
   handle id was the one registered under their session identifier *)
Fixpoint accepted_to (id : nat) (h : handler) (es : list event) : list packet :=
  match es with
  | [] => []
  | e :: rest =>
      let '(h1, o) := h_step h e in
      (match e, o with
       | EData _ sid seq data, OReply r =>
           if is_ack r then match lookup h sid with
                            | Some (j, _) => if j =? id then [mkpkt seq data] else []
                            | None => []
                            end
           else []
       | _, _ => []
       end) ++ accepted_to id h1 rest
  end.

Definition extends (h h1 : handler) (id : nat) (rd : bytes) (pk : list packet) : Prop :=
  rd_of h1 id = rd_of h id ++ rd /\ pk_of h1 id = pk_of h id ++ pk.

Lemma extends_refl : forall h id, extends h h id [] [].
Proof. intros h id. split; symmetry; apply app_nil_r. Qed.

Lemma extends_trans : forall h h1 h2 id rd1 pk1 rd2 pk2,
  extends h h1 id rd1 pk1 -> extends h1 h2 id rd2 pk2 -> extends h h2 id (rd1 ++ rd2) (pk1 ++ pk2).
Proof. intros h h1 h2 id rd1 pk1 rd2 pk2 [A B] [C D]. split; rewrite app_assoc; congruence. Qed.

Lemma extends_get : forall h h1 id c c1 rd pk,
  get h id = Some c -> get h1 id = Some c1 -> rc_rd c1 = rc_rd c ++ rd -> rc_pk c1 = rc_pk c ++ pk ->
  extends h h1 id rd pk.
Proof.
  intros h h1 id c c1 rd pk Hg Hg1 Hr Hp. unfold extends, rd_of, pk_of. rewrite Hg, Hg1. split; assumption.
Qed.

Lemma extends_other : forall h h1 id, get h1 id = get h id -> extends h h1 id [] [].
Proof. intros h h1 id H. unfold extends, rd_of, pk_of. rewrite H, !app_nil_r. split; reflexivity. Qed.

Lemma extends_add : forall h sid bs id, extends h (add_conn h sid bs) id [] [].
Proof.
  intros h sid bs id. destruct (get h id) as [c|] eqn:Eg.
  - apply extends_other. rewrite Eg. apply get_add_old. exact Eg.
  - (* a handle not in use before is still unused or is the new, empty connection *)
    unfold extends, rd_of, pk_of. rewrite Eg. unfold get, add_conn in *. cbn [h_conns].
    rewrite nth_error_app2 by (apply nth_error_None; exact Eg).
    destruct (id - length (h_conns h)) as [|[|k]]; split; reflexivity.
Qed.

Lemma extends_keep : forall h i f id,
  (forall c, rc_rd (f c) = rc_rd c /\ rc_pk (f c) = rc_pk c) -> extends h (upd h i f) id [] [].
Proof.
  intros h i f id Hf. unfold extends, rd_of, pk_of. rewrite get_upd, !app_nil_r.
  destruct (id =? i); [|split; reflexivity]. destruct (get h id) as [c|]; [apply Hf|split; reflexivity].
Qed.

Lemma extends_close : forall h i id, extends h (close_conn h i) id [] [].
Proof.
  intros h i id. apply extends_trans with (h1 := upd h i set_rclosed) (rd1 := []) (pk1 := []).
  - apply extends_keep. intro c. split; reflexivity.
  - apply extends_other. apply get_close.
Qed.

(* The one case analysis over the events: the invariant (h_step_inv), the ghost
   accounting (ghost_run) and frozen_step read a step through h_effect and
   extends only. *)
Lemma h_step_spec : forall h e,
  let '(h1, o) := h_step h e in
  h_effect h h1 /\ forall id, extends h h1 id (reads_of id [e] [o]) (accepted_to id h [e]).
Proof.
  intros h e. cbn [accepted_to].
  pose proof (conj (eff_none h) (extends_refl h)) as Hnone.
  destruct e as [s bs acc|s bs lst|iq s seq data|i n|i max|i wacc|s|i]; cbn [h_step].
  - (* EOpenLocal *)
    destruct acc; [|exact Hnone]. split; [constructor|intro id; apply extends_add].
  - (* EOpenRemote *)
    destruct lst; [|exact Hnone]. split; [constructor|intro id; apply extends_add].
  - (* EData: refused, or accepted by the connection registered under s *)
    rewrite handle_payload_eq. destruct (lookup h s) as [[j c]|] eqn:Hl; [|exact Hnone].
    destruct (refusal c seq data) eqn:Hr; [exact Hnone|].
    destruct (lookup_get _ _ _ _ Hl) as [Hg _]. split.
    + constructor. intros c' Hg'. rewrite Hg in Hg'. injection Hg' as <-. apply keeps_accept. exact Hr.
    + intro id. rewrite app_nil_r.
      replace (is_ack (if iq then RAck else RSilent)) with true by (destruct iq; reflexivity).
      destruct (Nat.eqb_spec j id) as [->|N].
      * apply (extends_get _ _ _ _ _ _ _ Hg (get_upd_same _ _ _ _ Hg)); [symmetry; apply app_nil_r|reflexivity].
      * apply extends_other, get_upd_other. congruence.
  - (* ERead: no such connection; empty buffer (end-of-file or blocked); data *)
    destruct (get h i) as [c|] eqn:Eg; [|exact Hnone].
    destruct (rc_buf c) as [|b0 br] eqn:Eb.
    + destruct (rc_rclosed c); [|exact Hnone].
      split; [constructor|]. intro id. cbn [reads_of]. destruct (i =? id); apply extends_refl.
    + split; [constructor; intros; apply keeps_take|].
      intro id. cbn [reads_of]. rewrite app_nil_r. destruct (Nat.eqb_spec i id) as [->|N].
      * apply (extends_get _ _ _ _ _ _ _ Eg (get_upd_same _ _ _ _ Eg)); [|symmetry; apply app_nil_r].
        cbn [take_read rc_rd]. rewrite Eb. reflexivity.
      * apply extends_other, get_upd_other. congruence.
  - (* ESetMax *)
    split; [constructor; intros; apply keeps_max|].
    intro id. apply extends_keep. intro c. split; reflexivity.
  - (* EWrite: only a first refusal by the peer changes anything *)
    destruct (get h i) as [c|]; [|exact Hnone].
    destruct (rc_rclosed c); [|destruct (rc_werr c); [|destruct wacc]]; try exact Hnone.
    split; [constructor; intros; apply keeps_werr|]. intro id. apply extends_keep. intro c0. split; reflexivity.
  - (* ECloseRemote *)
    destruct (lookup h s) as [[j c]|]; [|exact Hnone].
    split; [constructor|intro id; apply extends_close].
  - (* ECloseLocal *)
    destruct (get h i) as [c|]; [destruct (rc_rclosed c)|]; try exact Hnone.
    split; [constructor|intro id; apply extends_close].
Qed.

Lemma h_step_effect : forall h e, h_effect h (fst (h_step h e)).
Proof. intros h e. pose proof (h_step_spec h e) as S. destruct (h_step h e). exact (proj1 S). Qed.

Lemma h_step_inv : forall h e, inv h -> inv (fst (h_step h e)).
Proof.
  intros h e Hi. destruct (h_step_effect h e) as [|sid bs|id|id f Hf].
  - exact Hi.
  - apply inv_add. exact Hi.
  - apply inv_close. exact Hi.
  - apply inv_upd; assumption.
Qed.

Lemma h_run_invariant : forall (P : handler -> Prop),
  (forall h e, P h -> P (fst (h_step h e))) ->
  forall es h h' os, P h -> h_run h es = (h', os) -> P h'.
Proof.
  intros P Hstep. induction es as [|e es IH]; intros h h' os Hp H; cbn [h_run] in H.
  - injection H as <- _. exact Hp.
  - apply (Hstep h e) in Hp. destruct (h_step h e) as [h1 o]. destruct (h_run h1 es) as [h2 os2] eqn:E2.
    injection H as <- _. exact (IH h1 h2 os2 Hp E2).
Qed.

Theorem inv_run : forall es h h' os, inv h -> h_run h es = (h', os) -> inv h'.
Proof. exact (h_run_invariant inv h_step_inv). Qed.

Lemma conn_ok_get : forall h id c, Forall conn_ok (h_conns h) -> get h id = Some c -> conn_ok c.
Proof.
  intros h id c H Hg. rewrite Forall_forall in H. apply H. eapply nth_error_In. exact Hg.
Qed.

Lemma reads_of_cons : forall id e es o os,
  reads_of id (e :: es) (o :: os) = reads_of id [e] [o] ++ reads_of id es os.
Proof.
  intros id e es o os. destruct e; try reflexivity. destruct o; cbn [reads_of]; rewrite ?app_nil_r; reflexivity.
Qed.

Lemma accepted_to_cons : forall id h e es,
  accepted_to id h (e :: es) = accepted_to id h [e] ++ accepted_to id (fst (h_step h e)) es.
Proof. intros id h e es. cbn [accepted_to]. destruct (h_step h e). rewrite app_nil_r. reflexivity. Qed.

Theorem ghost_run : forall es h h' os id,
  h_run h es = (h', os) -> extends h h' id (reads_of id es os) (accepted_to id h es).
Proof.
  induction es as [|e es IH]; intros h h' os id H; cbn [h_run] in H.
  - injection H as <- <-. apply extends_refl.
  - rewrite accepted_to_cons. pose proof (h_step_spec h e) as S.
    destruct (h_step h e) as [h1 o]. destruct (h_run h1 es) as [h2 os2] eqn:E2.
    injection H as <- <-. rewrite reads_of_cons.
    exact (extends_trans _ _ _ _ _ _ _ _ (proj2 S id) (IH _ _ _ id E2)).
Qed.

(* Stream integrity from any handler in which the accounting is right: for
   each connection, what it had read before and what is read during the
   history, followed by what is buffered at the end, is the bytes of the
   packets it had accepted before and accepts during the history. *)
Theorem integrity_run : forall es h h' os id c',
  inv h -> h_run h es = (h', os) -> get h' id = Some c' ->
  rd_of h id ++ reads_of id es os ++ rc_buf c' = concat (map payload_of (pk_of h id ++ accepted_to id h es)).
Proof.
  intros es h h' os id c' Hi H Hg.
  pose proof (conn_ok_get _ _ _ (proj1 (inv_run _ _ _ _ Hi H)) Hg) as Hc.
  destruct (ghost_run _ _ _ _ id H) as [Hr Hp]. unfold rd_of at 1 in Hr. unfold pk_of at 1 in Hp.
  rewrite Hg in Hr, Hp. rewrite app_assoc, <- Hr, <- Hp. exact Hc.
Qed.

Lemma payload_concat_pieces : forall ps b,
  decode_go_pieces (map p_data ps) = Some b -> concat (map payload_of ps) = b.
Proof.
  induction ps as [|p rest IH]; intros b H; cbn [map decode_go_pieces] in H.
  - injection H as <-. reflexivity.
  - cbn [map concat]. unfold payload_of at 1.
    destruct (decode_go (p_data p)) as [a|]; [|discriminate].
    destruct (decode_go_pieces (map p_data rest)) as [b'|] eqn:Eb; [|discriminate].
    injection H as <-. rewrite (IH b' eq_refl). reflexivity.
Qed.

Theorem close_keeps_other_stream : forall h id sid j c,
  lookup h sid = Some (j, c) -> j <> id ->
  lookup (close_conn h id) sid = Some (j, c).
Proof.
  intros h id sid j c Hl Hne. destruct (lookup_get _ _ _ _ Hl) as [Hg Ht].
  destruct (get h id) as [ci|] eqn:Eg; [|unfold close_conn; rewrite Eg; exact Hl].
  unfold lookup. rewrite (tbl_close _ _ _ Eg), tbl_find_rm, Ht.
  assert (Hj : (j =? id) = false) by (apply Nat.eqb_neq; exact Hne).
  rewrite Hj. destruct (bytes_eqb (rc_sid ci) sid); rewrite (get_close_other _ _ _ Hne), Hg; reflexivity.
Qed.

(* c: the connection with handle id as it was when it was closed *)
Definition frozen_as (c : rconn) (h : handler) (id : nat) : Prop :=
  exists c1, get h id = Some c1 /\ rc_rclosed c1 = true /\ rc_pk c1 = rc_pk c /\ rc_sid c1 = rc_sid c.

Lemma frozen_step : forall c id h e, frozen_as c h id -> frozen_as c (fst (h_step h e)) id.
Proof.
  intros c id h e (c0 & Hg & Hc & Hp & Hs).
  assert (Hupd : forall i f,
            (forall x, get h i = Some x -> rc_rclosed x = true ->
               rc_rclosed (f x) = true /\ rc_pk (f x) = rc_pk x /\ rc_sid (f x) = rc_sid x) ->
            frozen_as c (upd h i f) id).
  { intros i f Hf. destruct (Nat.eq_dec id i) as [->|N].
    - exists (f c0). destruct (Hf c0 Hg Hc) as (Hc1 & Hp1 & Hs1).
      split; [apply get_upd_same; exact Hg|]. repeat split; congruence.
    - exists c0. rewrite (get_upd_other _ _ _ _ N). repeat split; assumption. }
  destruct (h_step_effect h e) as [|sid bs|i|i f Hf].
  - exists c0. repeat split; assumption.
  - exists c0. split; [apply get_add_old; exact Hg|repeat split; assumption].
  - unfold frozen_as. rewrite get_close. apply Hupd. intros; repeat split; reflexivity.
  - apply Hupd. intros x Hx Hcx. destruct (Hf x Hx) as [Hsx Hrx _ Hpx].
    split; [congruence|]. split; [apply Hpx; exact Hcx|exact Hsx].
Qed.

Lemma frozen_run : forall c id es h h' os,
  frozen_as c h id -> h_run h es = (h', os) -> frozen_as c h' id.
Proof. intros c id. exact (h_run_invariant (fun h => frozen_as c h id) (frozen_step c id)). Qed.

Lemma h_run_app : forall es1 es2 h,
  h_run h (es1 ++ es2) =
    (let '(h1, o1) := h_run h es1 in let '(h2, o2) := h_run h1 es2 in (h2, o1 ++ o2)).
Proof.
  induction es1 as [|e es1 IH]; intros es2 h; cbn [app h_run].
  - destruct (h_run h es2); reflexivity.
  - destruct (h_step h e) as [h1 o]. rewrite IH.
    destruct (h_run h1 es1) as [h2 o1]. destruct (h_run h2 es2) as [h3 o2]. reflexivity.
Qed.

Lemma close_remote_known : forall h sid id c,
  lookup h sid = Some (id, c) ->
  h_step h (ECloseRemote sid) = (close_conn h id, OReply RAck).
Proof. intros h sid id c H. cbn [h_step]. rewrite H. reflexivity. Qed.

Lemma lookup_after_close : forall h sid id c,
  lookup h sid = Some (id, c) -> rc_sid c = sid -> lookup (close_conn h id) sid = None.
Proof.
  intros h sid id c Hl Hs. destruct (lookup_get _ _ _ _ Hl) as [Hg Ht].
  unfold lookup. rewrite (tbl_close _ _ _ Hg), tbl_find_rm, Hs, bytes_eqb_refl, Ht, Nat.eqb_refl. reflexivity.
Qed.

Lemma drain_closed : forall n id c h,
  0 < n -> get h id = Some c -> rc_rclosed c = true ->
  exists k h' pre,
    h_run h (repeat (ERead id n) (S k)) = (h', pre ++ [ORead [] true]) /\
    Forall (fun o => exists d, o = ORead d false /\ d <> []) pre /\
    reads_of id (repeat (ERead id n) (S k)) (pre ++ [ORead [] true]) = rc_buf c.
Proof.
  intros n id c. induction c as [c IH] using (induction_ltof1 _ (fun c => length (rc_buf c))).
  intros h Hn Hg Hc. destruct (rc_buf c) as [|b0 br] eqn:Eb.
  - exists 0, h, []. cbn [repeat h_run h_step app reads_of]. rewrite Hg, Eb, Hc, Nat.eqb_refl.
    repeat split. constructor.
  - destruct (IH (take_read n c)) with (h := upd h id (take_read n)) as (k & h' & pre & Hrun & Hpre & Hreads).
    + unfold ltof. cbn [take_read rc_buf]. rewrite Eb, skipn_length. cbn [length]. lia.
    + exact Hn.
    + apply get_upd_same. exact Hg.
    + exact Hc.
    + cbn [take_read rc_buf] in Hreads. rewrite Eb in Hreads.
      exists (S k), h', (ORead (firstn n (b0 :: br)) false :: pre).
      change (repeat (ERead id n) (S (S k))) with (ERead id n :: repeat (ERead id n) (S k)).
      cbn [h_run h_step app reads_of]. rewrite Hg, Eb, Hrun, Nat.eqb_refl, Hreads, firstn_skipn.
      repeat split. constructor; [|exact Hpre]. eexists. split; [reflexivity|].
      destruct n; [lia|discriminate].
Qed.
