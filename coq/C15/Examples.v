(* C15/Examples.v — non-vacuity of the theorems' hypotheses and worked examples. *)
From Coq Require Import ZArith.
From XV Require Import lib.Bytes C15.Model C15.Proofs C15.ProofsRecv C15.ProofsMore.

(* as in ibb_test.go TestSendSelf/msg (block size 5, one Write, Close), with the
   first 17 bytes of its payload *)
Example ex_sender_test_suite :
  map p_data (sender 5 0 [WWrite (str "One is the danger")]) =
    [str "T25lIGlzIHRoZSBkYW5n"; str "ZXI="] /\
  map p_seq (sender 5 0 [WWrite (str "One is the danger")]) = [0%N; 1%N].
Proof. vm_compute. split; reflexivity. Qed.

(* writes smaller than the block are gathered; a Flush cuts a packet; the
   encoder holds back an incomplete 3-byte group until Close *)
Example ex_sender_flush :
  sender 4 0 [WWrite (str "ab"); WFlush; WWrite (str "c"); WFlush; WWrite (str "defgh"); WFlush] =
    [mkpkt 0 (str "YWJj"); mkpkt 1 (str "ZGVm"); mkpkt 2 (str "Z2g=")].
Proof. vm_compute. reflexivity. Qed.

(* the hypothesis of C15_packets_consecutive at the wrap-around *)
Example ex_sender_wrap :
  map p_seq (sender 3 65534 [WWrite (str "abc"); WWrite (str "def"); WWrite (str "ghi"); WWrite (str "jkl")]) =
    [65534%N; 65535%N; 0%N; 1%N].
Proof. vm_compute. reflexivity. Qed.

Example ex_sender_wrap_nth :
  nth_error (sender 3 65534 [WWrite (str "abc"); WWrite (str "def"); WWrite (str "ghi")]) 2 =
    Some (mkpkt 0 (str "Z2hp")).
Proof. vm_compute. reflexivity. Qed.

Definition ex_h : handler := fst (h_step h_empty (EOpenLocal (str "s1") 8 true)).
Definition ex_c : rconn := new_conn (str "s1") 8.

Example ex_lookup : lookup ex_h (str "s1") = Some (0, ex_c) /\ rc_rclosed ex_c = false /\ rc_seq ex_c = 0%N.
Proof. vm_compute. repeat split; reflexivity. Qed.

(* the default limit (262144) has room for this sender's packets *)
Example ex_has_room :
  has_room ex_c (map p_data (sender 8 (rc_seq ex_c) [WWrite (str "hello, "); WFlush; WWrite (str "world")])).
Proof. right. vm_compute. discriminate. Qed.

(* ... and a limit of 8 has not: the hypothesis is not trivially true *)
Example ex_has_no_room :
  ~ has_room (set_max 8 ex_c) (map p_data (sender 8 0 [WWrite (str "hello, "); WFlush; WWrite (str "world")])).
Proof. intros [H|H]; vm_compute in H; apply H; reflexivity. Qed.

(* the hypothesis of C15_pipe_any_interleaving: reads, a corrupt packet, an
   out-of-sequence packet and a packet for another stream in between — the
   accepted packets are exactly the sender's *)
Definition ex_ops : list wop := [WWrite (str "hello, "); WFlush; WWrite (str "world")].
Definition ex_events : list event :=
  [EOpenLocal (str "s1") 8 true;
   EData true (str "s1") 0 (str "aGVsbG8s");
   ERead 0 3;
   EData true (str "s1") 1 (str "IHdv!!!!");
   EData true (str "s1") 5 (str "cmxk");
   EData false (str "zz") 0 (str "QUJD");
   EData true (str "s1") 1 (str "IHdv");
   EData false (str "s1") 2 (str "cmxk");
   ERead 0 100;
   ECloseRemote (str "s1");
   EData true (str "s1") 3 (str "QUJD");
   ERead 0 100].

Example ex_interleaving_obs :
  snd (h_run h_empty ex_events) =
    [OOpen true; OReply RAck; ORead (str "hel") false; OReply (RErr BadRequest);
     OReply (RErr UnexpectedRequest); OReply (RErr ItemNotFound); OReply RAck; OReply RSilent;
     ORead (str "lo, world") false; OReply RAck; OReply (RErr ItemNotFound); ORead [] true].
Proof. vm_compute. reflexivity. Qed.

Example ex_interleaving_hyp : accepted_to 0 h_empty ex_events = sender 8 0 ex_ops.
Proof. vm_compute. reflexivity. Qed.

Example ex_interleaving_reads : reads_of 0 ex_events (snd (h_run h_empty ex_events)) = written ex_ops.
Proof. vm_compute. reflexivity. Qed.

(* the four refusals of C15_bad_packets_refused, each reachable *)
Example ex_refusals :
  let h := fst (h_run h_empty [EOpenLocal (str "s1") 4 true; ESetMax 0 4]) in
  snd (handle_payload h true (str "nosuch") 0 (str "QUJD")) = RErr ItemNotFound /\
  snd (handle_payload h true (str "s1") 1 (str "QUJD")) = RErr UnexpectedRequest /\
  snd (handle_payload h true (str "s1") 0 (str "QUJDREVG")) = RErr ResourceConstraint /\
  snd (handle_payload h true (str "s1") 0 (str "QUJ")) = RErr BadRequest /\
  snd (handle_payload h false (str "s1") 0 (str "QUJD")) = RSilent /\
  snd (handle_payload h true (str "s1") 0 (str "QUJD")) = RAck.
Proof. vm_compute. repeat split; reflexivity. Qed.

(* the situation of TestBufferFull with smaller numbers (block size 4, limit 6):
   refused with resource-constraint, accepted under the same number once the
   application has read *)
Example ex_buffer_full :
  snd (h_run h_empty [EOpenRemote (str "a") 4 true; ESetMax 0 6;
                 EData true (str "a") 0 (str "QUJDRA=="); EData true (str "a") 1 (str "QUJDRA==");
                 ERead 0 4; EData true (str "a") 1 (str "QUJDRA=="); ERead 0 64]) =
    [OReply RAck; ONone; OReply RAck; OReply (RErr ResourceConstraint);
     ORead (str "ABCD") false; OReply RAck; ORead (str "ABCD") false].
Proof. vm_compute. reflexivity. Qed.

(* a refused open leaves the stream unknown *)
Example ex_open_refused :
  snd (h_run h_empty [EOpenLocal (str "a") 8 false; EData true (str "a") 0 (str "QUJD")]) =
    [OOpen false; OReply (RErr ItemNotFound)].
Proof. vm_compute. reflexivity. Qed.

(* open(x), transfer, close, open(x) again, redundant Close on the old
   connection at several points, transfer on the new one; the peer reopens the
   identifier a third time (handle 2) and the second connection is closed
   afterwards: the third stream stays registered *)
Definition ex_reuse : list event :=
  [EOpenLocal (str "x") 8 true;
   EData true (str "x") 0 (str "QUJD");
   ECloseLocal 0;
   EData true (str "x") 1 (str "QUJD");
   EOpenLocal (str "x") 8 true;
   ECloseLocal 0;
   EData true (str "x") 0 (str "REVG");
   ECloseLocal 0;
   EData false (str "x") 1 (str "R0hJ");
   ERead 1 64; ERead 0 64; ERead 0 64;
   EOpenRemote (str "x") 4 true;
   ECloseLocal 1;
   EData true (str "x") 0 (str "SktM");
   ERead 2 64; ERead 1 64].

Example ex_reuse_obs :
  snd (h_run h_empty ex_reuse) =
    [OOpen true; OReply RAck; ONone; OReply (RErr ItemNotFound); OOpen true; ONone; OReply RAck; ONone;
     OReply RSilent; ORead (str "DEFGHI") false; ORead (str "ABC") false; ORead [] true;
     OReply RAck; ONone; OReply RAck; ORead (str "JKL") false; ORead [] true].
Proof. vm_compute. reflexivity. Qed.

Example ex_reuse_accepted :
  accepted_to 0 h_empty ex_reuse = [mkpkt 0 (str "QUJD")] /\
  accepted_to 1 h_empty ex_reuse = [mkpkt 0 (str "REVG"); mkpkt 1 (str "R0hJ")] /\
  accepted_to 2 h_empty ex_reuse = [mkpkt 0 (str "SktM")].
Proof. vm_compute. repeat split; reflexivity. Qed.

(* the hypotheses of C15_old_close_keeps_new_stream and C15_redundant_close_is_noop *)
Example ex_reuse_hyp :
  let h := fst (h_run h_empty (firstn 5 ex_reuse)) in
  (exists c, lookup h (str "x") = Some (1, c)) /\
  (exists c0, get h 0 = Some c0 /\ rc_rclosed c0 = true /\ rc_sid c0 = str "x").
Proof. split; eexists; [vm_compute; reflexivity|]. split; [vm_compute; reflexivity|split; reflexivity]. Qed.

(* with the unguarded rmStream the second connection's Close would have
   removed the third stream: the witness of C15_unguarded_rmstream_refuted in
   terms of this history *)
Example ex_reuse_unguarded :
  let h := fst (h_run h_empty (firstn 13 ex_reuse)) in
  tbl_find (h_tbl h) (str "x") = Some 2 /\
  tbl_find (tbl_rm (h_tbl h) (str "x") 1) (str "x") = Some 2 /\
  tbl_find (tbl_rm_unguarded (h_tbl h) (str "x") 1) (str "x") = None.
Proof. vm_compute. repeat split; reflexivity. Qed.

(* the schedule that lost the wake-up on the pinned tree: the packet is handled
   between the reader's empty test and its wait *)
Example ex_sched_notify_before_wait :
  sched_run l_init [LStart 4; LDeliver true (str "ab"); LWait; LResume] =
    [SDid BParked; SDid BAck; SDid BWoke; SDid (BReturned (str "ab") false)].
Proof. vm_compute. reflexivity. Qed.

(* woken by an empty packet: the reader goes back to waiting instead of
   returning end-of-file *)
Example ex_sched_empty_packet :
  sched_run l_init [LStart 4; LWait; LDeliver true []; LResume; LWait; LClose; LResume] =
    [SDid BParked; SDid BInRecv; SDid BAck; SDid BParked; SDid BInRecv; SDid BClosed; SDid (BReturned [] true)].
Proof. vm_compute. reflexivity. Qed.

(* reachable states for the hypotheses of the schedule theorems *)
Example ex_reachable_checked_with_data :
  exists s, lrun l_init [LStart 4; LDeliver false (str "ab")] = Some s /\ l_pc s = PChecked 4 /\ l_buf s <> [].
Proof. eexists. split; [vm_compute; reflexivity|]. split; [reflexivity|discriminate]. Qed.

Example ex_reachable_blocked :
  exists s, lrun l_init [LStart 4; LWait] = Some s /\ reader_blocked s = true.
Proof. eexists. split; [vm_compute; reflexivity|reflexivity]. Qed.

Example ex_reachable_closed_with_data :
  exists s, lrun l_init [LDeliver false (str "abc"); LStart 1; LClose] = Some s /\ l_closed s = true /\ l_buf s = str "bc".
Proof. eexists. split; [vm_compute; reflexivity|]. split; reflexivity. Qed.

Example ex_eof :
  exists s, lrun l_init [LClose; LStart 1; LWait] = Some s /\ step_obs s LResume = Some (BReturned [] true).
Proof. eexists. split; [vm_compute; reflexivity|reflexivity]. Qed.

(* the schedule of ex_sched_notify_before_wait on the pinned design: the
   reader stays blocked with the data buffered *)
Example ex_pinned_lost :
  match lrun_pinned l_init [LStart 4; LDeliver true (str "ab"); LWait] with
  | Some s => reader_blocked s = true /\ l_buf s = str "ab"
  | None => False
  end.
Proof. vm_compute. split; reflexivity. Qed.

Definition ex_refused_then_close : list event :=
  [EOpenLocal (str "a") 8 true;
   EData true (str "a") 0 (str "QUJD");
   EWrite 0 true;
   EWrite 0 false;
   EWrite 0 true;
   ECloseRemote (str "a");
   EWrite 0 true;
   ERead 0 64; ERead 0 64].

Example ex_refused_then_close_obs :
  snd (h_run h_empty ex_refused_then_close) =
    [OOpen true; OReply RAck; OWrite true; OWrite false; OWrite false; OReply RAck; OWrite false;
     ORead (str "ABC") false; ORead [] true].
Proof. vm_compute. reflexivity. Qed.

(* the hypothesis of C15_peer_close_always_answered with the error pending *)
Example ex_close_hyp_with_stale_error :
  exists c, lookup (fst (h_run h_empty (firstn 5 ex_refused_then_close))) (str "a") = Some (0, c) /\ rc_werr c = true.
Proof. eexists. split; [vm_compute; reflexivity|reflexivity]. Qed.

Example ex_sched_message_carrier :
  sched_run l_init [LStart 4; LWait; LDeliver false (str "ab"); LResume; LStart 4; LDeliver false (str "c"); LWait; LResume] =
    [SDid BParked; SDid BInRecv; SDid BTaken; SDid (BReturned (str "ab") false);
     SDid BParked; SDid BTaken; SDid BWoke; SDid (BReturned (str "c") false)].
Proof. vm_compute. reflexivity. Qed.
