(* C08/Examples.v — non-vacuity: concrete instances of the hypotheses of the C08
   theorems, and worked runs of the model (serveTests-like inputs). *)
From XV Require Import lib.Bytes lib.Xml gen.Serve C08.Model C08.Case.

Definition cl (l : string) : name := mkname sv_ns_client (str l).
Definition at' (l v : string) : attr := mk_attr (str l) (str v).

Definition ex_c : cfg := mkcfg false sv_ns_client (str "me@example.net") (fun s => Some s) false.

(* <message from='me@example.net'><body>hi</body></message> <a/><!-- c --><b/> *)
Definition ex_script : list token :=
  [TStart (cl "message") [at' "from" "me@example.net"]; TStart (cl "body") []; TChar (str "hi");
   TEnd (cl "body"); TEnd (cl "message"); TChar (str " ");
   TStart (cl "a") []; TEnd (cl "a"); TMisc 0 (str " c "); TStart (cl "b") []; TEnd (cl "b")].

Example ex_ends_match : ends_match [stream_root] ex_script = true.
Proof. vm_compute. reflexivity. Qed.

Example ex_clean_start : clean false (TStart (cl "message") [at' "from" "me@example.net"]) = true.
Proof. vm_compute. reflexivity. Qed.

(* the readable part of the first element, and what follows *)
Example ex_scan_complete :
  scan false 0 (tl ex_script) =
  ([TStart (cl "body") []; TChar (str "hi"); TEnd (cl "body"); TEnd (cl "message")],
   SEComplete (skipn 5 ex_script)).
Proof. vm_compute. reflexivity. Qed.

(* a comment inside an element *)
Example ex_scan_dirty :
  scan false 0 [TStart (cl "body") []; TMisc 0 (str "c"); TEnd (cl "body"); TEnd (cl "message")] =
  ([TStart (cl "body") []], SEDirty (TMisc 0 (str "c")) [TEnd (cl "body"); TEnd (cl "message")])
  /\ term_of false (SEDirty (TMisc 0 (str "c")) []) = EComment.
Proof. vm_compute. split; reflexivity. Qed.

Example ex_scan_trunc : scan false 0 [TStart (cl "body") []] = ([TStart (cl "body") []], SETrunc).
Proof. vm_compute. reflexivity. Qed.

(* a handler that reads two tokens of the first element and seven of the second *)
Definition ex_handlers (idx : nat) : handlers :=
  prog_handlers [[ORead 2 false]; [ORead 7 false]] idx.

Definition ex_run : sres := serve_all ex_c ex_handlers ex_script.

(* two invocations in order; the from of the first is emptied; the second sees its end tag and
   then EOF for ever, never the comment or <b/>; the comment ends Serve with an error *)
Example ex_run_result :
  map v_name (s_invs ex_run) = [cl "message"; cl "a"] /\
  map v_attrs (s_invs ex_run) = [[at' "from" ""]; []] /\
  map v_seen (s_invs ex_run) =
    [[ok_res (TStart (cl "body") []); ok_res (TChar (str "hi"))];
     ok_res (TEnd (cl "a")) :: repeat (None, Some EEOF) 6] /\
  s_ret ex_run = Some EComment.
Proof. vm_compute. repeat split; reflexivity. Qed.

(* a handler that ignores read errors cannot read past a comment inside its element *)
Example ex_swallow :
  let r := serve_all ex_c (prog_handlers [[ORead 6 false]])
             [TStart (cl "message") []; TMisc 0 (str "c"); TStart (cl "body") []; TEnd (cl "body");
              TEnd (cl "message"); TEnd stream_root] in
  map v_seen (s_invs r) = [repeat (None, Some EComment) 6] /\ s_ret r = Some EComment.
Proof. vm_compute. split; reflexivity. Qed.

(* the peer's closing tag: nil; a received stream error: returned as such *)
Example ex_close : s_ret (serve_all ex_c ex_handlers [TChar (str " "); TEnd stream_root]) = None.
Proof. vm_compute. reflexivity. Qed.

Example ex_stream_error :
  s_ret (serve_all ex_c ex_handlers
           [TStart (mkname sv_ns_stream s_error) [];
            TStart (mkname sv_ns_stream_error (str "host-gone")) []; TEnd (mkname sv_ns_stream_error (str "host-gone"));
            TEnd (mkname sv_ns_stream s_error)]) = Some (EStreamErr (str "host-gone")).
Proof. vm_compute. reflexivity. Qed.

(* hypotheses of the stream-error clause *)
Example ex_cond : bytes_eqb (str "host-gone") s_text = false /\ str "host-gone" <> [].
Proof. split; [reflexivity|discriminate]. Qed.

(* the byte encoding of cases: bytes that are no case do not parse *)
Example ex_parse_fails_on_garbage : case_ok8 [x01; x02] = false.
Proof. vm_compute. reflexivity. Qed.

Definition ex_ws : cfg := mkcfg true sv_ns_client (str "me@example.net") (fun s => Some s) false.
Definition fr (l : string) : name := mkname sv_ns_framing (str l).

(* the hypotheses of the WebSocket clauses of C08_stream_level_never_delivered *)
Example ex_ws_hyps :
  c_ws ex_ws = true /\ bytes_eqb (nspace (fr "close")) sv_ns_framing = true /\ nlocal (fr "close") = str "close" /\
  in_list (nlocal (fr "open")) sv_ws_eof_locals = false /\
  true && bytes_eqb (nspace (fr "close")) sv_ns_framing = true.
Proof. vm_compute. repeat split; reflexivity. Qed.

(* <message from='me@example.net'/> <close/> : one invocation (from emptied), Serve returns nil;
   <a/><open/> : an unexpected restart; <a><close/></a> : the invocation fails with the restart error *)
Example ex_ws_runs :
  let r1 := serve_all ex_ws ex_handlers [TStart (cl "message") [at' "from" "me@example.net"]; TEnd (cl "message");
                                         TChar (str " "); TStart (fr "close") []; TEnd (fr "close")] in
  let r2 := serve_all ex_ws ex_handlers [TStart (cl "a") []; TEnd (cl "a"); TStart (fr "open") []; TEnd (fr "open")] in
  let r3 := serve_all ex_ws ex_handlers [TStart (cl "a") []; TStart (fr "close") []; TEnd (fr "close"); TEnd (cl "a");
                                         TStart (fr "close") []; TEnd (fr "close")] in
  (s_ret r1 = None /\ map v_attrs (s_invs r1) = [[at' "from" ""]]) /\
  (s_ret r2 = Some ERestart /\ length (s_invs r2) = 1) /\
  (s_ret r3 = Some ERestart /\ map v_ret (s_invs r3) = [Some ERestart]).
Proof. vm_compute. repeat split; reflexivity. Qed.

Definition ex_closed : cfg := mkcfg false sv_ns_client (str "me@example.net") (fun s => Some s) true.

Example ex_nil_only_at_close :
  (* a handler error that wraps io.EOF: Serve returns it, the next element is not served *)
  (let r := serve_all ex_c (fun _ _ _ => HRet (Some EWrapEOF)) [TStart (cl "a") []; TEnd (cl "a"); TStart (cl "b") []; TEnd (cl "b"); TEnd stream_root] in
   s_ret r = Some EWrapEOF /\ length (s_invs r) = 1) /\
  (* output already closed: a comment still ends Serve with its error, a request cannot be answered, the close gives nil *)
  s_ret (serve_all ex_closed ex_handlers [TStart (cl "a") []; TEnd (cl "a"); TMisc 0 (str " c ")]) = Some EComment /\
  s_ret (serve_all ex_closed ex_handlers [TStart (cl "iq") [at' "type" "get"; at' "id" "x"]; TEnd (cl "iq"); TEnd stream_root]) = Some EOutClosed /\
  s_ret (serve_all ex_closed ex_handlers [TStart (cl "a") []; TEnd (cl "a"); TEnd stream_root]) = None /\
  (* <stream:error><text>..</text></stream:error>: returned as a stream error without condition *)
  s_ret (serve_all ex_c ex_handlers [TStart (mkname sv_ns_stream s_error) []; TStart (mkname sv_ns_stream_error s_text) [];
                                     TChar (str "bye"); TEnd (mkname sv_ns_stream_error s_text); TEnd (mkname sv_ns_stream s_error)])
    = Some (EStreamErr []).
Proof. vm_compute. repeat split; reflexivity. Qed.
