(* C08/Properties.v — the property theorems of C08.
   "Handlers see one element at a time; stream-level input never reaches them."

   Vocabulary (C08/Model.v): [scan ws 0 l = (pre, e)] splits what follows a start
   tag into the readable tokens [pre] and how they end ([SEComplete rest]: at the
   element's end tag, [rest] follows; [SEDirty t r]: at a stream-level construct;
   [SETrunc]: the input ends). [view k pre term] is what k Token() calls return:
   the first k of pre, then the error [term] for ever. [follows] (C08/Proofs.v)
   relates a script to the invocations and the result of Serve. Every theorem
   holds for every handler (any strategy tree), on both name spaces and both
   framings. *)
From XV Require Import lib.Bytes lib.Xml gen.Serve C08.Model C08.Proofs C08.Loop.

(* The handler of an element is given that element's start tag and, read by
   read, exactly the element's tokens in order; after its end tag (or at a
   stream-level construct inside it) every further read fails with the same
   error: it can never be given a token of what follows. *)
Theorem C08_view_is_exactly_the_element :
  forall (c : cfg) (fuel : nat) (hf : handlers) (pd : N) (n : name) (a : list attr)
         (l pre : list token) (e : scan_end),
  clean (c_ws c) (TStart n a) = true -> scan (c_ws c) 0 l = (pre, e) -> length l < fuel ->
  exists v p', his c fuel hf (mkp (TStart n a :: l) pd false) = (HRInv v, p') /\
    (exists k, v_seen v = view k pre (term_of (c_ws c) e)) /\
    (forall t x, In (Some t, x) (v_seen v) -> In t pre /\ x = None).
Proof.
  intros c fuel hf pd n a l pre e Hc Hs Hl. destruct (his_elem c fuel hf pd n a l pre e Hc Hs) as [v [p' [E [Hv _]]]].
  exists v, p'. split; [exact E|]. destruct (inv_spec_seen Hv) as [k Hk].
  split; [exists k; exact Hk|]. intros t x Hin. rewrite Hk in Hin. apply (view_tokens _ _ _ _ _ Hin).
Qed.
Print Assumptions C08_view_is_exactly_the_element.

(* The readable part is the element: for an element without stream-level
   constructs it is the tokens up to and including the matching end tag as plain
   depth counting finds it, and conversely. *)
Theorem C08_readable_part_is_the_element :
  forall (ws : bool) (l : list token),
  (forall b rest, elem_body 0 l = Some (b, rest) -> Forall (fun t => clean ws t = true) b ->
                  scan ws 0 l = (b, SEComplete rest)) /\
  (forall pre rest, scan ws 0 l = (pre, SEComplete rest) -> l = pre ++ rest /\ elem_body 0 l = Some (pre, rest)) /\
  (forall pre t r, scan ws 0 l = (pre, SEDirty t r) -> l = pre ++ t :: r /\ clean ws t = false) /\
  (forall k pre term, k <= length pre -> view k pre term = map ok_res (firstn k pre)) /\
  (forall k pre term, length pre <= k ->
      view k pre term = map ok_res pre ++ repeat (None, Some term) (k - length pre)).
Proof.
  intros ws l. split; [intros b rest; apply scan_of_body|].
  split; [intros pre rest H; destruct (scan_split ws l 0 pre _ H) as [_ [H1 [H2 _]]]; split; assumption|].
  split; [intros pre t r H; apply (scan_split ws l 0 pre _ H)|].
  split; [apply view_short|apply view_long].
Qed.
Print Assumptions C08_readable_part_is_the_element.

(* Whatever part the handler consumed, if the invocation ends without error the
   input is positioned exactly after the element's end tag; an element that is
   cut short, or stops at a stream-level construct other than the stream's
   closing tag ([term_of] is not EOF), never ends without error; and an
   invocation never ends with a bare EOF (which Serve would take for the peer's
   close). *)
Theorem C08_resync :
  forall (c : cfg) (fuel : nat) (hf : handlers) (pd : N) (n : name) (a : list attr)
         (l pre : list token) (e : scan_end),
  clean (c_ws c) (TStart n a) = true -> scan (c_ws c) 0 l = (pre, e) -> length l < fuel ->
  exists v p', his c fuel hf (mkp (TStart n a :: l) pd false) = (HRInv v, p') /\
    (forall rest, e = SEComplete rest -> v_ret v = None -> p' = mkp rest pd false) /\
    (term_of (c_ws c) e <> EEOF -> v_ret v <> None) /\
    v_ret v <> Some EEOF.
Proof.
  intros c fuel hf pd n a l pre e Hc Hs Hl. destruct (his_elem c fuel hf pd n a l pre e Hc Hs) as [v [p' [E [Hv _]]]].
  exists v, p'. split; [exact E|]. split; [|split; [apply (inv_spec_fatal Hv)|apply (inv_spec_no_eof Hv)]].
  intros rest He Hr. apply (inv_spec_done Hv Hr). exact He.
Qed.
Print Assumptions C08_resync.

(* The start tag shown is the one received, except that on a stanza of the
   stream's content name space the first unqualified from attribute is emptied
   when it equals the session's own bare address; nothing else changes. *)
Theorem C08_from_normalised :
  (forall (c : cfg) (fuel : nat) (hf : handlers) (pd : N) (n : name) (a : list attr) (l : list token),
   clean (c_ws c) (TStart n a) = true -> length l < fuel ->
   exists v p', his c fuel hf (mkp (TStart n a :: l) pd false) = (HRInv v, p') /\
     v_name v = n /\ v_attrs v = (if stanza_is n (c_ns c) then norm_from (c_own c) a else a)) /\
  (forall own a,
     Forall2 (fun x y => aname y = aname x /\
                         (aval y = aval x \/ (is_from x = true /\ aval x = own /\ aval y = [])))
             a (norm_from own a)) /\
  (forall own a, attr_get s_from (norm_from own a)
                 = if bytes_eqb (attr_get s_from a) own then [] else attr_get s_from a).
Proof.
  split; [|exact (conj norm_from_spec norm_from_get)].
  intros c fuel hf pd n a l Hc Hl. destruct (scan (c_ws c) 0 l) as [pre e] eqn:Hs.
  destruct (his_elem c fuel hf pd n a l pre e Hc Hs) as [v [p' [E [Hv _]]]].
  exists v, p'. split; [exact E|]. apply (inv_spec_shown Hv).
Qed.
Print Assumptions C08_from_normalised.

(* Serve follows the script: one invocation per top-level element in arrival
   order, each satisfying the per-invocation specification and beginning at the
   next top-level element; whitespace between elements is skipped; the run ends
   at the first stream-level construct, close, tokenizer error or failed
   invocation, with the corresponding return value. [ends_match] is the
   tokenizer's guarantee that end tags match start tags. *)
Theorem C08_one_invocation_per_element_in_order :
  forall (c : cfg) (hf : nat -> handlers) (toks : list token) (base : list name),
  ends_match base toks = true ->
  follows c toks (s_invs (serve_all c hf toks)) (s_ret (serve_all c hf toks)).
Proof. exact serve_all_follows. Qed.
Print Assumptions C08_one_invocation_per_element_in_order.

(* Serve returns nil exactly when the peer closed the stream: the script is
   keep-alives and complete elements without stream-level constructs up to the
   peer's closing tag, and every handler invocation ended without error. So no
   error a handler returns ends Serve with nil — an error that wraps io.EOF or
   claims to be it ([EWrapEOF]) no more than any other; a handler's bare io.EOF does
   not end its invocation as EOF (C08_resync, last clause) —, and the only inputs that read as
   the close are </stream:stream> and, on a WebSocket stream, a top-level framing
   element whose name ends the input (<close/>). The comparison `err == io.EOF`
   in Serve is read from the source ([sv_serve_eof_identity]). *)
Theorem C08_nil_only_at_peer_close :
  (forall (c : cfg) (hf : nat -> handlers) (toks : list token) (base : list name),
   ends_match base toks = true ->
   (s_ret (serve_all c hf toks) = None <->
    reaches_close c toks /\ Forall (fun v => v_ret v = None) (s_invs (serve_all c hf toks)))) /\
  (forall (c : cfg) (l : list token), top_err (c_ws c) l = Some EEOF ->
    (exists n r, l = TEnd n :: r /\ bytes_eqb (nspace n) sv_ns_stream = true /\ bytes_eqb (nlocal n) s_stream = true) \/
    (exists n a r, l = TStart n a :: r /\ c_ws c = true /\ bytes_eqb (nspace n) sv_ns_framing = true /\
                   in_list (nlocal n) sv_ws_eof_locals = true)) /\
  (forall (c : cfg) (fuel : nat) (hf : handlers) (pd : N) (n : name) (a : list attr) (l : list token),
   clean (c_ws c) (TStart n a) = true -> length l < fuel -> (forall a', hf n a' = HRet (Some EWrapEOF)) ->
   exists v p', his c fuel hf (mkp (TStart n a :: l) pd false) = (HRInv v, p') /\ v_ret v = Some EWrapEOF) /\
  (sv_serve_eof_identity = true /\ sv_serve_switches = 1 /\ sv_serve_clauses = 3).
Proof.
  split; [|split; [intros c l; apply top_err_eof|split; [|exact tbl_serve_eof]]].
  - intros c hf toks base Hm. exact (follows_close c toks _ _ (serve_all_follows c hf toks base Hm)).
  - intros c fuel hf pd n a l Hc Hl Hh. unfold his. rewrite (i_token_start (c_ws c) pd n a l Hc). cbv beta iota.
    rewrite Hh. eexists. eexists. split; reflexivity.
Qed.
Print Assumptions C08_nil_only_at_peer_close.

(* Stream-level constructs never reach a handler and end the session:
   - nothing a handler reads is a stream-level token;
   - between elements, a stream-level construct, non-whitespace text or a
     tokenizer error ends Serve with that error and no further invocation; the
     peer's closing tag ends it with nil; a received stream error is returned as
     that error, also one without a defined condition;
   - inside an element, whatever the handler does (even if it ignores read
     errors), the invocation fails, hence Serve ends with an error;
   - the same for the framing elements of a WebSocket stream (last clauses). *)
Theorem C08_stream_level_never_delivered :
  (forall ws l c0 pre e, scan ws c0 l = (pre, e) -> Forall (fun t => clean ws t = true) pre) /\
  (forall c hf toks e, top_err (c_ws c) toks = Some e ->
     s_invs (serve_all c hf toks) = [] /\ s_ret (serve_all c hf toks) = ret_of e) /\
  (forall c hf n rest, bytes_eqb (nspace n) sv_ns_stream = true -> bytes_eqb (nlocal n) s_stream = true ->
     s_invs (serve_all c hf (TEnd n :: rest)) = [] /\ s_ret (serve_all c hf (TEnd n :: rest)) = None) /\
  (forall c hf cond a a1 n1 n2 rest, bytes_eqb cond s_text = false ->
     let toks := TStart (mkname sv_ns_stream s_error) a
                 :: TStart (mkname sv_ns_stream_error cond) a1 :: TEnd n1 :: TEnd n2 :: rest in
     s_invs (serve_all c hf toks) = [] /\ s_ret (serve_all c hf toks) = Some (EStreamErr cond)) /\
  (forall c hf a n2 rest,
     let toks := TStart (mkname sv_ns_stream s_error) a :: TEnd n2 :: rest in
     s_invs (serve_all c hf toks) = [] /\ s_ret (serve_all c hf toks) = Some (EStreamErr [])) /\
  (forall c fuel hf pd n a l pre t r base,
     clean (c_ws c) (TStart n a) = true -> scan (c_ws c) 0 l = (pre, SEDirty t r) -> length l < fuel ->
     ends_match (n :: base) l = true ->
     exists v p', his c fuel hf (mkp (TStart n a :: l) pd false) = (HRInv v, p') /\ v_ret v <> None /\
       (forall tk x, In (Some tk, x) (v_seen v) -> clean (c_ws c) tk = true)) /\
  (* WebSocket framing (RFC 7395): between elements the peer's <close/> ends Serve
     with nil like </stream:stream> on TCP, any other framing element (<open/>)
     ends it with the unexpected-restart error, and no handler is invoked; inside
     an element every framing element, <close/> included, is a stream-level
     construct (not clean, so the clause above applies) whose error is that
     restart error, never the end of the input *)
  (forall c hf n a rest, c_ws c = true -> bytes_eqb (nspace n) sv_ns_framing = true -> nlocal n = str "close" ->
     s_invs (serve_all c hf (TStart n a :: rest)) = [] /\ s_ret (serve_all c hf (TStart n a :: rest)) = None) /\
  (forall c hf n a rest, c_ws c = true -> bytes_eqb (nspace n) sv_ns_framing = true ->
     in_list (nlocal n) sv_ws_eof_locals = false ->
     s_invs (serve_all c hf (TStart n a :: rest)) = [] /\ s_ret (serve_all c hf (TStart n a :: rest)) = Some ERestart) /\
  (forall ws n a r, ws && bytes_eqb (nspace n) sv_ns_framing = true ->
     clean ws (TStart n a) = false /\ dirty_err ws (TStart n a) r = ERestart) /\
  (sv_ws_eof_locals = [str "close"] /\ sv_ws_eof_top_only = true /\ sv_ws_eof_unrecognised = 0).
Proof.
  (* between elements every clause computes [top_err] and ends by [serve_all_end] *)
  assert (Hse : forall ws a r, top_err ws (TStart (mkname sv_ns_stream s_error) a :: r) = Some (se_scan 0 [] r)).
  { intros ws a r. cbn [top_err clean nspace]. rewrite bytes_eqb_refl. cbn [negb andb].
    unfold top_dirty_err, dirty_err. cbn [nspace nlocal].
    replace (bytes_eqb sv_ns_stream sv_ns_framing) with false by reflexivity. rewrite !andb_false_r.
    rewrite bytes_eqb_refl. reflexivity. }
  split; [intros ws l c0 pre e H; apply (scan_split ws l c0 pre e H)|]. split; [exact serve_all_end|].
  split; [|split; [|split; [|split; [|split; [|split; [|split; [|exact tbl_ws_close]]]]]]].
  - intros c hf n rest H1 H2. apply (serve_all_end c hf _ EEOF). apply top_err_eof. left. exists n, rest. auto.
  - intros c hf cond a a1 n1 n2 rest Ht toks. apply (serve_all_end c hf toks (EStreamErr cond)).
    unfold toks. rewrite Hse. cbn [se_scan nspace nlocal]. rewrite bytes_eqb_refl, Ht. reflexivity.
  - intros c hf a n2 rest toks. apply (serve_all_end c hf toks (EStreamErr [])). apply Hse.
  - intros c fuel hf pd n a l pre t r base Hc Hs Hl Hm.
    destruct (his_elem c fuel hf pd n a l pre _ Hc Hs) as [v [p' [E [Hv _]]]].
    exists v, p'. split; [exact E|]. split.
    + apply (inv_spec_fatal Hv). intro Ht.
      destruct (elem_complete c n a l base pre _ Hc Hm Hs Ht) as [rest [Hr _]]. discriminate Hr.
    + destruct (inv_spec_seen Hv) as [k Hk]. intros tk x Hin. rewrite Hk in Hin.
      destruct (view_tokens _ _ _ _ _ Hin) as [Hp _].
      destruct (scan_split (c_ws c) l 0 pre _ Hs) as [Hf _]. rewrite Forall_forall in Hf. apply Hf. exact Hp.
  - intros c hf n a rest Hw Hf Hl. apply (serve_all_end c hf _ EEOF). apply top_err_eof. right. exists n, a, rest.
    rewrite Hl. destruct tbl_ws_close as [-> _]. auto.
  - intros c hf n a rest Hw Hf Hl. apply (serve_all_end c hf _ ERestart).
    cbn [top_err clean]. rewrite Hw, Hf. cbn [andb negb]. rewrite andb_false_r.
    unfold top_dirty_err, dirty_err. rewrite Hf, Hl. reflexivity.
  - intros ws n a r H. split.
    + cbn [clean]. rewrite H. apply andb_false_r.
    + unfold dirty_err. rewrite H. reflexivity.
Qed.
Print Assumptions C08_stream_level_never_delivered.
