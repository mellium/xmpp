(* C08/Loop.v — the Serve loop with outstanding requests (his_p, serve_p of C08/Model.v):
   the reader handed to a waiter, one element handed to a waiter, and how the events and the
   result of Serve follow the script. The plain loop [serve] is the case of the empty table. *)
From XV Require Import lib.Bytes lib.Xml gen.Serve C08.Model C08.Proofs.
From Coq Require Import ZArith Lia.

Section Inner.
Variable ws : bool.

(* earlyCloser's bookkeeping (EOF closes rc, another error is kept) changes neither the result nor
   the position, the depth or the count *)
Lemma ec_keeps (r : rres) (s1 : rst) : exists s2,
  match snd r with
  | Some EEOF => (r, mkr (r_p s1) true (r_idepth s1) (r_count s1) None)
  | Some e => (r, mkr (r_p s1) (r_closed s1) (r_idepth s1) (r_count s1) (Some e))
  | None => (r, s1)
  end = (r, s2) /\ r_p s2 = r_p s1 /\ r_idepth s2 = r_idepth s1 /\ r_count s2 = r_count s1.
Proof. destruct (snd r) as [[]|]; eexists; repeat split. Qed.

(* the reader handed to a waiter (earlyCloser over xmlstream.Inner) is the handler's, except that
   the element's own end tag is turned into EOF (which closes rc at once) *)
Lemma wt_ec s : wt_token ws s =
  let '(r, s') := ec_token ws s in
  match fst r, r_count s' with
  | Some (TEnd _), None => ((None, Some EEOF), mkr (r_p s') true (r_idepth s') None None)
  | _, _ => (r, s')
  end.
Proof.
  unfold ec_token, wt_token, in_token. destruct (r_ecerr s); [reflexivity|].
  destruct (ie_token ws s) as [r s1]. destruct (ec_keeps r s1) as [s2 [E [Kp [Kd Kc]]]]. rewrite E, Kc, Kp, Kd.
  (* only at an end tag that brings the count to None do the two differ *)
  destruct r as [[[n a|n|b|k b]|] oe]; cbn [fst snd] in *; try exact E.
  destruct (r_count s1) eqn:Ec; cbn [snd]; rewrite ?Ec; [exact E|reflexivity].
Qed.

(* the waiter's reader is somewhere in the element *)
Definition reading (pd0 : N) (e : scan_end) (s : rst) : Prop := exists pre, reader_at ws pd0 pre e s.

(* one read by the waiter leaves its reader in the element; an EOF is given only at the element's own
   end tag or, for an element that is not complete, when the construct met reads as the end of the stream *)
Lemma wt_step pd0 e s : reading pd0 e s -> exists r s', wt_token ws s = (r, s') /\ reading pd0 e s' /\
  (snd r = Some EEOF -> reader_at ws pd0 [] e s' /\ term_of ws e = EEOF).
Proof.
  intros [pre H]. rewrite wt_ec. destruct (R_step ws pd0 pre e s H) as [s1 [-> HR]].
  destruct pre as [|t pre']; cbn [next_res tl fst ok_res] in *.
  - eexists _, s1. split; [reflexivity|]. split; [exists []; exact HR|]. intros [= Ht]. split; [exact HR|exact Ht].
  - assert (Hgo : reading pd0 e s1 /\ (snd (ok_res t) = Some EEOF -> reader_at ws pd0 [] e s1 /\ term_of ws e = EEOF))
      by (split; [exists pre'; exact HR|discriminate]).
    destruct t as [n a|n|b|k b]; try (eexists _, _; split; [reflexivity|exact Hgo]).
    destruct (r_count s1) eqn:Ec; [eexists _, _; split; [reflexivity|exact Hgo]|].
    (* the own end tag: the handler's reader is at [fin] *)
    inversion HR; subst; try discriminate Ec; [|contradiction].
    exists (None, Some EEOF), (fin pd0 rest true). split; [reflexivity|].
    split; [exists []; apply R_fin|intros _; split; [apply R_fin|reflexivity]].
Qed.

Lemma run_w_preserved pd0 n a' e : forall h ph s seen, reading pd0 e s ->
  exists s' seen', run_w ws n a' h ph s seen = (s', seen') /\ reading pd0 e s'.
Proof.
  induction h as [e0|kf IH|t h IH]; intros ph s seen HR.
  - eexists. eexists. split; [reflexivity|exact HR].
  - cbn [run_w]. unfold wr_token. destruct ph as [|[|ph]].
    + apply IH. exact HR.
    + destruct (wt_step pd0 e s HR) as [r [s1 [E [HR1 _]]]]. rewrite E.
      destruct r as [[tk|] [[]|]]; apply IH; exact HR1.
    + apply IH. exact HR.
  - cbn [run_w]. apply IH. exact HR.
Qed.

(* whatever the fuel: a drain that runs out of it returns an error *)
Lemma drain_in_spec pd0 e : forall fuel s, reading pd0 e s ->
  exists ret s', drain_in ws fuel s = (ret, s') /\
    (ret = None -> term_of ws e = EEOF /\ forall rest, e = SEComplete rest -> r_p s' = mkp rest pd0 false).
Proof.
  induction fuel as [|f IH]; intros s HR; [eexists; eexists; split; [reflexivity|discriminate]|].
  cbn [drain_in]. destruct (wt_step pd0 e s HR) as [[ot oe] [s1 [E [HR1 Hx]]]]. rewrite E. cbn [snd] in *.
  destruct oe as [x|]; [|apply (IH s1 HR1)].
  destruct x; try (eexists; eexists; split; [reflexivity|]; intro; discriminate).
  destruct (Hx eq_refl) as [H1 Ht]. eexists. eexists. split; [reflexivity|]. intros _. split; [exact Ht|].
  intros rest ->. apply (R_fin_inv ws pd0 rest s1 H1).
Qed.

End Inner.

(* [his_p] is [his] unless the table holds a waiter for the element that comes next *)
Lemma his_p_his c fuel tb hf p :
  (forall n a s1, i_token (c_ws c) (mkr p false 0%N (Some 0) None) = ((Some (TStart n a), None), s1) ->
                  diverted_to tb n (shown_attrs c n a) = None) ->
  his_p c fuel tb hf p = (PH (fst (his c fuel hf p)), snd (his c fuel hf p), tb).
Proof.
  intro H. unfold his_p. destruct (his c fuel hf p) as [h p'].
  destruct (i_token (c_ws c) (mkr p false 0%N (Some 0) None)) as [[[[n a|n|b|k b]|] [e|]] s1]; try reflexivity.
  rewrite (H n a s1 eq_refl). reflexivity.
Qed.

Lemma his_p_plain c fuel tb hf p h p' :
  his c fuel hf p = (h, p') -> (forall v, h <> HRInv v) -> his_p c fuel tb hf p = (PH h, p', tb).
Proof.
  intros H Hn. rewrite his_p_his, H; [reflexivity|]. intros n a s1 E. exfalso.
  unfold his in H. rewrite E in H. destruct (run_h _ _ _ s1 _ _) as [[[ret s2] w] seen]. destruct (finish_inv_inv c _ _ _ _ _ _ _ _ _ _ _ H) as [v [-> _]].
  apply (Hn v). reflexivity.
Qed.

Lemma his_p_not_diverted c fuel tb hf pd n a l :
  clean (c_ws c) (TStart n a) = true -> diverted_to tb n (shown_attrs c n a) = None ->
  his_p c fuel tb hf (mkp (TStart n a :: l) pd false) =
  (PH (fst (his c fuel hf (mkp (TStart n a :: l) pd false))), snd (his c fuel hf (mkp (TStart n a :: l) pd false)), tb).
Proof.
  intros Hc Hd. apply his_p_his. intros n0 a0 s1 E. rewrite (i_token_start (c_ws c) pd n a l Hc) in E.
  injection E as <- <- _. exact Hd.
Qed.

Lemma his_p_nil c fuel hf p : his_p c fuel [] hf p = (PH (fst (his c fuel hf p)), snd (his c fuel hf p), []).
Proof. apply his_p_his. intros n a s1 _. unfold diverted_to. cbn [pt_find]. destruct (consults _ _); reflexivity. Qed.

Section ServeP.
Variable c : cfg.
Notation ws := (c_ws c).

(* an element handed to a waiter: the handler is not involved, nothing is
   written; if handleInputStream returns nil the element was complete and the
   input stands right after its end tag *)
Lemma his_p_diverted fuel tb hf pd n a l e0 :
  clean ws (TStart n a) = true -> diverted_to tb n (shown_attrs c n a) = Some e0 ->
  let e := snd (scan ws 0 l) in
  exists seen ret p', his_p c fuel tb hf (mkp (TStart n a :: l) pd false)
               = (PDiv (mkdinv n (shown_attrs c n a) (pe_id e0) (pe_live e0) seen ret), p',
                  if pe_live e0 then pt_remove (pe_id e0) tb else tb) /\
    (ret = None -> term_of ws e = EEOF /\ forall rest, e = SEComplete rest -> p' = mkp rest pd false).
Proof.
  intros Hc Hd e. unfold his_p. rewrite (i_token_start ws pd n a l Hc). cbv beta iota zeta.
  rewrite Hd.
  assert (HR0 : reading ws pd e (act pd 0 l)) by (eexists; apply R_act, surjective_pairing).
  assert (Hrun : exists s2 seen, (if pe_live e0 then run_w ws n (shown_attrs c n a) (pe_prog e0) 0 (act pd 0 l) []
                                  else (act pd 0 l, [])) = (s2, seen) /\ reading ws pd e s2).
  { destruct (pe_live e0).
    - apply (run_w_preserved ws pd n (shown_attrs c n a) e). exact HR0.
    - eexists. eexists. split; [reflexivity|exact HR0]. }
  destruct Hrun as [s2 [seen [E2 HR2]]]. rewrite E2.
  destruct (drain_in_spec ws pd e fuel s2 HR2) as [ret [s3 [E3 H3]]]. rewrite E3.
  exists seen, ret, (r_p s3). split; [reflexivity|exact H3].
Qed.

Lemma his_p_PH_inversion fuel tb hf pd n a l h p' tb' :
  clean ws (TStart n a) = true ->
  his_p c fuel tb hf (mkp (TStart n a :: l) pd false) = (PH h, p', tb') ->
  his c fuel hf (mkp (TStart n a :: l) pd false) = (h, p') /\ tb' = tb /\
  diverted_to tb n (shown_attrs c n a) = None.
Proof.
  intros Hc H. destruct (diverted_to tb n (shown_attrs c n a)) as [e0|] eqn:Hd.
  - destruct (his_p_diverted fuel tb hf pd n a l e0 Hc Hd) as [seen [ret [p1 [E _]]]].
    rewrite E in H. discriminate.
  - rewrite (his_p_not_diverted c fuel tb hf pd n a l Hc Hd) in H.
    destruct (his c fuel hf (mkp (TStart n a :: l) pd false)) as [h0 p0]. cbn [fst snd] in H.
    inversion H; subst. repeat split.
Qed.

(* how the events and the result of Serve follow the script, whatever is outstanding: iteration [k]
   of the loop finds the table [tb] as the other goroutines ([env]) leave it, and an element is handed
   over exactly when that table holds a waiter for it *)
Inductive follows_p (env : nat -> ptable -> ptable) : nat -> ptable -> list token -> list event -> option err -> Prop :=
| FP_end k tb l e (Ht : top_err ws l = Some e) : follows_p env k tb l [] (ret_of e)
| FP_ws k tb b l evs r (Hb : is_ws b = true) (Hf : follows_p env (S k) (env k tb) l evs r) :
    follows_p env k tb (TChar b :: l) evs r
| FP_stop k tb n a l pre e v p' er
    (Hc : clean ws (TStart n a) = true) (Hd : diverted_to (env k tb) n (shown_attrs c n a) = None)
    (Hs : scan ws 0 l = (pre, e)) (Hv : inv_spec c n a 0%N pre e v p') (Hr : v_ret v = Some er) :
    follows_p env k tb (TStart n a :: l) [EvInv v] (Some (send_error er))
| FP_go k tb n a l pre rest v evs r
    (Hc : clean ws (TStart n a) = true) (Hd : diverted_to (env k tb) n (shown_attrs c n a) = None)
    (Hs : scan ws 0 l = (pre, SEComplete rest)) (Hv : inv_spec c n a 0%N pre (SEComplete rest) v (mkp rest 0%N false))
    (Hr : v_ret v = None) (Hf : follows_p env (S k) (env k tb) rest evs r) :
    follows_p env k tb (TStart n a :: l) (EvInv v :: evs) r
| FP_div_stop k tb n a l e0 seen er
    (Hc : clean ws (TStart n a) = true) (Hd : diverted_to (env k tb) n (shown_attrs c n a) = Some e0) :
    follows_p env k tb (TStart n a :: l)
              [EvDiv (mkdinv n (shown_attrs c n a) (pe_id e0) (pe_live e0) seen (Some er))] (Some (send_error er))
| FP_div_go k tb n a l pre rest e0 seen evs r
    (Hc : clean ws (TStart n a) = true) (Hd : diverted_to (env k tb) n (shown_attrs c n a) = Some e0)
    (Hs : scan ws 0 l = (pre, SEComplete rest))
    (Hf : follows_p env (S k) (if pe_live e0 then pt_remove (pe_id e0) (env k tb) else env k tb) rest evs r) :
    follows_p env k tb (TStart n a :: l)
              (EvDiv (mkdinv n (shown_attrs c n a) (pe_id e0) (pe_live e0) seen None) :: evs) r.

Lemma serve_p_follows env hf : forall fuel idx k tb l base,
  ends_match base l = true -> length l < fuel ->
  let r := serve_p c fuel env hf idx k tb (mkp l 0%N false) in follows_p env k tb l (sp_events r) (sp_ret r).
Proof.
  induction fuel as [|f IH]; intros idx k tb l base Hm Hl; [lia|].
  cbn [serve_p p_toks]. cbv zeta. pose proof (his_head c (S (length l)) (hf idx) l) as Hh.
  destruct (top_err ws l) as [e|] eqn:Et; [destruct Hh as [p' E]|destruct Hh as [[b [r [-> [Eb E]]]]|[n [a [r [-> Hc]]]]]].
  - rewrite (his_p_plain c _ (env k tb) (hf idx) _ _ _ E) by discriminate.
    destruct e; apply (FP_end env k tb l _ Et).
  - rewrite (his_p_plain c _ (env k tb) (hf idx) _ _ _ E) by discriminate.
    apply FP_ws; [exact Eb|]. apply (IH idx (S k) _ r base); [exact Hm|cbn in Hl; lia].
  - destruct (scan ws 0 r) as [pre e] eqn:Hs.
    destruct (diverted_to (env k tb) n (shown_attrs c n a)) as [e0|] eqn:Hd.
    + destruct (his_p_diverted (S (length (TStart n a :: r))) (env k tb) (hf idx) 0%N n a r e0 Hc Hd) as [seen [[er|] [p' [E D5]]]];
        rewrite E; cbn [d_ret]; rewrite Hs in D5.
      * apply FP_div_stop; assumption.
      * destruct (D5 eq_refl) as [Ht Hrest].
        destruct (elem_complete c n a r base pre e Hc Hm Hs Ht) as [rest [-> [Hm' Hlen]]].
        rewrite (Hrest rest eq_refl). cbn [sp_cons sp_events sp_ret]. eapply FP_div_go; try eassumption.
        apply (IH idx (S k) _ rest base Hm'). cbn in Hl. lia.
    + rewrite (his_p_not_diverted c _ (env k tb) (hf idx) 0%N n a r Hc Hd).
      destruct (his_elem c (S (length (TStart n a :: r))) (hf idx) 0%N n a r pre e Hc Hs) as [v [p' [E [Hv _]]]].
      rewrite E. cbn [fst snd]. destruct (v_ret v) as [er|] eqn:Er.
      * eapply FP_stop; eassumption.
      * destruct (inv_spec_done Hv Er) as [Ht Hrest].
        destruct (elem_complete c n a r base pre e Hc Hm Hs Ht) as [rest [-> [Hm' Hlen]]].
        rewrite (Hrest rest eq_refl) in *. cbn [sp_cons sp_events sp_ret]. eapply FP_go; try eassumption.
        apply (IH (S idx) (S k) _ rest base Hm'). cbn in Hl. lia.
Qed.

(* with nothing outstanding and nobody registering anything the loop is the plain one *)
Lemma serve_p_nil env hf : (forall k, env k [] = []) -> forall fuel idx k p,
  let r := serve_p c fuel env hf idx k [] p in
  sp_ret r = s_ret (serve c fuel hf idx p) /\ sp_events r = map EvInv (s_invs (serve c fuel hf idx p)) /\
  sp_rest r = s_rest (serve c fuel hf idx p).
Proof.
  intro He. induction fuel as [|f IH]; intros idx k p; cbv zeta; [cbn; repeat split|].
  cbn [serve_p serve]. rewrite He, his_p_nil.
  destruct (his c (S (length (p_toks p))) (hf idx) p) as [h p']. cbn [fst snd].
  destruct h as [e| |v].
  - destruct e; cbn [sp_ret sp_events sp_rest s_ret s_invs s_rest map]; repeat split.
  - apply IH.
  - destruct (v_ret v); [cbn; repeat split|].
    destruct (IH (S idx) (S k) p') as [I1 [I2 I3]]. cbn [sp_cons sp_ret sp_events sp_rest s_ret s_invs s_rest map].
    rewrite I1, I2, I3. repeat split.
Qed.

(* a run in which nothing was handed to a waiter *)
Lemma follows_p_plain env k tb l evs r :
  follows_p env k tb l evs r -> forall invs, evs = map EvInv invs -> follows c l invs r.
Proof.
  induction 1; intros invs Heq.
  - destruct invs; [|discriminate]. apply (F_end c l e Ht).
  - apply F_ws; [exact Hb|apply IHfollows_p; exact Heq].
  - destruct invs as [|v0 [|v1 invs]]; try discriminate. injection Heq as <-. eapply F_stop; eassumption.
  - destruct invs as [|v0 invs]; [discriminate|]. injection Heq as <- ->. eapply F_go; try eassumption. apply IHfollows_p. reflexivity.
  - destruct invs as [|v0 [|v1 invs]]; discriminate.
  - destruct invs as [|v0 invs]; discriminate.
Qed.

Lemma serve_follows hf fuel idx l base :
  ends_match base l = true -> length l < fuel ->
  let r := serve c fuel hf idx (mkp l 0%N false) in follows c l (s_invs r) (s_ret r).
Proof.
  intros Hm Hl. cbv zeta.
  destruct (serve_p_nil (fun _ tb => tb) hf (fun _ => eq_refl) fuel idx 0 (mkp l 0%N false)) as [E1 [E2 _]].
  rewrite <- E1. apply (follows_p_plain _ _ _ l _ _ (serve_p_follows _ hf fuel idx 0 [] l base Hm Hl) _ E2).
Qed.

End ServeP.

Lemma serve_all_follows c hf toks base :
  ends_match base toks = true ->
  follows c toks (s_invs (serve_all c hf toks)) (s_ret (serve_all c hf toks)).
Proof. intro Hm. unfold serve_all. apply (serve_follows c hf (S (length toks)) 0 toks base Hm). lia. Qed.
