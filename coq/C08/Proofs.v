(* C08/Proofs.v — lemmas about the serve-loop model: the reader stack step by step,
   any handler tree against it, handleInputStream on one element, and how a run of Serve
   relates to its script ([follows], [reaches_close]; that the loop does so is C08/Loop.v). *)
From XV Require Import lib.Bytes lib.Xml gen.Serve C08.Model.
From Coq Require Import ZArith Lia.

(* internal/stream/reader.go, WebSocket framing (table read from the source):
   a framing element called close ends the input, and only as a top-level element *)
Lemma tbl_ws_close :
  sv_ws_eof_locals = [str "close"] /\ sv_ws_eof_top_only = true /\ sv_ws_eof_unrecognised = 0.
Proof. vm_compute. repeat split. Qed.

(* session.go Serve: the peer's close is recognised by identity with io.EOF, in
   the one switch of the loop (nil / io.EOF / default) *)
Lemma tbl_serve_eof : sv_serve_eof_identity = true /\ sv_serve_switches = 1 /\ sv_serve_clauses = 3.
Proof. vm_compute. repeat split. Qed.

Lemma ws_ends_nested d x : d <> 0%N -> ws_ends d x = false.
Proof.
  intro H. unfold ws_ends. destruct tbl_ws_close as [_ [-> _]]. cbn [negb orb].
  apply N.eqb_neq in H. rewrite H. apply andb_false_r.
Qed.

Lemma ws_ends_top x : ws_ends 0 x = in_list x sv_ws_eof_locals.
Proof. unfold ws_ends. cbn [N.eqb]. rewrite orb_true_r. apply andb_true_r. Qed.

Lemma se_scan_never_eof : forall l d cond, se_scan d cond l <> EEOF /\ se_scan d cond l <> EPoison /\ se_scan d cond l <> EFuel.
Proof.
  induction l as [|t r IH]; intros d cond; cbn [se_scan]; [repeat split; discriminate|].
  destruct d.
  - destruct t as [n a|n|b|k b]; try apply IH; [|repeat split; discriminate].
    destruct (bytes_eqb (nspace n) sv_ns_stream_error); apply IH.
  - destruct t; apply IH.
Qed.

(* the number of open descendants after [t], None when [t] closes the element itself *)
Definition dstep (c : nat) (t : token) : option nat :=
  match t with
  | TStart _ _ => Some (S c)
  | TEnd _ => match c with O => None | S c' => Some c' end
  | _ => Some c
  end.

Lemma scan_cons ws c t r :
  scan ws c (t :: r) =
  if clean ws t then
    match dstep c t with
    | None => ([t], SEComplete r)
    | Some c' => let '(pre, e) := scan ws c' r in (t :: pre, e)
    end
  else ([], SEDirty t r).
Proof. destruct t; try destruct c; reflexivity. Qed.

Lemma elem_body_cons c t r :
  elem_body c (t :: r) =
  match dstep c t with
  | None => Some ([t], r)
  | Some c' => match elem_body c' r with Some (b, rest) => Some (t :: b, rest) | None => None end
  end.
Proof. destruct t; try destruct c; reflexivity. Qed.

Lemma scan_split ws : forall l c pre e, scan ws c l = (pre, e) ->
  Forall (fun t => clean ws t = true) pre /\
  match e with
  | SEComplete rest => l = pre ++ rest /\ elem_body c l = Some (pre, rest) /\ pre <> []
  | SEDirty t r => l = pre ++ t :: r /\ clean ws t = false
  | SETrunc => l = pre /\ elem_body c l = None
  end.
Proof.
  induction l as [|t r IH]; intros c pre e H.
  - inversion H; subst. repeat split. constructor.
  - rewrite scan_cons in H. rewrite elem_body_cons. destruct (clean ws t) eqn:Hc.
    + destruct (dstep c t) as [c'|].
      * destruct (scan ws c' r) as [p1 e1] eqn:E. inversion H; subst. destruct (IH _ _ _ E) as [F1 F2].
        split; [constructor; assumption|].
        destruct e as [rest|t' r'|].
        -- destruct F2 as [-> [-> _]]. repeat split. discriminate.
        -- destruct F2 as [-> F3]. split; [reflexivity|exact F3].
        -- destruct F2 as [-> ->]. split; reflexivity.
      * inversion H; subst. repeat split; [constructor; [assumption|constructor]|discriminate].
    + inversion H; subst. repeat split; [constructor|exact Hc].
Qed.

Lemma scan_len ws l c pre e : scan ws c l = (pre, e) -> length pre <= length l.
Proof.
  intro H. destruct (scan_split ws l c pre e H) as [_ F]. destruct e; destruct F as [-> _]; rewrite ?app_length; lia.
Qed.

Lemma scan_rest_len ws l c pre rest : scan ws c l = (pre, SEComplete rest) -> length rest < length l.
Proof.
  intro H. destruct (scan_split ws l c pre _ H) as [_ [-> [_ Hne]]]. rewrite app_length.
  destruct pre; [contradiction|cbn; lia].
Qed.

Lemma scan_of_body ws : forall l c b rest, elem_body c l = Some (b, rest) ->
  Forall (fun t => clean ws t = true) b -> scan ws c l = (b, SEComplete rest).
Proof.
  induction l as [|t r IH]; intros c b rest H Hf; [discriminate|].
  rewrite elem_body_cons in H. rewrite scan_cons. destruct (dstep c t) as [c'|].
  - destruct (elem_body c' r) as [[b1 r1]|] eqn:E; [|discriminate]. inversion H; subst.
    inversion Hf as [|x y Hx Hy]; subst. rewrite Hx, (IH _ _ _ E Hy). reflexivity.
  - inversion H; subst. inversion Hf as [|x y Hx Hy]; subst. rewrite Hx. reflexivity.
Qed.

Section Reading.
Variable ws : bool.

Lemma dec64_succ x : dec64 (N.succ x) = x.
Proof. unfold dec64. rewrite (proj2 (N.eqb_neq _ _) (N.neq_succ_0 x)). apply N.pred_succ. Qed.

(* the depth of a stream reader after it has let [t] through *)
Definition dafter (d : N) (t : token) : N :=
  match t with TStart _ _ => N.succ d | TEnd _ => dec64 d | _ => d end.

(* text is only let through inside an element *)
Definition inside (d : N) (t : token) : Prop := match t with TChar _ => d <> 0%N | _ => True end.

Lemma classify_clean d t : clean ws t = true -> inside d t -> sr_classify ws d t = (SOTok t, dafter d t).
Proof.
  intros Hc Hd. destruct t as [n a|n|b|k b]; cbn [clean] in Hc; unfold sr_classify, dafter.
  - apply andb_true_iff in Hc. destruct Hc as [H1 H2]. apply negb_true_iff in H2. rewrite H2, H1. reflexivity.
  - rewrite Hc. reflexivity.
  - apply N.eqb_neq in Hd. rewrite Hd. reflexivity.
  - discriminate.
Qed.

Lemma i_token_clean t l pd idp cnt ece : clean ws t = true -> inside pd t -> inside idp t ->
  i_token ws (mkr (mkp (t :: l) pd false) false idp cnt ece)
  = (ok_res t, mkr (mkp l (dafter pd t) false) false (dafter idp t) cnt ece).
Proof.
  intros Hc Hp Hi. unfold i_token, rc_token, p_token. cbn [r_closed r_p p_poison p_toks p_depth].
  rewrite (classify_clean pd t Hc Hp). cbn [r_idepth]. rewrite (classify_clean idp t Hc Hi). reflexivity.
Qed.

(* a stream-level construct stops P: with the error [dirty_err] names inside an element, with the one
   [top_dirty_err] names between elements (only there does a framing element end the input) *)
Lemma p_token_dirty t l pd : clean ws t = false ->
  exists p', p_token ws (mkp (t :: l) pd false) =
    ((None, Some (if N.eqb pd 0 then top_dirty_err ws t l else dirty_err ws t l)), p').
Proof.
  intro Hc. unfold p_token, sr_classify, top_dirty_err, dirty_err. cbn [p_poison p_toks p_depth].
  destruct t as [n a|n|b|k b]; cbn [clean] in Hc.
  - destruct (ws && bytes_eqb (nspace n) sv_ns_framing); cbn [andb].
    + destruct (N.eqb_spec pd 0) as [->|Hp]; [rewrite ws_ends_top; destruct (in_list (nlocal n) sv_ws_eof_locals)
                                             |rewrite (ws_ends_nested pd _ Hp)]; eexists; reflexivity.
    + rewrite andb_true_r in Hc. rewrite Hc.
      destruct (bytes_eqb (nlocal n) s_error); [destruct (N.eqb pd 0); eexists; reflexivity|].
      destruct (bytes_eqb (nlocal n) s_stream); destruct (N.eqb pd 0); eexists; reflexivity.
  - rewrite Hc. destruct (bytes_eqb (nlocal n) s_stream); destruct (N.eqb pd 0); eexists; reflexivity.
  - discriminate.
  - destruct k as [|[|k]]; destruct (N.eqb pd 0); eexists; reflexivity.
Qed.

Lemma i_token_err s x p' : r_closed s = false -> p_token ws (r_p s) = ((None, Some x), p') ->
  i_token ws s = ((None, Some x), mkr p' false (r_idepth s) (r_count s) (r_ecerr s)).
Proof. intros Hc E. unfold i_token, rc_token. rewrite Hc, E. reflexivity. Qed.

(* depth [d] with [c] more elements open: successor by successor, so that a stream reader's
   own counting ([dafter]) meets it by computation *)
Fixpoint up (c : nat) (d : N) : N := match c with O => d | S c' => N.succ (up c' d) end.

(* [c] descendants of the element are open; [pd0] is P's depth outside the element *)
Definition act (pd0 : N) (c : nat) (l : list token) : rst :=
  mkr (mkp l (up (S c) pd0) false) false (up (S c) 0) (Some c) None.

Definition fin (pd0 : N) (l : list token) (cl : bool) : rst :=
  mkr (mkp l pd0 false) cl 0%N None None.

Lemma ec_clean pd0 c t l : clean ws t = true ->
  ec_token ws (act pd0 c (t :: l))
  = (ok_res t, match dstep c t with Some c' => act pd0 c' l | None => fin pd0 l false end).
Proof.
  intro Hc. unfold ec_token, ie_token, act. cbn [r_ecerr r_count].
  rewrite (i_token_clean t l _ _ _ _ Hc) by (destruct t; try exact I; apply N.neq_succ_0).
  destruct t as [n a|n|b|k b]; [reflexivity| |reflexivity|discriminate]. cbn [fst snd ok_res dstep dafter up].
  rewrite !dec64_succ. destruct c; reflexivity.
Qed.

Lemma ec_fin pd0 l cl : ec_token ws (fin pd0 l cl) = ((None, Some EEOF), fin pd0 l true).
Proof. reflexivity. Qed.

(* [reader_at pd0 pre e s]: the handler's reader is in state [s] inside an element whose
   remaining readable part is [pre], ending as [e] says; once it has failed it
   keeps failing with the same error *)
Inductive reader_at (pd0 : N) : list token -> scan_end -> rst -> Prop :=
| R_act c l pre e (Hs : scan ws c l = (pre, e)) : reader_at pd0 pre e (act pd0 c l)
| R_fin rest cl : reader_at pd0 [] (SEComplete rest) (fin pd0 rest cl)
| R_dead e s (Hne : forall rest, e <> SEComplete rest) (Hcnt : r_count s <> None)
    (Hst : ec_token ws s = ((None, Some (term_of ws e)), s)) : reader_at pd0 [] e s.

(* an error of P comes up through every layer; earlyCloser keeps it (on EOF it closes rc instead,
   which gives EOF for ever), so from then on the reader gives that error and stays as it is *)
Lemma R_stop pd0 c l e p' :
  p_token ws (mkp l (up (S c) pd0) false) = ((None, Some (term_of ws e)), p') ->
  (forall rest, e <> SEComplete rest) ->
  exists s', ec_token ws (act pd0 c l) = ((None, Some (term_of ws e)), s') /\ reader_at pd0 [] e s'.
Proof.
  intros E Hne. unfold ec_token at 1, ie_token, act. cbn [r_ecerr r_count].
  erewrite i_token_err by (reflexivity || exact E). cbn [fst snd r_idepth r_count r_ecerr].
  destruct (term_of ws e) eqn:Ht; eexists; (split; [reflexivity|]);
    (apply R_dead; [exact Hne|discriminate|rewrite Ht; reflexivity]).
Qed.

Definition next_res (pre : list token) (e : scan_end) : rres :=
  match pre with t :: _ => ok_res t | [] => (None, Some (term_of ws e)) end.

Lemma R_step pd0 pre e s : reader_at pd0 pre e s ->
  exists s', ec_token ws s = (next_res pre e, s') /\ reader_at pd0 (tl pre) e s'.
Proof.
  destruct 1.
  - (* R_act: the input has ended, or its next token is let through, or it stops P *)
    destruct l as [|t r]; [|rewrite scan_cons in Hs; destruct (clean ws t) eqn:Hc].
    + injection Hs as <- <-. apply (R_stop pd0 c [] SETrunc _ eq_refl). discriminate.
    + rewrite (ec_clean pd0 c t r Hc).
      destruct (dstep c t) as [c'|]; [destruct (scan ws c' r) as [p1 e1] eqn:Hs'|]; injection Hs as <- <-;
        eexists; (split; [reflexivity|]); [apply R_act; exact Hs'|apply R_fin].
    + injection Hs as <- <-. destruct (p_token_dirty t r (up (S c) pd0) Hc) as [p' E].
      rewrite (proj2 (N.eqb_neq _ 0)) in E by apply N.neq_succ_0. apply (R_stop pd0 c _ (SEDirty t r) p' E). discriminate.
  - eexists. split; [apply ec_fin|]. apply R_fin.
  - exists s. split; [exact Hst|apply R_dead; assumption].
Qed.

Lemma R_fin_inv pd0 rest s : reader_at pd0 [] (SEComplete rest) s -> r_p s = mkp rest pd0 false.
Proof.
  inversion 1; subst.
  - destruct (scan_split ws _ _ _ _ Hs) as [_ [_ [_ F]]]. destruct F. reflexivity.
  - reflexivity.
  - destruct (Hne rest eq_refl).
Qed.

(* [writes Q h]: whatever [h] is given to read, when it returns [e] having written [ts], [Q ts e] *)
Fixpoint writes (Q : list token -> option err -> Prop) (h : handler) : Prop :=
  match h with
  | HRet e => Q [] e
  | HRd k => forall r, writes Q (k r)
  | HWr t k => writes (fun ts => Q (t :: ts)) k
  end.

(* any handler tree: what it reads is a prefix view of the readable part; what it writes and
   returns meets whatever the tree guarantees on every path *)
Lemma run_h_spec pd0 id h : forall pre e s w seen, reader_at pd0 pre e s ->
  exists k s' ret hw,
    run_h ws id h s w seen = (ret, s', enc_all id hw w, rev seen ++ view k pre (term_of ws e)) /\
    reader_at pd0 (skipn k pre) e s' /\ forall Q, writes Q h -> Q hw ret.
Proof.
  induction h as [e0|kf IH|t k IH]; intros pre e s w seen HR.
  - exists 0, s, e0, []. cbn. rewrite app_nil_r. split; [reflexivity|]. split; [exact HR|intros Q H; exact H].
  - cbn [run_h]. destruct (R_step pd0 pre e s HR) as [s1 [E1 R1]]. rewrite E1.
    destruct (IH (next_res pre e) (tl pre) e s1 w (next_res pre e :: seen) R1) as [k [s' [ret [hw [E2 [R2 W]]]]]].
    exists (S k), s', ret, hw. split; [|split; [destruct pre; [destruct k|]; exact R2|intros Q H; apply W, H]].
    etransitivity; [exact E2|]. cbn [rev]. rewrite <- app_assoc. destruct pre; reflexivity.
  - cbn [run_h]. destruct (IH pre e s (rc_encode id t w) seen HR) as [k0 [s' [ret [hw [E2 [R2 W]]]]]].
    exists k0, s', ret, (t :: hw). split; [|split; [exact R2|intros Q H; apply (W _ H)]]. etransitivity; [exact E2|]. reflexivity.
Qed.

Lemma drain_spec pd0 : forall fuel pre e s, reader_at pd0 pre e s ->
  exists ret s', drain ws fuel s = (ret, s') /\
    (ret = Some EFuel \/
     ret = (match term_of ws e with EEOF => None | x => Some x end) /\ reader_at pd0 [] e s').
Proof.
  induction fuel as [|f IH]; intros pre e s HR; [exists (Some EFuel), s; split; [reflexivity|left; reflexivity]|].
  cbn [drain]. destruct (R_step pd0 pre e s HR) as [s1 [E1 R1]]. rewrite E1.
  destruct pre as [|t pre']; cbn [next_res snd ok_res]; [|apply (IH pre' e s1 R1)].
  eexists. exists s1. split; [|right; split; [reflexivity|exact R1]]. destruct (term_of ws e); reflexivity.
Qed.
End Reading.

Lemma enc_all_out id hw : forall w, w_out (enc_all id hw w) = w_out w ++ hw.
Proof.
  induction hw as [|t hw IH]; intro w; cbn [enc_all fold_left]; [rewrite app_nil_r; reflexivity|].
  fold (enc_all id hw (rc_encode id t w)). rewrite IH.
  destruct t; cbn [rc_encode]; try destruct (get_id_typ a); cbn [w_out]; rewrite <- app_assoc; reflexivity.
Qed.

Lemma i_token_start ws pd n a l : clean ws (TStart n a) = true ->
  i_token ws (mkr (mkp (TStart n a :: l) pd false) false 0%N (Some O) None)
  = ((Some (TStart n a), None), act pd 0 l).
Proof.
  intro Hc. exact (i_token_clean ws _ l pd 0 _ _ Hc I I).
Qed.

Section His.
Variable c : cfg.
Notation ws := (c_ws c).

(* what one invocation on the element <n a>l... looks like: [pd] is P's depth before the
   start tag, [scan ws 0 l = (pre, e)] the element's readable part and its end, [p'] the
   input after handleInputStream has returned *)
Definition inv_spec (n : name) (a : list attr) (pd : N) (pre : list token) (e : scan_end) (v : inv) (p' : pst) : Prop :=
  let a' := shown_attrs c n a in
  let id := fst (get_id_typ a') in
  let from := attr_get s_from a' in
  v_name v = n /\ v_attrs v = a' /\
  (exists k, v_seen v = view k pre (term_of ws e)) /\
  (v_ret v = None ->
     term_of ws e = EEOF /\
     (forall rest, e = SEComplete rest -> p' = mkp rest pd false) /\
     exists j, (wanted n a' (v_hw v) = true -> from <> [] -> c_jp c from = Some j) /\
               ((wanted n a' (v_hw v) = false \/ from = []) -> j = []) /\
               v_auto v = if wanted n a' (v_hw v) then default_reply id j else []) /\
  v_ret v <> Some EEOF /\
  (term_of ws e <> EEOF -> v_ret v <> None) /\
  (wanted n a' (v_hw v) = false -> v_auto v = []).

Lemma inv_spec_failed n a pd pre e k hw auto er p' :
  er <> EEOF -> (wanted n (shown_attrs c n a) hw = false -> auto = []) ->
  inv_spec n a pd pre e (mkinv n (shown_attrs c n a) (view k pre (term_of ws e)) hw auto (Some er)) p'.
Proof.
  intros Hne Hau. unfold inv_spec. cbn [v_name v_attrs v_seen v_hw v_auto v_ret].
  split; [reflexivity|]. split; [reflexivity|]. split; [exists k; reflexivity|].
  split; [discriminate|]. split; [congruence|]. split; [discriminate|exact Hau].
Qed.

Lemma finish_inv_inv fuel n a' id typ ret s2 w seen h p' :
  finish_inv c fuel n a' id typ (ret, s2, w, seen) = (h, p') ->
  exists v, h = HRInv v /\ v_seen v = seen /\ v_hw v = w_out w /\ (ret <> None -> v_ret v <> None /\ v_auto v = []).
Proof.
  unfold finish_inv. destruct ret as [er|].
  { intros [= <- _]. eexists. repeat split. discriminate. }
  assert (Hn : forall P : Prop, @None err <> None -> P) by (intros P H; destruct (H eq_refl)).
  destruct (if (_ : bool) then c_jp c _ else Some []); [|intros [= <- _]; eexists; repeat split; apply Hn; assumption].
  destruct (c_oclosed c && _); [|destruct (drain ws fuel s2)]; intros [= <- _]; eexists; repeat split; apply Hn; assumption.
Qed.

(* [ret] is what the handler itself returned. For any fuel: with too little the drain fails,
   which [inv_spec] allows *)
Lemma his_elem fuel hf pd n a l pre e :
  clean ws (TStart n a) = true -> scan ws 0 l = (pre, e) ->
  exists v p', his c fuel hf (mkp (TStart n a :: l) pd false) = (HRInv v, p') /\ inv_spec n a pd pre e v p' /\
    forall Q, writes Q (hf n (shown_attrs c n a)) ->
              exists ret, Q (v_hw v) ret /\ (ret <> None -> v_ret v <> None /\ v_auto v = []).
Proof.
  (* [run_h_spec] for what the handler saw and where it left the reader; the record against that
     run by [finish_inv_inv]; [inv_spec] by the ways [finish_inv] can end: three failures and a
     drain out of fuel ([inv_spec_failed]), and the drain to the end of the element ([drain_spec])
     with the reply added *)
  intros Hc Hs. unfold his. rewrite (i_token_start ws pd n a l Hc). cbv beta iota.
  set (a' := shown_attrs c n a). set (id := fst (get_id_typ a')). set (typ := snd (get_id_typ a')).
  destruct (run_h_spec ws pd id (hf n a') pre e (act pd 0 l) w0 [] (R_act ws pd 0 l pre e Hs))
    as [k [s2 [ret [hw [E [R2 W]]]]]].
  change (mkw [] 0%Z false) with w0. rewrite E. cbn [rev app].
  destruct (finish_inv c fuel n a' id typ _) as [h p'] eqn:Ef.
  destruct (finish_inv_inv fuel n a' id typ _ _ _ _ _ _ Ef) as [v [-> [V1 [V2 V3]]]].
  rewrite (enc_all_out id hw w0) in V2. exists v, p'. split; [reflexivity|].
  split; [|intros Q HQ; exists ret; rewrite V2; split; [exact (W Q HQ)|exact V3]]. clear V1 V2 V3 W.
  unfold finish_inv in Ef. rewrite (enc_all_out id hw w0) in Ef. cbn [w0 w_out app] in Ef. fold w0 in Ef.
  destruct ret as [er|].
  { (* the handler's own error *) injection Ef as <- <-. apply inv_spec_failed; [destruct er; discriminate|reflexivity]. }
  fold a' in Ef. set (from := attr_get s_from a') in *.
  change (is_iq n && needs_resp typ && negb (w_wrote (enc_all id hw w0))) with (wanted n a' hw) in Ef.
  destruct ((if wanted n a' hw && negb (is_nil from) then c_jp c from else Some [])) as [j|] eqn:Eto;
    [|(* the sender does not parse *) injection Ef as <- <-; apply inv_spec_failed; [discriminate|reflexivity]].
  destruct (c_oclosed c && (wanted n a' hw || negb (is_nil hw)));
    [(* the output is closed *) injection Ef as <- <-; apply inv_spec_failed; [discriminate|reflexivity]|].
  destruct (drain_spec ws pd fuel (skipn k pre) e s2 R2) as [r3 [s3 [Ed [->|[-> R3]]]]];
    rewrite Ed in Ef; injection Ef as <- <-;
    [(* out of fuel *) apply inv_spec_failed; [discriminate|intro Hw'; fold a' in Hw'; rewrite Hw'; reflexivity]|].
  unfold inv_spec. cbn [v_name v_attrs v_seen v_hw v_auto v_ret]. fold a'. fold id. fold from.
  split; [reflexivity|]. split; [reflexivity|]. split; [exists k; reflexivity|].
  split; [|split; [|split]].
  - intro Hn. assert (Ht : term_of ws e = EEOF) by (destruct (term_of ws e); try discriminate; reflexivity).
    split; [exact Ht|]. split.
    + intros rest ->. apply (R_fin_inv ws pd rest s3 R3).
    + exists j. split; [|split].
      * intros Hwant Hfrom. rewrite Hwant in Eto. destruct from; [congruence|]. exact Eto.
      * intros [Hwant|Hfrom].
        -- rewrite Hwant in Eto. cbn in Eto. congruence.
        -- rewrite Hfrom in Eto. cbn in Eto. rewrite andb_false_r in Eto. congruence.
      * reflexivity.
  - destruct (term_of ws e); discriminate.
  - intro Ht. destruct (term_of ws e); try discriminate; congruence.
  - intro Hw'. rewrite Hw'. reflexivity.
Qed.
End His.

Section Fields.
Context {c : cfg} {n : name} {a : list attr} {pd : N} {pre : list token} {e : scan_end} {v : inv} {p' : pst}
        (Hv : inv_spec c n a pd pre e v p').
Notation ws := (c_ws c).

Lemma inv_spec_shown : v_name v = n /\ v_attrs v = shown_attrs c n a.
Proof. split; apply Hv. Qed.

Lemma inv_spec_seen : exists k, v_seen v = view k pre (term_of ws e).
Proof. apply Hv. Qed.

Lemma inv_spec_done : v_ret v = None -> term_of ws e = EEOF /\ forall rest, e = SEComplete rest -> p' = mkp rest pd false.
Proof. intro Hr. split; apply Hv, Hr. Qed.

(* what the session adds to an invocation that ended without error; [j] is the parsed sender *)
Lemma inv_spec_reply : v_ret v = None ->
  let a' := shown_attrs c n a in
  let from := attr_get s_from a' in
  exists j, (wanted n a' (v_hw v) = true -> from <> [] -> c_jp c from = Some j) /\
            ((wanted n a' (v_hw v) = false \/ from = []) -> j = []) /\
            v_auto v = if wanted n a' (v_hw v) then default_reply (fst (get_id_typ a')) j else [].
Proof. intro Hr. apply Hv, Hr. Qed.

Lemma inv_spec_no_eof : v_ret v <> Some EEOF.
Proof. apply Hv. Qed.

Lemma inv_spec_no_auto : wanted n (shown_attrs c n a) (v_hw v) = false -> v_auto v = [].
Proof. apply Hv. Qed.

Lemma inv_spec_fatal : term_of ws e <> EEOF -> v_ret v <> None.
Proof. apply Hv. Qed.
End Fields.

Lemma his_inv_spec c fuel hf pd n a l v p' :
  clean (c_ws c) (TStart n a) = true ->
  his c fuel hf (mkp (TStart n a :: l) pd false) = (HRInv v, p') ->
  exists pre e, inv_spec c n a pd pre e v p'.
Proof.
  intros Hc Hh. destruct (scan (c_ws c) 0 l) as [pre e] eqn:Hs.
  destruct (his_elem c fuel hf pd n a l pre e Hc Hs) as [v0 [p0 [E [Hv _]]]].
  rewrite Hh in E. inversion E; subst. exists pre, e. exact Hv.
Qed.

Section Serve.
Variable c : cfg.
Notation ws := (c_ws c).

Lemma his_head fuel hf l :
  match top_err ws l with
  | Some e => exists p', his c fuel hf (mkp l 0%N false) = (HREnd e, p')
  | None => (exists b r, l = TChar b :: r /\ is_ws b = true /\ his c fuel hf (mkp l 0%N false) = (HRSkip, mkp r 0%N false)) \/
            (exists n a r, l = TStart n a :: r /\ clean ws (TStart n a) = true)
  end.
Proof.
  (* a stream-level construct: P's error, EOF for a framing element that ends the input *)
  assert (Hd : forall t r, clean ws t = false ->
            exists p', his c fuel hf (mkp (t :: r) 0%N false) = (HREnd (top_dirty_err ws t r), p')).
  { intros t r Hc. destruct (p_token_dirty ws t r 0 Hc) as [p' E]. unfold his.
    erewrite i_token_err by (reflexivity || exact E). eexists. reflexivity. }
  destruct l as [|[n a|n|b|k b] r]; cbn [top_err].
  - eexists. reflexivity.
  - destruct (clean ws (TStart n a)) eqn:Hc; [right; exists n, a, r; split; [reflexivity|exact Hc]|apply Hd, Hc].
  - (* an end tag the readers let through: bad state *)
    destruct (clean ws (TEnd n)) eqn:Hc; [|apply (Hd _ r Hc)].
    unfold his. rewrite (i_token_clean ws _ r _ _ _ _ Hc I I). eexists. reflexivity.
  - unfold his, i_token, rc_token, p_token, sr_classify. cbn [r_closed r_p p_poison p_toks p_depth N.eqb andb].
    destruct (is_ws b) eqn:Eb; cbn [negb]; [|eexists; reflexivity].
    left. exists b, r. split; [reflexivity|]. split; [exact Eb|].
    cbn [r_idepth r_closed r_count r_ecerr r_p set_idepth N.eqb andb]. rewrite Eb. reflexivity.
  - apply (Hd (TMisc k b) r eq_refl).
Qed.

(* how the invocations and the result of Serve follow the script *)
Inductive follows : list token -> list inv -> option err -> Prop :=
| F_end l e : top_err ws l = Some e -> follows l [] (ret_of e)
| F_ws b l invs r : is_ws b = true -> follows l invs r -> follows (TChar b :: l) invs r
| F_stop n a l pre e v p' er :
    clean ws (TStart n a) = true -> scan ws 0 l = (pre, e) -> inv_spec c n a 0%N pre e v p' ->
    v_ret v = Some er -> follows (TStart n a :: l) [v] (Some (send_error er))
| F_go n a l pre rest v invs r :
    clean ws (TStart n a) = true -> scan ws 0 l = (pre, SEComplete rest) ->
    inv_spec c n a 0%N pre (SEComplete rest) v (mkp rest 0%N false) ->
    v_ret v = None -> follows rest invs r -> follows (TStart n a :: l) (v :: invs) r.

Definition not_stream (n : name) : Prop := bytes_eqb (nspace n) sv_ns_stream = false.

Lemma clean_not_stream n a : clean ws (TStart n a) = true -> not_stream n.
Proof. cbn [clean]. intro Hc. apply andb_true_iff in Hc. destruct Hc as [H1 _]. apply negb_true_iff in H1. exact H1. Qed.

Lemma dirty_eof_is_end t r : dirty_err ws t r = EEOF -> exists n, t = TEnd n.
Proof.
  destruct t as [n a|n|b|k b]; cbn [dirty_err]; intro H.
  - destruct (ws && bytes_eqb (nspace n) sv_ns_framing); [discriminate|].
    destruct (bytes_eqb (nlocal n) s_error); [destruct (se_scan_never_eof r 0 []) as [F _]; destruct (F H)|].
    destruct (bytes_eqb (nlocal n) s_stream); discriminate.
  - eexists; reflexivity.
  - discriminate.
  - destruct k as [|[|k]]; discriminate.
Qed.

(* with matching end tags ([inner]: the open elements, none of the stream name space)
   the readable part ends at the tag that closes the element, where the tokenizer's
   guarantee holds again, or at a construct that is not the end of the stream *)
Lemma scan_ends_match : forall l c0 inner base,
  ends_match (inner ++ base) l = true -> length inner = S c0 -> Forall not_stream inner ->
  match snd (scan ws c0 l) with
  | SEComplete rest => ends_match base rest = true
  | SEDirty t r => dirty_err ws t r <> EEOF
  | SETrunc => True
  end.
Proof.
  induction l as [|t0 r0 IH]; intros c0 inner base Hm Hl Hf; cbn [scan]; [exact I|].
  destruct (clean ws t0) eqn:Hc.
  - destruct t0 as [n a|n|b|k b]; cbn [ends_match] in Hm.
    + (* TStart: one more open element *)
      specialize (IH (S c0) (n :: inner) base Hm). destruct (scan ws (S c0) r0). apply IH; [cbn; lia|].
      constructor; [exact (clean_not_stream n a Hc)|exact Hf].
    + (* TEnd: closes the innermost; the element itself when c0 = 0 *)
      destruct inner as [|m inner']; [discriminate|]. cbn [app] in Hm.
      apply andb_true_iff in Hm. destruct Hm as [_ Hm]. inversion Hf; subst.
      destruct c0 as [|c'].
      * destruct inner'; [exact Hm|discriminate].
      * specialize (IH c' inner' base Hm). destruct (scan ws c' r0). apply IH; [cbn in Hl; lia|assumption].
    + specialize (IH c0 inner base Hm Hl Hf). destruct (scan ws c0 r0). exact IH.
    + discriminate.
  - (* a construct that reads as EOF is an end tag of the stream name space: it would have to
       match an open element, none of which is in that name space *)
    intro Heq. destruct (dirty_eof_is_end t0 r0 Heq) as [n ->].
    cbn [ends_match] in Hm. destruct inner as [|m inner']; [discriminate|]. cbn [app] in Hm.
    apply andb_true_iff in Hm. destruct Hm as [Hn _]. apply name_eqb_eq in Hn. subst m.
    inversion Hf as [|x y Hx Hy]; subst. unfold not_stream in Hx.
    cbn [clean] in Hc. rewrite Hx in Hc. discriminate.
Qed.

Lemma elem_complete n a l base pre e :
  clean ws (TStart n a) = true -> ends_match base (TStart n a :: l) = true ->
  scan ws 0 l = (pre, e) -> term_of ws e = EEOF ->
  exists rest, e = SEComplete rest /\ ends_match base rest = true /\ length rest < length l.
Proof.
  intros Hc Hm Hs Ht.
  pose proof (scan_ends_match l 0 [n] base Hm eq_refl
                (Forall_cons _ (clean_not_stream n a Hc) (Forall_nil _))) as H. rewrite Hs in H.
  destruct e as [rest|t r|]; [|contradiction|discriminate].
  exists rest. split; [reflexivity|]. split; [exact H|]. apply (scan_rest_len ws l 0 pre rest Hs).
Qed.

Lemma serve_end f hf idx l e : top_err ws l = Some e ->
  exists p', serve c (S f) hf idx (mkp l 0%N false) = mksres (ret_of e) [] p'.
Proof.
  intro Ht. cbn [serve p_toks]. pose proof (his_head (S (length l)) (hf idx) l) as H. rewrite Ht in H.
  destruct H as [p' E]. rewrite E.
  exists p'. destruct e; reflexivity.
Qed.

End Serve.

Lemma view_eq : forall k pre term,
  view k pre term = map ok_res (firstn k pre) ++ repeat (None, Some term) (k - length pre).
Proof.
  induction k as [|k IH]; intros pre term; [reflexivity|].
  destruct pre as [|x pre']; cbn [view firstn map app length Nat.sub repeat]; rewrite IH; [|reflexivity].
  rewrite firstn_nil, Nat.sub_0_r. reflexivity.
Qed.

Lemma view_tokens k pre term t e : In (Some t, e) (view k pre term) -> In t pre /\ e = None.
Proof.
  rewrite view_eq. intro H. apply in_app_or in H. destruct H as [H|H].
  - apply in_map_iff in H. destruct H as [x [[= -> <-] Hx]]. split; [|reflexivity].
    rewrite <- (firstn_skipn k pre). apply in_or_app. left. exact Hx.
  - apply repeat_spec in H. discriminate.
Qed.

Lemma view_short k pre term : k <= length pre -> view k pre term = map ok_res (firstn k pre).
Proof. intro H. rewrite view_eq. replace (k - length pre) with 0 by lia. apply app_nil_r. Qed.

Lemma view_long k pre term : length pre <= k ->
  view k pre term = map ok_res pre ++ repeat (None, Some term) (k - length pre).
Proof. intro H. rewrite view_eq, firstn_all2 by exact H. reflexivity. Qed.

Definition is_from (x : attr) : bool := is_nil (nspace (aname x)) && bytes_eqb (nlocal (aname x)) s_from.

Lemma norm_from_spec own : forall a,
  Forall2 (fun x y => aname y = aname x /\ (aval y = aval x \/ (is_from x = true /\ aval x = own /\ aval y = [])))
          a (norm_from own a).
Proof.
  induction a as [|x a IH]; cbn [norm_from]; [constructor|].
  destruct (is_nil (nspace (aname x)) && bytes_eqb (nlocal (aname x)) s_from) eqn:E.
  - constructor.
    + destruct (bytes_eqb (aval x) own) eqn:Eo.
      * cbn. split; [reflexivity|]. right. apply bytes_eqb_eq in Eo. auto.
      * split; [reflexivity|left; reflexivity].
    + (* the attributes after it are unchanged *) clear. induction a; constructor; auto.
  - constructor; [split; [reflexivity|left; reflexivity]|exact IH].
Qed.

Lemma norm_from_get own : forall a,
  attr_get s_from (norm_from own a) = if bytes_eqb (attr_get s_from a) own then [] else attr_get s_from a.
Proof.
  induction a as [|x a IH]; cbn [norm_from attr_get].
  - destruct (bytes_eqb [] own); reflexivity.
  - destruct (is_nil (nspace (aname x)) && bytes_eqb (nlocal (aname x)) s_from) eqn:E.
    + destruct (bytes_eqb (aval x) own) eqn:Eo; cbn [attr_get aname aval]; rewrite E; reflexivity.
    + cbn [attr_get]. rewrite E. exact IH.
Qed.

Lemma norm_from_id_typ own : forall a id typ fi ft,
  get_id_typ_from (norm_from own a) id typ fi ft = get_id_typ_from a id typ fi ft.
Proof.
  induction a as [|x a IH]; intros id typ fi ft; cbn [norm_from]; [reflexivity|].
  destruct (is_nil (nspace (aname x)) && bytes_eqb (nlocal (aname x)) s_from) eqn:E.
  - destruct (bytes_eqb (aval x) own); [|reflexivity].
    apply andb_true_iff in E. destruct E as [E1 E2]. apply bytes_eqb_eq in E2.
    cbn [get_id_typ_from aname aval]. rewrite E1. cbn [negb]. rewrite E2.
    replace (bytes_eqb s_from s_id) with false by reflexivity.
    replace (bytes_eqb s_from s_type) with false by reflexivity. reflexivity.
  - cbn [get_id_typ_from]. destruct (negb (is_nil (nspace (aname x)))); [apply IH|].
    destruct ((fi || bytes_eqb (nlocal (aname x)) s_id) && (ft || bytes_eqb (nlocal (aname x)) s_type)); [reflexivity|apply IH].
Qed.

(* the distinguished model-only errors never come out of the reader stack *)
Lemma term_of_real ws e : term_of ws e <> EPoison /\ term_of ws e <> EFuel.
Proof.
  destruct e as [rest|t r|]; cbn [term_of]; try (split; discriminate).
  destruct t as [n a|n|b|k b]; cbn [dirty_err].
  - destruct (ws && bytes_eqb (nspace n) sv_ns_framing); [split; discriminate|].
    destruct (bytes_eqb (nlocal n) s_error); [destruct (se_scan_never_eof r 0 []) as [_ [? ?]]; split; assumption|].
    destruct (bytes_eqb (nlocal n) s_stream); split; discriminate.
  - destruct (bytes_eqb (nlocal n) s_stream); split; discriminate.
  - split; discriminate.
  - destruct k as [|[|k]]; split; discriminate.
Qed.

Lemma serve_all_end c hf toks e : top_err (c_ws c) toks = Some e ->
  s_invs (serve_all c hf toks) = [] /\ s_ret (serve_all c hf toks) = ret_of e.
Proof. intro H. unfold serve_all. destruct (serve_end c (length toks) hf 0 toks e H) as [p' ->]. split; reflexivity. Qed.

Section Nil.
Variable c : cfg.
Notation ws := (c_ws c).

(* the script leads to the peer's close: keep-alives and complete clean elements, then the closing tag *)
Inductive reaches_close : list token -> Prop :=
| RC_end l : top_err ws l = Some EEOF -> reaches_close l
| RC_ws b l : is_ws b = true -> reaches_close l -> reaches_close (TChar b :: l)
| RC_elem n a l pre rest : clean ws (TStart n a) = true -> scan ws 0 l = (pre, SEComplete rest) ->
    reaches_close rest -> reaches_close (TStart n a :: l).

(* [reaches_close] read from the head of the script *)
Lemma reaches_close_inv l : reaches_close l ->
  match top_err ws l with
  | Some e => e = EEOF
  | None => match l with
            | TChar _ :: r => reaches_close r
            | TStart _ _ :: r => exists pre rest, scan ws 0 r = (pre, SEComplete rest) /\ reaches_close rest
            | _ => False
            end
  end.
Proof.
  destruct 1 as [l Ht|b l Hb Hr|n a l pre rest Hc Hs Hr]; cbn [top_err].
  - rewrite Ht. reflexivity.
  - rewrite Hb. exact Hr.
  - rewrite Hc. exists pre, rest. split; assumption.
Qed.

Lemma follows_close l invs r : follows c l invs r ->
  (r = None <-> reaches_close l /\ Forall (fun v => v_ret v = None) invs).
Proof.
  (* two bullets per constructor of [follows]: left to right, then right to left with
     [reaches_close] read from the head of the script *)
  induction 1 as [l e Ht|b l invs r Hb Hf IH|n a l pre e v p' er Hc Hs Hv Her|n a l pre rest v invs r Hc Hs Hv Her Hf IH];
    (split; [intro Hr|intros [Hrc Hall]; apply reaches_close_inv in Hrc; cbn [top_err] in Hrc]).
  - destruct e; try discriminate. split; [apply RC_end; exact Ht|constructor].
  - rewrite Ht in Hrc. subst e. reflexivity.
  - destruct (proj1 IH Hr) as [I1 I2]. split; [apply RC_ws; assumption|exact I2].
  - rewrite Hb in Hrc. apply IH. split; assumption.
  - discriminate.
  - inversion Hall as [|x y Hx Hy]; subst. congruence.
  - destruct (proj1 IH Hr) as [I1 I2]. split; [eapply RC_elem; eassumption|constructor; assumption].
  - rewrite Hc in Hrc. destruct Hrc as [pre0 [rest0 [Hs0 Hr0]]]. rewrite Hs in Hs0. injection Hs0 as _ <-.
    inversion Hall as [|x y Hx Hy]; subst. apply IH. split; assumption.
Qed.

(* what reads as the peer's close between elements: </stream:stream>, or on a
   WebSocket stream a framing element whose name ends the input (<close/>); nothing else *)
Lemma top_err_eof l : top_err ws l = Some EEOF <->
  (exists n r, l = TEnd n :: r /\ bytes_eqb (nspace n) sv_ns_stream = true /\ bytes_eqb (nlocal n) s_stream = true) \/
  (exists n a r, l = TStart n a :: r /\ ws = true /\ bytes_eqb (nspace n) sv_ns_framing = true /\
                 in_list (nlocal n) sv_ws_eof_locals = true).
Proof.
  split.
  - destruct l as [|t r]; cbn [top_err]; [discriminate|].
    destruct t as [n a|n|b|k b].
    + destruct (clean ws (TStart n a)); [discriminate|]. unfold top_dirty_err.
      destruct (ws && bytes_eqb (nspace n) sv_ns_framing && in_list (nlocal n) sv_ws_eof_locals) eqn:E.
      * intros _. right. apply andb_true_iff in E. destruct E as [E E3]. apply andb_true_iff in E. destruct E as [E1 E2].
        exists n, a, r. repeat split; assumption.
      * intro H. inversion H as [H1]. destruct (dirty_eof_is_end c (TStart n a) r H1) as [m Hm]. discriminate.
    + destruct (clean ws (TEnd n)) eqn:Hc; [discriminate|]. cbn [clean] in Hc. apply negb_false_iff in Hc.
      unfold dirty_err. destruct (bytes_eqb (nlocal n) s_stream) eqn:E; [|discriminate].
      intros _. left. exists n, r. repeat split; assumption.
    + destruct (is_ws b); discriminate.
    + intro H. inversion H as [H1]. destruct (dirty_eof_is_end c (TMisc k b) r H1) as [m Hm]. discriminate.
  - intros [[n [r [-> [H1 H2]]]]|[n [a [r [-> [Hw [Hf Hl]]]]]]]; cbn [top_err clean].
    + rewrite H1. cbn [negb]. unfold dirty_err. rewrite H2. reflexivity.
    + rewrite Hw, Hf. cbn [andb negb]. rewrite andb_false_r. unfold top_dirty_err. rewrite Hf, Hl. reflexivity.
Qed.

End Nil.
