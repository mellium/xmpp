(* C01/Examples.v — non-vacuity: concrete, non-trivial runs of the model in
   which the hypotheses of the theorems of Properties.v are met, and the
   witnesses of the refuted clauses. *)
From XV Require Import lib.Bytes gen.NegTables Neg.Model C01.Model.

(* a complete client negotiation with the built-in masks: three Negotiate
   events, in the order STARTTLS, SASL, bind, seeing states 0, Secure, Secure|Authn *)
Example ex_trio_client :
  r_class trio_client = ROk /\ r_bits trio_client = 7%N /\
  negs (trace trio_client) = [(fname f_tls, 0%N); (fname f_sasl, 1%N); (fname f_bind, 3%N)].
Proof. vm_compute. repeat split; reflexivity. Qed.

(* the same on the receiving side: three lists written, three selections run *)
Example ex_trio_server :
  r_class trio_server = ROk /\ r_bits trio_server = 15%N /\
  negs (trace trio_server) = [(fname f_tls, 8%N); (fname f_sasl, 9%N); (fname f_bind, 11%N)].
Proof. vm_compute. repeat split; reflexivity. Qed.

Example ex_listed :
  map fname (listed (c_feats cfg_trio) 8) = [fname f_tls] /\
  map fname (listed (c_feats cfg_trio) 9) = [fname f_sasl] /\
  map fname (listed (c_feats cfg_trio) 11) = [fname f_bind] /\
  map fname (listed (c_feats cfg_trio) 15) = [].
Proof. vm_compute. repeat split; reflexivity. Qed.

Example ex_refused :
  r_class trio_server_early = RErr EPolicy /\ negs (trace trio_server_early) = [] /\
  q_refused (mon_of cfg_trio st_Received trio_server_early) = Some EPolicy.
Proof. vm_compute. repeat split; reflexivity. Qed.

(* the forced STARTTLS attempt: the first list is empty, STARTTLS runs (forced
   holds: first list, not secure), the stream restarts, the second empty list
   ends the negotiation *)
Example ex_forced :
  r_class trio_forced = ROk /\ r_bits trio_forced = 5%N /\
  negs (trace trio_forced) = [(fname f_tls, 0%N)] /\
  forced (c_feats cfg_trio)
         (final (c_feats cfg_trio) false (mon0 0) [EOut WHeader; EIn RPHeader 0 hdr; EIn RPFeatures 0 (mkItem false (PFeatures []))])
         f_tls 0.
Proof. vm_compute. repeat split; reflexivity. Qed.

(* map iteration: either order of the two voluntary features is legal; taking
   the required one before a voluntary one is not something the code can do *)
Example ex_voluntary_first :
  r_class (vvr [xa; xb; xc]) = ROk /\ r_class (vvr [xb; xa; xc]) = ROk /\
  r_class (vvr [xc; xa; xb]) = RStuck /\ r_class (vvr [xa; xc; xb]) = RStuck /\
  negs (trace (vvr [xb; xa; xc])) = [(fname fv2, 0%N); (fname fv1, 0%N); (fname fr3, 0%N)].
Proof. vm_compute. repeat split; reflexivity. Qed.

(* W1, the witness of C01_established_sound_refuted: established by a feature's own Ready *)
Example ex_w1 : r_class w1_run = ROk /\ r_bits w1_run = st_Ready /\ q_self_ready (mon_of cfg_ab 0 w1_run) = true.
Proof. vm_compute. repeat split; reflexivity. Qed.
(* W2 (Ready together with a new connection): the Ready bit
   is ignored, the stream restarts (header sent), and since the script ends there
   the run ends in an error — without Ready *)
Example ex_w2 :
  r_class w2_run = RErr EOther /\ r_bits w2_run = 0%N /\ negs (trace w2_run) = [((xa, str "a"), 0%N)] /\
  map raw (skipn 5 (trace w2_run)) = [ROut RWHeader; REof].
Proof. vm_compute. repeat split; reflexivity. Qed.

(* an error after a feature reported Ready: a voluntary feature returns Ready
   without a restart, the receiver reads the next selection and the input ends;
   the session that is returned does not have the Ready bit *)
Example ex_error_not_ready :
  let r := run (mkCfg [fv1; fv2] false false true (str "example.net") None false) st_Received
               [hdr; sel fv1] [] [mkO st_Ready false false RWWrap] [] in
  r_class r = RErr EOther /\ r_bits r = st_Received /\ self_ready (trace r) = true.
Proof. vm_compute. repeat split; reflexivity. Qed.

(* the hypothesis of the partial theorem (no feature reported Ready itself) is
   met by the forced-STARTTLS run, which is established with nothing pending *)
Example ex_partial_hyp :
  q_self_ready (mon_of cfg_trio 0 trio_forced) = false /\ q_need_header (mon_of cfg_trio 0 trio_forced) = false.
Proof. vm_compute. split; reflexivity. Qed.

(* tee: with c_teefirst = false the forced attempt is lost after the tee-wrapping
   call; with c_teefirst = true it is made *)
Definition cfg_tee (teefirst : bool) : config := mkCfg [f_tls; f_sasl; f_bind] true false true (str "example.net") None teefirst.
Example ex_tee_first :
  negs (trace (run (cfg_tee false) 0 [hdr; mkItem false (PFeatures [])] [] [mkO st_Secure true false RWWrap] [ft_starttls_space])) = [] /\
  length (negs (trace (run (cfg_tee true) 0 [hdr; mkItem false (PFeatures []); hdr; mkItem false (PFeatures [])] []
                           [mkO st_Secure true false RWWrap] [ft_starttls_space]))) = 1.
Proof. vm_compute. split; reflexivity. Qed.

(* XEP-0288 bidi as shipped in s2s/bidi.go: advertised under one name space,
   selected by an element in another one; the receiving side looks selections up
   by name space, so it refuses the selection the initiating side of the same
   library sends (reported in design/C01.md; not a violation of C01: what was
   selected is, literally, not what was advertised) *)
Definition f_bidi : feature := mkF ft_bidi_space ft_bidi_local ft_bidi_nec ft_bidi_proh ft_bidi_negotiable KAbstract false false.
Example ex_bidi_refused :
  let r := run (mkCfg [f_bidi] false false true (str "example.net") None false) (N.lor st_Received st_Secure)
               [hdr; mkItem false (PElem ns_bidi_select ft_bidi_local)] [] [] [] in
  r_class r = RErr EPolicy /\ negs (trace r) = [] /\
  map raw (trace r) = [RIn hdr; ROut RWHeader; RList (fname f_bidi); ROut (RWFeatures [fname f_bidi] true);
                       RIn (mkItem false (PElem ns_bidi_select ft_bidi_local))].
Proof. vm_compute. repeat split; reflexivity. Qed.

(* W3: b is advertised as required before its prerequisite
   holds; after the voluntary a set Authn, b is negotiated from the same list *)
Example ex_w3 :
  r_class w3_run = ROk /\ r_bits w3_run = 6%N /\ negs (trace w3_run) = [((xa, str "a"), 0%N); ((xb, str "b"), 2%N)].
Proof. vm_compute. repeat split; reflexivity. Qed.

(* the witness of C01_established_literal_refuted: two configured features in
   one name space, the later child replaces the required one in the cache *)
Example ex_w5 :
  r_class w5_run = ROk /\ r_bits w5_run = 4%N /\ negs (trace w5_run) = [] /\
  q_advall (mon_of cfg_w5 0 w5_run) = [(true, fa_req); (false, fa2_info)] /\ q_cache (mon_of cfg_w5 0 w5_run) = [(false, fa2_info)].
Proof. vm_compute. repeat split; reflexivity. Qed.

(* the witness of C01_voluntary_first_literal_refuted *)
Example ex_w6 : negs (trace w6_run) = [((xc, str "c"), 0%N)].
Proof. vm_compute. reflexivity. Qed.

(* a caller-asserted Secure initial state over a plain connection, two restarts
   (the second feature returns the session's own connection, like sasl.go), then
   a feature that needs Secure|Authn: Secure is still there *)
Definition f_auth : feature := mkF xa (str "a") st_Secure st_Authn true KAbstract true false.
Definition f_need : feature := mkF xb (str "b") (N.lor st_Secure st_Authn) st_Ready true KAbstract true false.
Example ex_secure_survives_restart :
  let r := run (mkCfg [f_auth; f_need] false false true (str "example.net") None true) st_Secure
               [hdr; mkItem false (PFeatures [adv f_auth true]); hdr; mkItem false (PFeatures [adv f_need true])] []
               [mkO st_Authn true false RWSame; mkO st_Ready false false RWWrap] [xa; xb] in
  r_class r = ROk /\ r_bits r = 7%N /\ negs (trace r) = [(fname f_auth, 1%N); (fname f_need, 3%N)].
Proof. vm_compute. repeat split; reflexivity. Qed.
