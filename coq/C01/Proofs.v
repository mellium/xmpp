(* C01/Proofs.v — the invariant from which the clauses of C01 follow: the monitor
   state of the events so far, [Q m], is related to the machine state ([RI], [Rel]);
   every function of the model keeps "all clauses held so far" ([H]) and the relation
   ([after]), and adds no input, so the same induction bounds the fuel of [run]. *)
From XV Require Import lib.Bytes gen.NegTables Neg.Model Neg.Proofs C01.Model.

Lemma final_app fs ws q a b : final fs ws q (a ++ b) = final fs ws (final fs ws q a) b.
Proof. revert q. induction a as [|e a IH]; intro q; simpl; [reflexivity | apply IH]. Qed.

Lemma holds_app fs ws P q a b :
  holds fs ws P q (a ++ b) <-> holds fs ws P q a /\ holds fs ws P (final fs ws q a) b.
Proof.
  revert q. induction a as [|e a IH]; intro q; simpl; [tauto|].
  rewrite IH. tauto.
Qed.

Lemma holds_impl fs ws (P P' : mon -> event -> Prop) q tr :
  (forall q e, P q e -> P' q e) -> holds fs ws P q tr -> holds fs ws P' q tr.
Proof.
  intro HPP. revert q. induction tr as [|e r IH]; intro q; simpl; [tauto|].
  intros [X Y]. split; [apply HPP; exact X | apply IH; exact Y].
Qed.

Lemma selection_space_ws c it :
  selection_space (mkCfg (c_feats c) false (c_ws c) false [] None false) it = selection_space c it.
Proof. reflexivity. Qed.

(* both sides build the cache in the same way, by inserting into a map keyed by name space
   (Neg.Proofs.cache_of) what the advertisement named, in order *)
Lemma adv_cache_of fs st : forall cs ca, adv_cache fs st cs ca = cache_of (adv_all fs cs) ca.
Proof.
  induction cs as [|[sp lo req []|] cs IH]; intro ca; simpl; try reflexivity;
    destruct (get_feature (sp, lo) fs); simpl; auto.
Qed.

Lemma listed_cache_of st : forall fs ca,
  listed_cache fs st ca = cache_of (map (fun f => (f_lreq f, f)) (listed fs st)) ca.
Proof.
  unfold listed. induction fs as [|f fs IH]; intro ca; simpl; [reflexivity|].
  destruct (eligible f st); simpl; apply IH.
Qed.

(* q_cache and q_advall differ only by replacement within a name space *)
Definition cache_is_map (q : mon) : Prop := q_cache q = cache_of (q_advall q) [].

(* what an event, whichever it is, does to the fields of the monitor that are read without knowing it *)
Record upd_spec (q : mon) (e : event) (q' : mon) : Prop := mkUS {
  us_last : q_last q' = match e with ENeg _ st o => after_neg st o | _ => q_last q end;
  us_self : q_self_ready q' =
            match e with
            | ENeg _ _ o => q_self_ready q || (has (o_mask o) st_Ready && negb (o_err o))
            | _ => q_self_ready q
            end;
  us_cache : cache_is_map q -> cache_is_map q';
  us_ref : forall st it, e = EIn RPFeatures st it -> features_of (Some it) = None -> q_refused q' = q_refused q }.

Lemma upd_sound fs ws q e : upd_spec q e (upd fs ws q e).
Proof.
  destruct e as [[] st it| rp | [|st names []|] | f | f | f st o | n | b]; simpl.
  3: destruct (selection_space _ it); [destruct (accept _ _ _ _) as [[? ?]|]|].
  2: destruct it as [[] []].
  all: constructor; try reflexivity; try discriminate; auto; unfold cache_is_map; simpl;
    auto using adv_cache_of, listed_cache_of.
Qed.

(* input not yet consumed, on either layer: no function of the model adds to
   it, and a turn of the loop that goes on has read an item *)
Definition ilen (m : mstate) : nat := length (m_in m) + length (m_tlsin m).

(* turns still possible: two for each item, the tee-wrapping one, the last *)
Definition cost (c : config) (m : mstate) (istee : bool) : nat :=
  2 * ilen m + (if c_tee c && negb istee then 1 else 0) + 1.

Section Inv.

Variable c : config.
Variable b0 : N.
Notation fs := (c_feats c).
Notation ws := (c_ws c).

Definition T (m : mstate) : list event := rev (m_tr m).
Definition Q (m : mstate) : mon := final fs ws (mon0 b0) (T m).
Definition H (m : mstate) : Prop := holds fs ws (cl_all fs) (mon0 b0) (T m).

Lemma Q_emit e m : Q (emit e m) = upd fs ws (Q m) e.
Proof. unfold Q, T. rewrite m_tr_emit. simpl rev. rewrite final_app. reflexivity. Qed.

Lemma H_emit e m : H (emit e m) <-> H m /\ cl_all fs (Q m) e.
Proof.
  unfold H, Q, T. rewrite m_tr_emit. simpl rev. rewrite holds_app. simpl. tauto.
Qed.

Lemma Q_set_bits b m : Q (set_bits b m) = Q m. Proof. reflexivity. Qed.
Lemma Q_set_negd l m : Q (set_negd l m) = Q m. Proof. reflexivity. Qed.
Lemma Q_set_list ca t r m : Q (set_list ca t r m) = Q m. Proof. reflexivity. Qed.
Lemma Q_set_in i m : Q (set_in i m) = Q m. Proof. reflexivity. Qed.
Lemma Q_set_outs o m : Q (set_outs o m) = Q m. Proof. reflexivity. Qed.
Lemma Q_set_choices o m : Q (set_choices o m) = Q m. Proof. reflexivity. Qed.
Lemma Q_set_hs o m : Q (set_hs o m) = Q m. Proof. reflexivity. Qed.
Lemma Q_switch m : Q (switch_layer m) = Q m. Proof. reflexivity. Qed.
Lemma Q_set_rdy b m : Q (set_rdy b m) = Q m. Proof. reflexivity. Qed.
Lemma H_set_rdy b m : H (set_rdy b m) <-> H m. Proof. reflexivity. Qed.
Lemma H_set_bits b m : H (set_bits b m) <-> H m. Proof. reflexivity. Qed.
Lemma H_set_negd l m : H (set_negd l m) <-> H m. Proof. reflexivity. Qed.
Lemma H_set_list ca t r m : H (set_list ca t r m) <-> H m. Proof. reflexivity. Qed.
Lemma H_set_in i m : H (set_in i m) <-> H m. Proof. reflexivity. Qed.
Lemma H_set_outs o m : H (set_outs o m) <-> H m. Proof. reflexivity. Qed.
Lemma H_set_choices o m : H (set_choices o m) <-> H m. Proof. reflexivity. Qed.
Lemma H_set_hs o m : H (set_hs o m) <-> H m. Proof. reflexivity. Qed.
Lemma H_switch m : H (switch_layer m) <-> H m. Proof. reflexivity. Qed.

Definition cache_inv (ca : cache) (lr : bool) (adv : list name) : Prop :=
  ukeys ca /\ (forall g, In (true, g) ca -> lr = true) /\ (forall rq g, In (rq, g) ca -> In (fname g) adv).

Lemma cache_inv_nil : cache_inv [] false [].
Proof. split; [apply ukeys_nil|]. split; intros; contradiction. Qed.

Lemma cache_inv_put ca lr adv rq f :
  cache_inv ca lr adv -> cache_inv (cache_put (rq, f) ca) (lr || rq) (adv ++ [fname f]).
Proof.
  intros (U & L & A). split; [apply ukeys_put; exact U|]. split.
  - intros g Hg. apply In_cache_put in Hg. destruct Hg as [Eq|[Hin _]].
    + inversion Eq. apply orb_true_r.
    + rewrite (L g Hin). reflexivity.
  - intros r g Hg. apply in_or_app. apply In_cache_put in Hg. destruct Hg as [Eq|[Hin _]].
    + inversion Eq. right. left. reflexivity.
    + left. eapply A; eauto.
Qed.

Lemma cache_inv_more ca lr adv n : cache_inv ca lr adv -> cache_inv ca lr (adv ++ [n]).
Proof.
  intros (U & L & A). split; [exact U|]. split; [exact L|].
  intros r g Hg. apply in_or_app. left. eapply A; eauto.
Qed.

Definition not_ready (m : mstate) : Prop := has (m_bits m) st_Ready = false.

(* inside negotiateFeatures.  rv: this side wrote the list (it is the receiver);
   x: the feature whose selection the receiver accepted and that must run next *)
Record RI (rv : bool) (x : option feature) (m : mstate) : Prop := mkRI {
  ri_H : H m;
  ri_recv : q_recv (Q m) = rv;
  ri_bits : q_last (Q m) = m_bits m;
  ri_negd : q_negd (Q m) = m_negd m;
  ri_cache : q_cache (Q m) = m_cache m;
  ri_hdr : q_need_header (Q m) = false;
  ri_exp : q_expect (Q m) = x;
  ri_ref : q_refused (Q m) = None;
  ri_cinv : cache_inv (m_cache m) (m_lreq m) (q_adv (Q m));
  ri_flag : m_rdy m = true -> q_self_ready (Q m) = true;
  ri_nrdy : not_ready m }.

(* the events a running feature makes itself, which [cl_refuses] allows while a selection is accepted *)
Definition by_feature (e : event) : bool :=
  match e with EOut (WElem _ _) | ESwitch _ | EIn RPReply _ _ | EEof RPReply => true | _ => false end.

(* what the clauses ask of an event that is not a Negotiate call,
   [cl_restart] and [cl_refuses] apart *)
Definition passive (q : mon) (e : event) : Prop :=
  match e with
  | ENeg _ _ _ => False
  | EIn _ st _ => has st (q_last q) = true
  | EOut (WFeatures st names closed) =>
      has st (q_last q) = true /\ (closed = true -> names = map fname (listed fs st))
  | _ => True
  end.

Lemma cl_all_passive q e :
  passive q e -> cl_restart q e -> q_refused q = None -> (by_feature e = false -> q_expect q = None) ->
  cl_all fs q e.
Proof.
  intros Hp Hs Hr He. unfold cl_all, cl_refuses. rewrite Hr.
  destruct e as [[] st it| [] | [|st names []|] | f | f | f st o | n | b]; simpl in *;
    try contradiction; repeat split; auto; tauto.
Qed.

Lemma no_restart q e : q_need_header q = false -> cl_restart q e.
Proof. unfold cl_restart. congruence. Qed.

(* the state in which the List and Parse callbacks run *)
Definition calm (m : mstate) : Prop :=
  q_need_header (Q m) = false /\ q_refused (Q m) = None /\ q_expect (Q m) = None.

Lemma cl_all_calm e m : calm m -> passive (Q m) e -> cl_all fs (Q m) e.
Proof. intros (C1 & C2 & C3) Hp. apply cl_all_passive; auto using no_restart. Qed.

(* what reading, [select] and the callbacks (a Negotiate call included: the bookkeeping is
   [after_pick]'s) leave as it was: the fields the relations speak of, and they add no input;
   in the proofs its parts are called Fb Fn Fc Fl Fr Fi, in this order *)
Definition frame (m m' : mstate) : Prop :=
  m_bits m' = m_bits m /\ m_negd m' = m_negd m /\ m_cache m' = m_cache m /\ m_lreq m' = m_lreq m /\
  m_rdy m' = m_rdy m /\ ilen m' <= ilen m.

Lemma frame_refl m : frame m m.
Proof. unfold frame. auto 10. Qed.

Lemma frame_trans a b d : frame a b -> frame b d -> frame a d.
Proof. unfold frame. intuition (congruence || lia). Qed.

(* from m to m' the clauses were kept, and the monitor state is now q'.  The setters
   that [frame] does not see are invisible here: [after (set_outs o m)] is [after m] by computation *)
Definition after (m m' : mstate) (q' : mon) : Prop := (H m -> H m') /\ frame m m' /\ Q m' = q'.

Lemma after_refl m : after m m (Q m).
Proof. split; [auto|]. split; [apply frame_refl | reflexivity]. Qed.

Lemma after_trans a b d q q' : after a b q -> after b d q' -> after a d q'.
Proof. intros (A1 & F1 & _) (A2 & F2 & B2). split; [auto|]. split; [exact (frame_trans _ _ _ F1 F2) | exact B2]. Qed.

Lemma after_emit e m : cl_all fs (Q m) e -> after m (emit e m) (upd fs ws (Q m) e).
Proof.
  intros X. split; [intro HH; apply H_emit; auto|]. split; [apply (frame_refl m) | apply Q_emit].
Qed.

Lemma RI_after rv x m m' : after m m' (Q m) -> RI rv x m -> RI rv x m'.
Proof.
  intros (A & (Fb & Fn & Fc & Fl & Fr & _) & HQ) R. destruct R.
  constructor; unfold not_ready in *; rewrite ?HQ, ?Fb, ?Fn, ?Fc, ?Fl, ?Fr; auto.
Qed.

Lemma read_ok rp m :
  q_last (Q m) = m_bits m -> q_refused (Q m) = None ->
  cl_restart (Q m) (EEof rp) -> (rp <> RPReply -> q_expect (Q m) = None) ->
  let '(m', r) := read rp m in
  after m m' (match r with Some it => upd fs ws (Q m) (EIn rp (m_bits m) it) | None => Q m end) /\
  q_last (Q m') = m_bits m' /\ (r <> None -> ilen m' < ilen m).
Proof.
  unfold read. intros Hb Hr Hs He.
  assert (X : forall e, passive (Q m) e -> e = EEof rp \/ (exists it, e = EIn rp (m_bits m) it) -> cl_all fs (Q m) e).
  { intros e Hp Hrp. apply cl_all_passive; [exact Hp | | exact Hr |].
    - destruct Hrp as [->|(it & ->)]; [exact Hs | destruct rp; exact Hs].
    - intro Hf. apply He. intros ->. destruct Hrp as [->|(it & ->)]; discriminate. }
  destruct (m_in m) as [|it rest] eqn:Ein.
  - split; [|split; [rewrite Q_emit; exact Hb | intro N; destruct (N eq_refl)]].
    apply (after_emit (EEof rp) m). apply X; [exact I | auto].
  - assert (L : ilen (set_in rest m) < ilen m) by (unfold ilen; simpl; rewrite Ein; simpl; lia).
    split; [|split; [rewrite Q_emit, (us_last _ _ _ (upd_sound _ _ _ _)); exact Hb | intros _; exact L]].
    apply (after_trans _ (set_in rest m) _ (Q m)); [split; [auto | split; [unfold frame; simpl; auto 10 using Nat.lt_le_incl | reflexivity]]|].
    apply (after_emit _ (set_in rest m)). apply X; [|eauto]. simpl. rewrite Hb. apply has_refl.
Qed.

Lemma after_by_feature rv x e m :
  by_feature e = true -> passive (Q m) e -> RI rv x m -> after m (emit e m) (Q m).
Proof.
  intros Hf Hp R. assert (X : cl_all fs (Q m) e).
  { destruct R. apply cl_all_passive; auto using no_restart. congruence. }
  pose proof (after_emit e m X) as S.
  destruct e as [[] ? ?|[]|[]| | | | |]; try discriminate; exact S.
Qed.

Lemma after_switch m : after m (switch_layer m) (Q m).
Proof.
  split; [auto|]. split; [|reflexivity].
  repeat split; try reflexivity. unfold ilen. simpl. lia.
Qed.

Lemma starttls_negotiate_ok rv x m :
  RI rv x m -> let '(m1, _) := starttls_negotiate c m in after m m1 (Q m).
Proof.
  unfold starttls_negotiate. intros R.
  assert (Sw : forall m2, after m m2 (Q m) -> after m (emit (ESwitch (tls_name c)) (switch_layer m2)) (Q m)).
  { intros m2 S. pose proof S as (_ & _ & B). pose proof (after_switch m2) as S2. rewrite B in S2.
    pose proof (after_trans _ _ _ _ _ S S2) as S3. apply (after_trans _ _ _ _ _ S3). rewrite <- B.
    apply (after_by_feature rv x _ (switch_layer m2)); [reflexivity | exact I |].
    exact (RI_after _ _ m _ S3 R). }
  destruct (server m).
  - apply Sw. apply (after_by_feature rv x); auto. exact I.
  - pose proof (after_by_feature rv x (EOut (WElem ns_StartTLS str_starttls)) m eq_refl I R) as S0.
    pose proof (RI_after _ _ _ _ S0 R) as R0. destruct R0.
    pose proof (read_ok RPReply _ ri_bits0 ri_ref0 (no_restart _ _ ri_hdr0)) as S2.
    destruct (read RPReply _) as [m2 r]. destruct S2 as (S2 & _); [intro X; destruct (X eq_refl)|].
    assert (S02 : after m m2 (Q m)).
    { apply (after_trans _ _ _ _ _ S0). rewrite <- (proj2 (proj2 S0)). destruct r; exact S2. }
    destruct (is_proceed r); [apply Sw|]; exact S02.
Qed.

Definition neg_ok (m : mstate) (f : feature) : Prop :=
  forall o, cl_all fs (Q m) (ENeg f (m_bits m) o).

Lemma negotiate_one_ok rv x m f :
  RI rv x m -> neg_ok m f ->
  let '(m1, o) := negotiate_one c m f in after m m1 (upd fs ws (Q m) (ENeg f (m_bits m) o)).
Proof.
  unfold negotiate_one. intros R NK.
  destruct (f_kind f).
  - exact (after_emit _ (set_outs _ m) (NK _)).
  - pose proof (starttls_negotiate_ok rv x m R) as S.
    destruct (starttls_negotiate c m) as [m2 o2]. apply (after_trans _ _ _ _ _ S). destruct S as (_ & _ & B).
    rewrite <- B. apply (after_emit _ m2). rewrite B. apply NK.
Qed.

Lemma cand_true negd st e :
  cand negd st e = true -> mem (ckey e) negd = false /\ f_neg (snd e) = true /\ eligible (snd e) st = true.
Proof.
  unfold cand. rewrite !andb_true_iff, negb_true_iff. tauto.
Qed.

(* why the picked feature may run: it is open now, and an entry of the cache (a required one only
   when the initiator has no voluntary one open) or the forced STARTTLS attempt *)
Definition pick_ok (rv : bool) (x : option feature) (m : mstate) (req : bool) (f : feature) : Prop :=
  (rv = true -> x = Some f) /\ cand (m_negd m) (m_bits m) (req, f) = true /\
  ((In (req, f) (m_cache m) /\
    (rv = false -> req = true ->
     forall g, In (false, g) (m_cache m) -> cand (m_negd m) (m_bits m) (false, g) = false))
   \/ (forced fs (Q m) f (m_bits m) /\ forall r, ~ In (r, f) (m_cache m))).

Lemma pick_neg_ok rv x m req f : RI rv x m -> pick_ok rv x m req f -> neg_ok m f.
Proof.
  intros R (Px & Pd & Pc) o. destruct (cand_true _ _ _ Pd) as (Pm & Pn & Pe). simpl in Pm, Pn, Pe.
  destruct R. destruct ri_cinv0 as (U & _ & Ad).
  unfold cl_all, cl_advertised, cl_prerequisites, cl_voluntary_first, cl_monotone, cl_restart, cl_advertises, cl_refuses.
  rewrite ri_hdr0, ri_negd0, ri_bits0, ri_cache0, ri_exp0, ri_ref0, ri_recv0. unfold cached. rewrite ri_cache0.
  repeat split; auto.
  - destruct Pc as [(Pi & _)|(Pf & _)]; [left | right; exact Pf].
    split; [eapply Ad; eauto | exists req; exact Pi].
  - intros Hs Hc g Hg. destruct Pc as [(Pi & Pv)|(_ & Pn')]; [|exfalso; eapply Pn'; eauto].
    assert (E : (true, f) = (req, f)) by (apply U; auto).
    inversion E; subst. apply Pv; auto.
  - discriminate.
Qed.

(* b is last, plus possibly Ready: the bits with the mask returned against those before,
   the machine's bits against those the events determine *)
Definition exact_bits (b last : N) : Prop := b = last \/ b = N.lor last st_Ready.

Lemma exact_bits_has b last : exact_bits b last -> has b last = true.
Proof. intros [->| ->]; [apply has_refl | apply has_lor_l; apply has_refl]. Qed.

Lemma exact_bits_not_ready b last : exact_bits b last -> has b st_Ready = false -> last = b.
Proof. intros [->| ->] Hn; [reflexivity | rewrite has_lor_r in Hn; discriminate]. Qed.

(* what negotiateFeatures hands to negotiateSession (state and result); n is a strict bound on the input left *)
Definition PostNF (n : nat) (p : mstate * res (N * bool)) : Prop :=
  let '(m', r) := p in
  H m' /\ q_last (Q m') = m_bits m' /\
  match r with
  | Good (mask, restart) =>
      ilen m' < n /\ q_refused (Q m') = None /\ q_expect (Q m') = None /\
      q_need_header (Q m') = restart /\
      (restart = false -> q_negd (Q m') = m_negd m') /\
      (has (N.lor (m_bits m') mask) st_Ready = true ->
       restart = false /\ (q_self_ready (Q m') = true \/ ~ pending (Q m'))) /\
      exact_bits (N.lor (m_bits m') mask) (m_bits m')
  | Bad e => forall e', q_refused (Q m') = Some e' -> e' = e
  | Stuck => q_refused (Q m') = None
  end.

Lemma PostNF_le n n' p : n <= n' -> PostNF n p -> PostNF n' p.
Proof. destruct p as [m [[mask restart]|e|]]; unfold PostNF; intuition lia. Qed.

Lemma PostNF_stuck rv x n m : RI rv x m -> PostNF n (m, Stuck).
Proof. intros R. unfold PostNF. destruct R. auto. Qed.

Lemma PostNF_bad n m e : H m -> q_last (Q m) = m_bits m -> q_refused (Q m) = None -> PostNF n (m, Bad e).
Proof. intros. unfold PostNF. repeat split; auto. intros e' Y. congruence. Qed.

(* the same after one pick; on [Good None] the selection loop goes on *)
Definition PostPick (rv : bool) (n : nat) (p : mstate * res (option (N * bool))) : Prop :=
  let '(m', r) := p in
  match r with
  | Good None => RI rv None m' /\ ilen m' < n
  | Good (Some mr) => PostNF n (m', Good mr)
  | Bad e => PostNF n (m', Bad e)
  | Stuck => PostNF n (m', Stuck)
  end.

Lemma after_pick_ok rv x m req f :
  RI rv x m -> pick_ok rv x m req f -> PostPick rv (S (ilen m)) (after_pick c m req f).
Proof.
  unfold after_pick. intros R PK.
  pose proof (negotiate_one_ok rv x m f R (pick_neg_ok rv x m req f R PK)) as N1.
  destruct (negotiate_one c m f) as [m1 o]. destruct N1 as (A & (Fb & Fn & Fc & Fl & Fr & Fi) & B).
  apply le_n_S in Fi.
  destruct R. specialize (A ri_H0).
  destruct (o_err o) eqn:Eerr.
  - split; [exact A|]. rewrite Q_set_negd, B. simpl. rewrite Eerr.
    split; [congruence|]. intros e' Y. congruence.
  - set (m3 := set_negd _ (set_rdy _ (set_bits _ m1))).
    assert (HQ : Q m3 = upd fs ws (Q m) (ENeg f (m_bits m) o)) by exact B.
    assert (Hb3 : m_bits m3 = N.lor (m_bits m) (eff_mask o)) by (simpl; rewrite Fb; reflexivity).
    assert (Hnr3 : has (m_bits m3) st_Ready = false).
    { rewrite Hb3. unfold eff_mask, clear_ready. rewrite has_lor_ldiff. exact ri_nrdy0. }
    assert (HR : o_restart o = false -> RI rv None m3).
    { intro Er. constructor; rewrite ?HQ; simpl; rewrite ?Eerr, ?Er, ?andb_true_r, ?Fb, ?Fn, ?Fc, ?Fl, ?Fr; auto.
      - congruence.
      - intro X. apply orb_true_iff in X. apply orb_true_iff. destruct X; auto. }
    destruct (o_restart o || req) eqn:Ebr;
      [|apply orb_false_iff in Ebr; split; [apply HR, Ebr | exact Fi]].
    split; [exact A|]. rewrite HQ. simpl. rewrite Eerr, !andb_true_r, Fb, Fn, Fr, Fl, ri_negd0.
    split; [reflexivity|]. split; [exact Fi|]. clear Fi.
    repeat (split; [auto; fail|]). unfold exact_bits.
    (* the bits of the mask are already there; what is left of it is Ready or nothing *)
    rewrite Hb3 in Hnr3. set (b3 := N.lor (m_bits m) (eff_mask o)) in *.
    rewrite N.lor_assoc, (lor_absorb b3 (eff_mask o)) by apply has_lor_r.
    destruct (negb (o_restart o) && (m_rdy m || has (o_mask o) st_Ready || negb (m_lreq m))) eqn:Elr.
    + apply andb_true_iff in Elr. destruct Elr as [Er El]. apply negb_true_iff in Er.
      split; [|right; reflexivity]. intros _. split; [exact Er|].
      apply orb_true_iff in El. destruct El as [El|El].
      * left. apply orb_true_iff in El. apply orb_true_iff.
        destruct El as [El|El]; [left; exact (ri_flag0 El) | right; exact El].
      * right. intros (g & Hg & _). simpl in Hg. rewrite ri_cache0 in Hg.
        rewrite (proj1 (proj2 ri_cinv0) g Hg) in El. discriminate.
    + rewrite N.lor_0_r. split; [congruence | left; reflexivity].
Qed.

Lemma select_ok m :
  let '(m1, r) := select m in
  after m m1 (Q m) /\
  match r with
  | Good None => candidates m1 = []
  | Good (Some (req, f)) => pick_ok false None m1 req f
  | _ => True
  end.
Proof.
  unfold select.
  pose proof (after_refl m) as S0.
  destruct (candidates m) as [|e0 cs] eqn:Ec; [split; auto|].
  rewrite <- Ec. destruct (m_choices m) as [|ch rest]; [split; auto|].
  pose proof (after_refl (set_choices rest m) : after m _ (Q m)) as S1.
  destruct (cache_get ch (candidates m)) as [[req f]|] eqn:Eg; [|split; auto].
  simpl. destruct (req && existsb (fun x => negb (fst x)) (candidates m)) eqn:Ev;
    (split; [exact S1|]); [exact I|].
  apply cache_get_filter in Eg. destruct Eg as (G1 & G2 & _).
  split; [discriminate|]. split; [exact G2|]. left. split; [exact G1|].
  intros _ -> g Hg. simpl in Ev. apply not_true_is_false. intro Ecg.
  rewrite (proj2 (existsb_exists _ _)) in Ev; [discriminate|].
  exists (false, g). split; [apply filter_In; auto | reflexivity].
Qed.

Lemma no_candidates_no_pending m :
  RI false None m -> candidates m = [] -> ~ pending (Q m).
Proof.
  intros R Ec (g & Hg & Hc). destruct R.
  rewrite ri_cache0 in Hg. rewrite ri_negd0, ri_bits0 in Hc.
  assert (X : In (true, g) (candidates m)) by (unfold candidates; apply filter_In; auto).
  rewrite Ec in X. exact X.
Qed.

Lemma RI_choices rv x ch m : RI rv x m -> RI rv x (set_choices ch m).
Proof. destruct 1. constructor; assumption. Qed.

Lemma PostNF_done m : RI false None m -> ~ pending (Q m) -> PostNF (S (ilen m)) (m, Good (st_Ready, false)).
Proof.
  intros R Hp. destruct R. unfold PostNF. repeat split; auto. right. reflexivity.
Qed.

Lemma init_loop_ok fuel : forall m fo,
  RI false None m -> (forall f, fo = Some f -> pick_ok false None m true f) ->
  PostNF (S (ilen m)) (init_loop fuel c m fo).
Proof.
  induction fuel as [|k IH]; intros m fo R Hfo; cbn [init_loop].
  - eapply PostNF_stuck; eauto.
  - destruct fo as [f|].
    + pose proof (Hfo f eq_refl) as PK.
      destruct (m_choices m) as [|ch rest] eqn:Ech; [eapply PostNF_stuck; eauto|].
      pose proof (RI_choices _ _ rest m R) as R1.
      destruct (negb (bytes_eqb ch (f_space f))); [eapply PostNF_stuck; eauto|].
      pose proof (after_pick_ok false None _ true f R1 PK) as PP.
      destruct (after_pick c (set_choices rest m) true f) as [m1 [[mr|]|e|]]; try exact PP.
      destruct PP as (PR & _). eapply PostNF_stuck; eauto.
    + pose proof (select_ok m) as SS. destruct (select m) as [m1 rs]. destruct SS as (S1 & SR).
      pose proof (RI_after _ _ _ _ S1 R) as R1. destruct S1 as (_ & (_ & _ & _ & _ & _ & Fi) & _).
      apply (PostNF_le (S (ilen m1))); [lia|]. clear Fi.
      destruct rs as [[[req f]|]|e|].
      * pose proof (after_pick_ok false None m1 req f R1 SR) as PP.
        destruct (after_pick c m1 req f) as [m2 [[mr|]|e|]]; try exact PP.
        destruct PP as (PR & Pi). apply (PostNF_le (S (ilen m2))); [lia|].
        apply IH; [exact PR | discriminate].
      * apply PostNF_done; auto. apply no_candidates_no_pending; auto.
      * destruct R1. apply PostNF_bad; auto.
      * exact (PostNF_stuck _ _ _ _ R1).
Qed.

Lemma accept_spec ca negd st sp e :
  accept ca negd st sp = Some e -> In e ca /\ cand negd st e = true.
Proof.
  unfold accept. destruct (cache_get sp ca) as [e0|] eqn:Eg; [|discriminate].
  destruct (cand negd st e0) eqn:Ec; [|discriminate].
  intro X. inversion X; subst. apply cache_get_In in Eg. tauto.
Qed.

Lemma recv_loop_ok fuel : forall m, RI true None m -> PostNF (ilen m) (recv_loop fuel c m).
Proof.
  induction fuel as [|k IH]; intros m R; cbn [recv_loop].
  - eapply PostNF_stuck; eauto.
  - pose proof R as R0. destruct R0.
    pose proof (read_ok RPSelect m ri_bits0 ri_ref0 (no_restart _ _ ri_hdr0) (fun _ => ri_exp0)) as X.
    destruct (read RPSelect m) as [m1 o]. destruct X as ((HH1 & (Fb & Fn & Fc & Fl & Fr & _) & HQ1) & Hb1 & L1).
    specialize (HH1 ri_H0).
    destruct o as [it|]; [|apply PostNF_bad; [| |rewrite HQ1]; assumption].
    apply (PostNF_le (S (ilen m1))); [apply L1; discriminate|]. clear L1.
    simpl in HQ1. rewrite selection_space_ws, ri_cache0, ri_negd0 in HQ1.
    destruct (selection_space c it) as [sp|] eqn:Esp;
      [unfold acceptable; rewrite Fc, Fn, Fb;
       destruct (accept (m_cache m) (m_negd m) (m_bits m) sp) as [[req f]|] eqn:Eacc|].
    2, 3: (split; [exact HH1|]; split; [exact Hb1|];
           rewrite HQ1; simpl; intros e' Y; congruence).
    destruct (accept_spec _ _ _ _ _ Eacc) as (A1 & A2).
    assert (R1 : RI true (Some f) m1).
    { constructor; unfold not_ready in *; rewrite ?HQ1, ?Fb, ?Fn, ?Fc, ?Fl, ?Fr; simpl; auto. }
    assert (PK : pick_ok true (Some f) m1 req f).
    { unfold pick_ok. rewrite Fn, Fc, Fb. split; [reflexivity|]. split; [exact A2|]. left. split; [exact A1 | discriminate]. }
    pose proof (after_pick_ok true (Some f) m1 req f R1 PK) as PP.
    destruct (after_pick c m1 req f) as [m2 [[mr|]|e|]]; try exact PP.
    destruct PP as (PR & Pi). apply (PostNF_le (ilen m2)); [lia|]. apply IH, PR.
Qed.

Lemma after_callback m0 m e :
  after m0 m (Q m0) -> calm m0 -> passive (Q m) e -> upd fs ws (Q m) e = Q m ->
  after m0 (emit e m) (Q m0).
Proof.
  intros Sm C Hp Hu. pose proof Sm as (_ & _ & B). apply (after_trans _ _ _ _ _ Sm). rewrite <- B, <- Hu.
  apply (after_emit e m), cl_all_calm; [unfold calm; rewrite B; exact C | exact Hp].
Qed.

(* both list functions are stated from an origin m0 and towards fixed targets,
   so that the induction hypothesis is the goal *)
Lemma read_children_ok st m0 full target : forall cs m ca tot lr al adv,
  after m0 m (Q m0) -> calm m0 -> cache_inv ca lr adv -> (tot = 0 -> ca = []) ->
  full = adv ++ adv_names cs -> target = adv_cache fs st cs ca ->
  let '(m', r) := read_children fs st cs m ca tot lr al in
  after m0 m' (Q m0) /\
  match r with
  | Good (ca', tot', lr', _) => ca' = target /\ (tot' = 0 -> ca' = []) /\ cache_inv ca' lr' full
  | Bad _ => True
  | Stuck => False
  end.
Proof.
  induction cs as [|[sp lo req perr|] rest IH]; intros m ca tot lr al adv Sm C CI Ht Ef Et; simpl in *.
  - subst. rewrite app_nil_r. auto.
  - change (full = adv ++ [(sp, lo)] ++ adv_names rest) in Ef. rewrite app_assoc in Ef.
    destruct (get_feature (sp, lo) fs) as [f|] eqn:Eg.
    + pose proof (after_callback _ _ (EParse f) Sm C I eq_refl) as S1.
      destruct perr; [auto|].
      apply (IH _ _ _ _ _ (adv ++ [(sp, lo)]) S1 C); auto; [|discriminate].
      destruct (get_feature_spec _ _ _ Eg) as [_ <-]. apply cache_inv_put. exact CI.
    + apply (IH _ _ _ _ _ (adv ++ [(sp, lo)]) Sm C); auto; [|discriminate]. apply cache_inv_more. exact CI.
  - auto.
Qed.

Lemma list_loop_ok st m0 tc tn : forall l m ca lr tot names,
  after m0 m (Q m0) -> calm m0 -> cache_inv ca lr names ->
  tc = listed_cache l st ca -> tn = names ++ map fname (listed l st) ->
  let '(m', ca', lr', _, names', err) := list_loop l st m ca lr tot names in
  after m0 m' (Q m0) /\ (err = false -> ca' = tc /\ names' = tn /\ cache_inv ca' lr' names').
Proof.
  induction l as [|f rest IH]; intros m ca lr tot names Sm C CI Ec En; simpl in *.
  - rewrite app_nil_r in En. auto.
  - unfold listed in En. simpl in En. fold (listed rest st) in En.
    destruct (eligible f st); [|apply (IH _ _ _ _ _ Sm C CI Ec En)].
    pose proof (after_callback _ _ (EList f) Sm C I eq_refl) as S1.
    destruct (f_lerr f); [split; [exact S1 | discriminate]|].
    apply (IH _ _ _ _ _ S1 C (cache_inv_put _ _ _ _ _ CI) Ec).
    rewrite En. simpl. rewrite <- app_assoc. reflexivity.
Qed.

(* on entry to negotiateFeatures; first is the negotiator's flag of that name *)
Definition PreNF (m : mstate) (first : bool) : Prop :=
  H m /\ q_last (Q m) = m_bits m /\ q_negd (Q m) = m_negd m /\ calm m /\
  (first = true -> q_nlists (Q m) = 0 /\ m_negd m = []) /\ not_ready m.

Lemma write_features_ok n m first :
  PreNF m first -> m_rdy m = false ->
  let '(m', r) := write_features c m in
  match r with
  | Good _ => RI true None m' /\ ilen m' <= ilen m
  | Bad e => PostNF n (m', Bad e)
  | Stuck => False
  end.
Proof.
  unfold write_features. intros (HH & P1 & P2 & C & P4 & P5) Hrd.
  pose proof (list_loop_ok (m_bits m) m _ _ fs m [] false 0 [] (after_refl m) C cache_inv_nil eq_refl eq_refl) as K.
  destruct (list_loop fs (m_bits m) m [] false 0 []) as [[[[[m1 ca] lr] tot] names] err].
  destruct K as ((A & (Fb & Fn & Fc & Fl & Fr & Fi) & B) & K).
  specialize (A HH).
  set (e := EOut (WFeatures (m_bits m) names (negb err))) in *.
  set (m2 := emit e (set_list ca tot lr m1)) in *.
  assert (S : after (set_list ca tot lr m1) m2 (upd fs ws (Q m) e)).
  { rewrite <- B. apply (after_emit e (set_list ca tot lr m1)). rewrite Q_set_list, B.
    apply cl_all_calm; [exact C|]. simpl. rewrite P1. split; [apply has_refl|].
    intro X. apply negb_true_iff in X. apply (K X). }
  destruct S as (A2 & _ & HQ). specialize (A2 A). destruct C as (C1 & C2 & C3).
  destruct err.
  - apply PostNF_bad; [exact A2 | |]; rewrite HQ; simpl; [rewrite Fb; exact P1 | exact C2].
  - destruct (K eq_refl) as (K1 & K2 & K3). split; [|exact Fi].
    constructor; unfold not_ready; rewrite ?HQ; simpl; rewrite ?Fb, ?Fn, ?Fr; auto. congruence.
Qed.

Lemma after_read_ok m first al :
  RI false None m ->
  (first = true -> q_nlists (Q m) = 1 /\ m_negd m = []) -> (m_total m = 0 -> m_cache m = []) ->
  PostNF (S (ilen m)) (after_read c m first al).
Proof.
  unfold after_read. cbv zeta. intros R Hf Ht.
  destruct (first && negb (match cache_get ns_StartTLS (m_cache m) with Some _ => true | None => false end)
            && negb (has (m_bits m) st_Secure)) eqn:Eforce;
    [destruct (find_space ns_StartTLS fs) as [f|] eqn:Ef; [destruct (f_neg f && eligible f (m_bits m)) eqn:En|]|].
  1: { (* the unconditional STARTTLS attempt *)
    apply andb_true_iff in Eforce. destruct Eforce as [Eforce E3]. apply andb_true_iff in Eforce. destruct Eforce as [E1 E2].
    apply negb_true_iff in E2, E3. subst first. destruct (Hf eq_refl) as [Hn Hd].
    destruct (find_space_spec _ _ _ Ef) as [_ Esp].
    apply init_loop_ok; [exact R|].
    intros f' Eq. inversion Eq; subst f'. split; [discriminate|]. split; [unfold cand; rewrite Hd; exact En|]. right. split.
    - unfold forced. rewrite (ri_recv _ _ _ R). auto.
    - intros rq Hin. apply In_cache_get in Hin. unfold ckey in Hin. simpl in Hin. rewrite Esp in Hin.
      destruct (cache_get ns_StartTLS (m_cache m)); [discriminate | apply Hin; reflexivity]. }
  all: destruct (m_total m) eqn:Et; [|destruct al];
    [ apply PostNF_done; auto;
      intros (g & Hg & _); rewrite (ri_cache _ _ _ R), (Ht eq_refl) in Hg; exact Hg
    | destruct R; apply PostNF_bad; auto
    | apply init_loop_ok; [exact R | discriminate] ].
Qed.

Lemma negotiate_features_ok m first : PreNF m first -> PostNF (ilen m) (negotiate_features c m first).
Proof.
  (* [set_rdy false m] is m to H, Q and PreNF *)
  unfold negotiate_features. cbv zeta. intros P.
  destruct (server _) eqn:Es.
  - pose proof (write_features_ok (ilen m) (set_rdy false m) first P eq_refl) as W.
    destruct (write_features c _) as [m1 [u|e|]]; [|exact W|contradiction].
    destruct W as (W2 & W3). apply (PostNF_le (ilen m1)); [exact W3|]. apply recv_loop_ok, W2.
  - destruct P as (HH & P1 & P2 & (C1 & C2 & C3) & P4 & P5).
    pose proof (read_ok RPFeatures (set_rdy false m) P1 C2 (no_restart _ _ C1) (fun _ => C3)) as X.
    destruct (read RPFeatures _) as [m1 o]. destruct X as ((HH1 & (Fb1 & Fn1 & _ & _ & Fr1 & _) & HQ1) & Hb1 & L1).
    specialize (HH1 HH). simpl in Fb1, Fn1, Fr1. change (Q (set_rdy false m)) with (Q m) in HQ1.
    destruct (features_of o) as [cs|] eqn:Ef.
    + apply features_of_some in Ef. subst o. simpl in HQ1.
      specialize (L1 ltac:(discriminate)). change (ilen (set_rdy false m)) with (ilen m) in L1.
      assert (Cm1 : calm m1) by (unfold calm; rewrite HQ1; simpl; auto).
      pose proof (read_children_ok (m_bits m1) m1 _ _ cs m1 [] 0 false 0 [] (after_refl m1) Cm1 cache_inv_nil
                                   (fun _ => eq_refl) eq_refl eq_refl) as K.
      destruct (read_children fs (m_bits m1) cs m1 [] 0 false 0) as [m2 r2].
      destruct K as ((A & (Fb & Fn & Fc & Fl & Fr & Fi) & B) & K).
      specialize (A HH1).
      destruct r2 as [[[[ca tot] lr] al]|e|].
      * destruct K as (K1 & K3 & K4). apply (PostNF_le (S (ilen m2))); [lia|].
        apply (after_read_ok (set_list ca tot lr m2) first al).
        -- constructor; unfold not_ready; rewrite ?Q_set_list, ?B, ?HQ1; simpl; rewrite ?Fb, ?Fn, ?Fr, ?Fb1, ?Fn1, ?Fr1; auto; [|congruence].
           rewrite K1, Fb1. reflexivity.
        -- intro Ef1. destruct (P4 Ef1) as [N1 N2]. rewrite Q_set_list, B, HQ1. simpl.
           rewrite N1, Fn, Fn1. auto.
        -- intro Et. apply K3. exact Et.
      * apply PostNF_bad; rewrite ?B, ?Fb; auto. rewrite HQ1. exact C2.
      * contradiction.
    + apply PostNF_bad; [exact HH1 | exact Hb1 |]. rewrite HQ1.
      destruct o as [it|]; [rewrite (us_ref _ _ _ (upd_sound _ _ _ _) _ _ eq_refl Ef)|]; exact C2.
Qed.

(* what Ready means to the monitor *)
Definition Est (m : mstate) : Prop :=
  has (m_bits m) st_Ready = true ->
  q_need_header (Q m) = false /\ (q_self_ready (Q m) = true \/ ~ pending (Q m)).

(* at the head of negotiateSession's loop, Ready or not *)
Record Rel (m : mstate) (ns : nstate) (istee : bool) : Prop := mkRel {
  rel_H : H m;
  rel_bits : exact_bits (m_bits m) (q_last (Q m));
  rel_negd : q_need_header (Q m) = false -> q_negd (Q m) = m_negd m;
  rel_rst : ns_restart ns = true -> m_negd m = [];
  rel_hdr : q_need_header (Q m) = true -> ns_restart ns = true;
  rel_first : ns_first ns = true -> q_nlists (Q m) = 0 /\ m_negd m = [];
  rel_tee : c_tee c = true -> istee = false -> ns_restart ns = true;
  rel_exp : q_expect (Q m) = None;
  rel_ref : q_refused (Q m) = None;
  rel_est : Est m }.

(* throughout the header exchange of a restart, in either order; first is the negotiator's flag *)
Definition Hx (m : mstate) (first : bool) : Prop :=
  H m /\ q_last (Q m) = m_bits m /\ q_refused (Q m) = None /\ q_expect (Q m) = None /\
  m_negd m = [] /\ (first = true -> q_nlists (Q m) = 0) /\ not_ready m.

(* ... and once our header is out *)
Definition sent (m : mstate) : Prop := q_need_header (Q m) = false /\ q_negd (Q m) = [].

Lemma Hx_sent m first : Hx m first -> sent m -> PreNF m first.
Proof.
  intros (HH & Hb & Hr & He & Hn & Hf & Hnr) (Sh & Sn). unfold PreNF, calm. rewrite Sn, Hn. auto 10.
Qed.

Lemma Hx_emit e m first :
  match e with EOut WHeader | EHandshake _ => True | _ => False end -> Hx m first -> Hx (emit e m) first.
Proof.
  intros Y (HH & Hb & Hr & He & Hn & Hf & Hnr).
  assert (X : cl_all fs (Q m) e)
    by (apply cl_all_passive; unfold cl_restart; destruct e as [| |[]| | | | |]; try contradiction; simpl; auto).
  unfold Hx. rewrite H_emit, Q_emit. destruct e as [| |[]| | | | |]; try contradiction; simpl; auto 10.
Qed.

Lemma send_header_ok m first :
  Hx m first ->
  let '(m1, r) := send_header c m in
  Hx m1 first /\ ilen m1 <= ilen m /\ match r with Good _ => sent m1 | Bad _ => True | Stuck => False end.
Proof.
  unfold send_header. intros P.
  (* [set_hs] is invisible to Hx *)
  pose proof (Hx_emit (EHandshake (c_hs_ok c)) (set_hs false m) first I P) as P1.
  assert (S : forall m0, sent (emit (EOut WHeader) m0)) by (intro m0; unfold sent; rewrite Q_emit; split; reflexivity).
  destruct (m_tls m && m_hs m); [destruct (c_hs_ok c)|];
    (split; [|split; [apply le_n|]]); auto using Hx_emit.
Qed.

Lemma expect_header_ok m first :
  Hx m first -> (q_need_header (Q m) = true -> server m = true) ->
  let '(m1, r) := expect_header m in
  Hx m1 first /\ Q m1 = Q m /\ ilen m1 <= ilen m /\ r <> Stuck.
Proof.
  unfold expect_header. intros (HH & Hb & Hr & He & Hn & Hf & Hnr) Hs.
  pose proof (read_ok RPHeader m Hb Hr) as S.
  destruct (read RPHeader m) as [m1 o].
  assert (S1 : after m m1 (Q m)).
  { destruct o; apply S; auto; intro X; simpl; rewrite Hb; exact (Hs X). }
  destruct S1 as (A & (Fb & Fn & _ & _ & _ & Fi) & B).
  unfold Hx, not_ready. rewrite B, Fb, Fn. split; [auto 10|]. split; [reflexivity|]. split; [exact Fi|].
  destruct (is_good_header o); discriminate.
Qed.

Lemma header_exchange_ok n m ns istee :
  Rel m ns istee -> not_ready m ->
  let '(m1, r1) :=
    if ns_restart ns
    then if server m
         then match expect_header m with (ma, Good _) => send_header c ma | other => other end
         else match send_header c m with (ma, Good _) => expect_header ma | other => other end
    else (m, Good tt) in
  ilen m1 <= ilen m /\
  match r1 with Good _ => PreNF m1 (ns_first ns) | Bad e => PostNF n (m1, Bad e) | Stuck => False end.
Proof.
  intros R Hnr. destruct R. pose proof (exact_bits_not_ready _ _ rel_bits0 Hnr) as Hb.
  destruct (ns_restart ns) eqn:Ers.
  - assert (X : Hx m (ns_first ns)) by (unfold Hx; repeat (split; [auto; fail|]); split; [apply rel_first0 | exact Hnr]).
    destruct (server m) eqn:Esv.
    + pose proof (expect_header_ok _ _ X (fun _ => Esv)) as Xa.
      destruct (expect_header m) as [ma ra]. destruct Xa as (Xa & _ & La & Na).
      destruct ra as [u|e|]; [|split; [exact La | apply PostNF_bad; apply Xa] | congruence].
      pose proof (send_header_ok _ _ Xa) as X1.
      destruct (send_header c ma) as [m1 r1]. destruct X1 as (X1 & L1 & S1).
      split; [lia|]. destruct r1; [exact (Hx_sent _ _ X1 S1) | apply PostNF_bad; apply X1 | exact S1].
    + pose proof (send_header_ok _ _ X) as Xa.
      destruct (send_header c m) as [ma ra]. destruct Xa as (Xa & La & Sa).
      destruct ra as [u|e|]; [|split; [exact La | apply PostNF_bad; apply Xa] | contradiction].
      pose proof (expect_header_ok _ _ Xa) as X1.
      destruct (expect_header ma) as [m1 r1].
      destruct X1 as (X1 & B1 & L1 & N1); [destruct Sa as [-> _]; discriminate|].
      split; [lia|].
      destruct r1; [apply Hx_sent; [exact X1|unfold sent; rewrite B1; exact Sa] | apply PostNF_bad; apply X1 | congruence].
  - split; [apply le_n|].
    assert (Hh : q_need_header (Q m) = false).
    { destruct (q_need_header (Q m)) eqn:Y; [|reflexivity]. pose proof (rel_hdr0 eq_refl). discriminate. }
    unfold PreNF, calm, not_ready. auto 10.
Qed.

Lemma negotiator_body_ok m ns istee :
  Rel m ns istee -> not_ready m ->
  let '(m', r) := negotiator_body c m ns in
  match r with
  | Good (mask, restart, ns1) => PostNF (ilen m) (m', Good (mask, restart)) /\ ns1 = mkNS restart false
  | Bad e => PostNF (ilen m) (m', Bad e)
  | Stuck => PostNF (ilen m) (m', Stuck)
  end.
Proof.
  unfold negotiator_body. intros R Hnr.
  pose proof (header_exchange_ok (ilen m) m ns istee R Hnr) as X.
  destruct (if ns_restart ns then _ else _) as [m1 r1]. destruct X as (L & D).
  destruct r1 as [u|e|]; [| exact D | contradiction].
  pose proof (PostNF_le _ _ _ L (negotiate_features_ok m1 (ns_first ns) D)) as PN.
  destruct (negotiate_features c m1 (ns_first ns)) as [m2 [[mask restart]|e|]]; auto.
Qed.

Definition final_bits (cl : rclass) (b last : N) : Prop :=
  match cl with RErr _ => b = clear_ready last | _ => exact_bits b last end.

Lemma final_bits_noerr cl b last : (forall e, cl <> RErr e) -> final_bits cl b last -> has b last = true.
Proof. intros Hne X. apply exact_bits_has. destruct cl; try exact X. destruct (Hne e eq_refl). Qed.

Lemma final_bits_ready cl b last : final_bits cl b last -> has (N.lor b st_Ready) last = true.
Proof.
  intro X. destruct cl; try (apply has_lor_l, exact_bits_has, X).
  simpl in X. subst b. apply has_bits. intros i Hi. unfold clear_ready.
  rewrite N.lor_spec, N.ldiff_spec, Hi. apply orb_negb_l.
Qed.

Record Final (r : result) : Prop := mkFinal {
  fin_holds : H (r_state r);
  fin_est : established_partial (Q (r_state r)) r;
  fin_refusal : refusal_reported (Q (r_state r)) r;
  fin_bits : final_bits (r_class r) (r_bits r) (q_last (Q (r_state r)));
  fin_fuel : r_class r <> RFuel }.

Lemma session_loop_ok fuel : forall m ns istee,
  cost c m istee <= fuel -> Rel m ns istee -> Final (session_loop fuel c m ns istee).
Proof.
  induction fuel as [|k IH]; intros m ns istee Hc R; simpl; unfold cost in Hc; [lia|].
  destruct (has (m_bits m) st_Ready) eqn:Erd.
  - destruct R. constructor; simpl; try discriminate; auto.
    + intros _. split; [exact Erd|]. split; [exact (exact_bits_has _ _ rel_bits0)|].
      destruct (rel_est0 Erd) as [Z1 Z2]. split; [exact Z1|].
      intro Hs. destruct Z2 as [Z|Z]; [congruence | exact Z].
    + intros e Y. congruence.
  - destruct (c_tee c && negb istee) eqn:Etee.
    + (* the tee-wrapping call: it comes only when a restart is due ([rel_tee]), so the
         negotiated set it empties is empty already *)
      apply andb_true_iff in Etee. destruct Etee as [Et Ei]. apply negb_true_iff in Ei. subst istee.
      destruct R. pose proof (rel_tee0 Et eq_refl) as Ers. pose proof (rel_rst0 Ers) as Hn0.
      apply IH; [unfold cost; rewrite andb_false_r; change (ilen (set_negd [] m)) with (ilen m); lia|].
      constructor; simpl; rewrite ?Q_set_negd; auto; try discriminate.
      * intro X. rewrite (rel_negd0 X). exact Hn0.
      * intro X. apply andb_true_iff in X. destruct X as [X _]. split; [apply rel_first0; exact X | reflexivity].
    + pose proof (negotiator_body_ok m ns istee R Erd) as NB.
      destruct (negotiator_body c m ns) as [m1 [[[mask restart] ns1]|e|]].
      * destruct NB as [(P1 & P2 & P0 & P3 & P4 & P5 & P6 & P8 & P9) Ens]. subst ns1.
        apply IH.
        { (* an item was read *)
          unfold cost. replace (ilen (set_bits _ _)) with (ilen m1) by (destruct restart; reflexivity).
          destruct (c_tee c && negb (if restart then false else istee)); lia. }
        assert (B : exact_bits (N.lor (m_bits m1) mask) (q_last (Q m1))) by (rewrite P2; exact P9).
        assert (E : Est (set_bits (N.lor (m_bits m1) mask) m1)).
        { intro X. destruct (P8 X) as [-> Y2]. split; [exact P5 | exact Y2]. }
        destruct restart; constructor; simpl; rewrite ?Q_set_bits, ?Q_set_negd; auto; try congruence.
        intros Et X. subst istee. rewrite Et in Etee. discriminate.
      * destruct NB as (P1 & P2 & P3). constructor; simpl; try discriminate; auto.
        -- intros e' Y. rewrite (P3 e' Y). reflexivity.
        -- rewrite P2. reflexivity.
      * destruct NB as (P1 & P2 & P3). constructor; simpl; try discriminate; auto.
        -- intros e' Y. congruence.
        -- rewrite P2. left. reflexivity.
Qed.

End Inv.

Lemma run_final c bits clear tls outs choices : Final c bits (run c bits clear tls outs choices).
Proof.
  unfold run. apply session_loop_ok.
  { (* 2 of the 4 that [fuel_for] adds are needed: the tee-wrapping turn and the last *)
    unfold cost, fuel_for, ilen. simpl. destruct (c_tee c); simpl; lia. }
  constructor; simpl; auto; try discriminate.
  - exact I.
  - left. reflexivity.
  - intros _. split; [reflexivity|]. right. intros (g & [] & _).
Qed.

Lemma holds_at fs ws P q tr :
  holds fs ws P q tr <-> (forall pre e post, tr = pre ++ e :: post -> P (final fs ws q pre) e).
Proof.
  revert q. induction tr as [|x r IH]; intro q; simpl.
  - split; [|auto]. intros _ pre e post E. destruct pre; discriminate.
  - rewrite IH. split.
    + intros [X Y] pre e post E. destruct pre as [|p pre]; simpl in *.
      * inversion E; subst. exact X.
      * inversion E; subst. eapply Y. reflexivity.
    + intro A. split.
      * apply (A [] x r). reflexivity.
      * intros pre e post E. apply (A (x :: pre) e post). simpl. rewrite E. reflexivity.
Qed.

Lemma acc_bits_app b a t : acc_bits b (a ++ t) = acc_bits (acc_bits b a) t.
Proof. revert b. induction a as [|[] a IH]; intro b; simpl; auto. Qed.

Lemma last_is_acc fs ws : forall tr q, q_last (final fs ws q tr) = acc_bits (q_last q) tr.
Proof.
  induction tr as [|e tr IH]; intro q; simpl; [reflexivity|].
  rewrite IH, (us_last _ _ _ (upd_sound _ _ _ _)). destruct e; reflexivity.
Qed.

Lemma last_grows fs ws : forall tr q,
  holds fs ws cl_monotone q tr -> has (q_last (final fs ws q tr)) (q_last q) = true.
Proof.
  induction tr as [|e tr IH]; intros q Hh; simpl in *.
  - apply has_refl.
  - destruct Hh as [He Hr]. apply IH in Hr. eapply has_trans; [exact Hr|]. clear Hr IH.
    rewrite (us_last _ _ _ (upd_sound _ _ _ _)). destruct e; try apply has_refl.
    simpl in He. subst st. unfold after_neg. destruct (o_err o); [apply has_refl | apply has_lor_l; apply has_refl].
Qed.

Lemma final_self_ready fs ws : forall tr q,
  q_self_ready (final fs ws q tr) = q_self_ready q || self_ready tr.
Proof.
  induction tr as [|e tr IH]; intro q; simpl; [rewrite orb_false_r; reflexivity|].
  rewrite IH, (us_self _ _ _ (upd_sound _ _ _ _)). destruct e; try reflexivity. rewrite orb_assoc. reflexivity.
Qed.

Lemma final_cache_is_map fs ws : forall tr q, cache_is_map q -> cache_is_map (final fs ws q tr).
Proof.
  induction tr as [|e tr IH]; intros q Hs; simpl; [exact Hs | apply IH, (us_cache _ _ _ (upd_sound fs ws q e)), Hs].
Qed.

Section Run.
Variables (c : config) (bits : N) (clear tls : list pitem) (outs : list outcome) (choices : list bytes).
Let r := run c bits clear tls outs choices.
Notation fs := (c_feats c).
Notation ws := (c_ws c).

Lemma all_clauses : holds fs ws (cl_all fs) (mon0 bits) (trace r).
Proof. exact (fin_holds _ _ _ (run_final c bits clear tls outs choices)). Qed.

Lemma at_event pre e post : trace r = pre ++ e :: post -> cl_all fs (final fs ws (mon0 bits) pre) e.
Proof. apply (proj1 (holds_at _ _ _ _ _) all_clauses). Qed.

Lemma refused_is_last pre e post err :
  trace r = pre ++ e :: post -> q_refused (upd fs ws (final fs ws (mon0 bits) pre) e) = Some err ->
  post = [] /\ r_class r = RErr err.
Proof.
  intros E Hq. destruct post as [|e' post'].
  - split; [reflexivity|]. apply (fin_refusal _ _ _ (run_final c bits clear tls outs choices)).
    fold r. unfold Q, T. fold (trace r). rewrite E, final_app. exact Hq.
  - change (pre ++ e :: e' :: post') with (pre ++ [e] ++ e' :: post') in E. rewrite app_assoc in E.
    destruct (at_event _ _ _ E) as (_ & _ & _ & _ & _ & _ & X & _).
    rewrite final_app in X. simpl in X. congruence.
Qed.

Lemma acc_grows a m t : trace r = a ++ m ++ t -> has (acc_bits bits (a ++ m)) (acc_bits bits a) = true.
Proof.
  intro E. pose proof all_clauses as Hm.
  apply (holds_impl _ _ _ cl_monotone) in Hm; [|unfold cl_all; tauto]. rewrite E in Hm.
  apply holds_app in Hm. destruct Hm as [_ Hm]. apply holds_app in Hm. destruct Hm as [Hm _].
  apply last_grows in Hm. rewrite <- final_app, !last_is_acc in Hm. exact Hm.
Qed.

Lemma acc_has_initial a t : trace r = a ++ t -> has (acc_bits bits a) bits = true.
Proof. apply (acc_grows [] a t). Qed.

Lemma all_has_initial : has (acc_bits bits (trace r)) bits = true.
Proof. apply (acc_has_initial _ []). symmetry. apply app_nil_r. Qed.

Lemma acc_has_neg pre f st o m t :
  trace r = pre ++ ENeg f st o :: m ++ t ->
  has (acc_bits bits (pre ++ ENeg f st o :: m)) (after_neg st o) = true.
Proof.
  intro E. change (trace r = pre ++ [ENeg f st o] ++ m ++ t) in E. rewrite app_assoc in E.
  apply acc_grows in E. rewrite <- app_assoc, (acc_bits_app bits pre [ENeg f st o]) in E. exact E.
Qed.

Lemma neg_sees_accounted pre post f st o :
  trace r = pre ++ ENeg f st o :: post -> st = acc_bits bits pre.
Proof.
  intro E. destruct (at_event _ _ _ E) as (_ & _ & _ & X & _). simpl in X.
  rewrite X. apply last_is_acc.
Qed.

Lemma final_bits_accounted : final_bits (r_class r) (r_bits r) (acc_bits bits (trace r)).
Proof.
  pose proof (fin_bits _ _ _ (run_final c bits clear tls outs choices)) as X.
  unfold Q in X. rewrite last_is_acc in X. exact X.
Qed.

End Run.

Arguments at_event {c bits clear tls outs choices pre e post}.
Arguments refused_is_last {c bits clear tls outs choices pre e post err}.
Arguments acc_has_initial {c bits clear tls outs choices a t}.
Arguments acc_has_neg {c bits clear tls outs choices pre f st o m t}.
