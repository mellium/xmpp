(* C01/Properties.v — the property theorems of C01 and nothing else.
   "Stream features are negotiated only when allowed, in order, at most once."

   Every theorem is about [run c bits clear tls outs choices] of Neg/Model.v for
   EVERY configuration c (any features, masks, required/voluntary, negotiable or
   informational, TCP/WebSocket, tee, either variant of negotiator.go's `first`:
   [c_teefirst]), every initial state
   [bits] (either role), every peer script [clear]/[tls], every script of feature
   outcomes [outs] and every list of map-iteration choices [choices].
   [trace r = pre ++ e :: post] reads "e is an event of the run"; the monitor
   state [final fs ws (mon0 bits) pre] (C01/Model.v) is what the events before e
   determine: the last advertisement of the current stream (q_adv, q_cache), the
   name spaces negotiated on it (q_negd), the state bits (q_last), whether a
   restart is pending (q_need_header). *)
From XV Require Import lib.Bytes gen.NegTables Neg.Model Neg.Proofs C01.Model C01.Proofs C01.Refuted.

(* A feature is negotiated only if it is negotiable at all, was not negotiated
   on the current stream before, and is an entry of the last advertisement of the
   current stream — the sole exception being the initiator's unconditional
   STARTTLS attempt on its first features list while not secure. *)
Theorem C01_only_advertised_negotiable_once :
  forall c bits clear tls outs choices pre post f st o,
  trace (run c bits clear tls outs choices) = pre ++ ENeg f st o :: post ->
  let q := final (c_feats c) (c_ws c) (mon0 bits) pre in
  f_neg f = true /\ mem (f_space f) (q_negd q) = false /\
  ((In (fname f) (q_adv q) /\ exists req, In (req, f) (q_cache q)) \/ forced (c_feats c) q f st).
Proof.
  intros c bits clear tls outs choices pre post f st o E.
  destruct (at_event E) as (A & _). exact A.
Qed.
Print Assumptions C01_only_advertised_negotiable_once.

(* A feature is negotiated only while the session state satisfies its declared
   prerequisites: every necessary bit set, no prohibited bit set — the forced
   STARTTLS attempt included. *)
Theorem C01_prerequisites_hold :
  forall c bits clear tls outs choices pre post f st o,
  trace (run c bits clear tls outs choices) = pre ++ ENeg f st o :: post ->
  eligible f st = true.
Proof.
  intros c bits clear tls outs choices pre post f st o E.
  destruct (at_event E) as (_ & P & _). exact P.
Qed.
Print Assumptions C01_prerequisites_hold.

(* Hence a feature with the masks sasl.go, bind.go or starttls.go declare (read
   from the sources on every run; the feature is told by its masks, not its name)
   runs only in these states: SASL only when secure and not authenticated, binding
   only when authenticated and not ready, STARTTLS only when not secure. *)
Theorem C01_prerequisites_hold_builtin :
  forall c bits clear tls outs choices pre post f st o,
  trace (run c bits clear tls outs choices) = pre ++ ENeg f st o :: post ->
  (f_nec f = ft_sasl_nec -> f_proh f = ft_sasl_proh -> has st st_Secure = true /\ disj st st_Authn = true) /\
  (f_nec f = ft_bind_nec -> f_proh f = ft_bind_proh -> has st st_Authn = true /\ disj st st_Ready = true) /\
  (f_nec f = ft_starttls_nec -> f_proh f = ft_starttls_proh -> disj st st_Secure = true).
Proof.
  intros c bits clear tls outs choices pre post f st o E.
  pose proof (C01_prerequisites_hold _ _ _ _ _ _ _ _ _ _ _ E) as X.
  apply andb_true_iff in X. destruct X as [Xn Xp].
  split; [|split]; intros Hn Hp; rewrite Hn in Xn; rewrite Hp in Xp; auto.
Qed.
Print Assumptions C01_prerequisites_hold_builtin.

(* The state bits and masks the model and the clauses use are those of session.go,
   starttls.go, sasl.go, bind.go and s2s/bidi.go (table regenerated on every run). *)
Theorem C01_tables_from_source :
  (st_Secure = 1%N /\ st_Authn = 2%N /\ st_Ready = 4%N /\ st_Received = 8%N /\ st_S2S = 64%N) /\
  (ft_starttls_nec = 0%N /\ ft_starttls_proh = st_Secure /\ ft_starttls_negotiable = true) /\
  (ft_sasl_nec = st_Secure /\ ft_sasl_proh = st_Authn /\ ft_sasl_negotiable = true) /\
  (ft_bind_nec = st_Authn /\ ft_bind_proh = st_Ready /\ ft_bind_negotiable = true) /\
  (ft_bidi_nec = st_Secure /\ ft_bidi_proh = st_Authn) /\
  ft_starttls_space = ns_StartTLS.
Proof. vm_compute. repeat split; reflexivity. Qed.
Print Assumptions C01_tables_from_source.

(* Voluntary features are taken before mandatory ones: when the initiator takes
   a required entry of the advertisement, no voluntary entry is still open
   (negotiable, not negotiated on this stream, prerequisites hold) — whatever
   order the map iteration took. *)
Theorem C01_voluntary_first :
  forall c bits clear tls outs choices pre post f st o,
  trace (run c bits clear tls outs choices) = pre ++ ENeg f st o :: post ->
  let q := final (c_feats c) (c_ws c) (mon0 bits) pre in
  q_recv q = false -> In (true, f) (q_cache q) ->
  forall g, In (false, g) (q_cache q) -> cand (q_negd q) st (false, g) = false.
Proof.
  intros c bits clear tls outs choices pre post f st o E.
  destruct (at_event E) as (_ & _ & V & _). exact V.
Qed.
Print Assumptions C01_voluntary_first.

(* The literal reading of that clause also counts voluntary features the
   advertisement named that a later child of the same name space replaced in the
   cache.  It is false of the code: a required feature is taken while such a
   feature is open. *)
Definition C01_voluntary_first_literal_statement : Prop := voluntary_first_literal_statement.

Theorem C01_voluntary_first_literal_refuted : ~ C01_voluntary_first_literal_statement.
Proof.
  intro S. destruct voluntary_first_literal_refuted as (c & bits & clear & tls & outs & choices & pre & post & f & st & o & g & E & A & B & C & D).
  pose proof (proj1 (holds_at _ _ _ _ _) (S c bits clear tls outs choices) _ _ _ E) as X. simpl in X.
  rewrite (X A B g C) in D. discriminate.
Qed.
Print Assumptions C01_voluntary_first_literal_refuted.

(* what holds: a voluntary feature open at that moment is not an entry of the cache *)
Theorem C01_voluntary_first_literal_partial :
  forall c bits clear tls outs choices pre post f st o,
  trace (run c bits clear tls outs choices) = pre ++ ENeg f st o :: post ->
  let q := final (c_feats c) (c_ws c) (mon0 bits) pre in
  q_recv q = false -> In (true, f) (q_cache q) ->
  forall g, In (false, g) (q_advall q) -> cand (q_negd q) st (false, g) = true -> ~ In (false, g) (q_cache q).
Proof.
  intros c bits clear tls outs choices pre post f st o E q Hr Hf g _ Hc Hin. subst q.
  rewrite (C01_voluntary_first _ _ _ _ _ _ _ _ _ _ _ E Hr Hf g Hin) in Hc. discriminate.
Qed.
Print Assumptions C01_voluntary_first_literal_partial.

(* State bits only ever get added, and only by successful negotiations: the
   state a Negotiate call sees is EXACTLY the initial bits plus the masks (Ready
   apart: it takes effect when the feature set is done) of the successful calls
   before it on this session ([acc_bits]); hence it contains the initial bits,
   the bits seen by every earlier call and the mask of every earlier successful
   call.  The final state is that, plus possibly Ready, when the run does not end
   in an error — and that without Ready when it does. *)
Theorem C01_bits_monotone :
  forall c bits clear tls outs choices,
  let r := run c bits clear tls outs choices in
  (forall pre post f st o, trace r = pre ++ ENeg f st o :: post ->
     st = acc_bits bits pre /\ has st bits = true) /\
  (forall pre f1 st1 o1 mid f2 st2 o2 post,
     trace r = pre ++ ENeg f1 st1 o1 :: mid ++ ENeg f2 st2 o2 :: post -> has st2 (after_neg st1 o1) = true) /\
  match r_class r with
  | RErr _ => r_bits r = clear_ready (acc_bits bits (trace r))
  | _ => r_bits r = acc_bits bits (trace r) \/ r_bits r = N.lor (acc_bits bits (trace r)) st_Ready
  end /\
  ((forall e, r_class r <> RErr e) ->
   has (r_bits r) bits = true /\
   forall pre post f st o, trace r = pre ++ ENeg f st o :: post -> has (r_bits r) (after_neg st o) = true).
Proof.
  intros c bits clear tls outs choices r.
  pose proof (neg_sees_accounted c bits clear tls outs choices) as Seen.
  pose proof (final_bits_accounted c bits clear tls outs choices) as Fin.
  split; [|split; [|split; [exact Fin|]]].
  - intros pre post f st o E. rewrite (Seen _ _ _ _ _ E). split; [reflexivity | exact (acc_has_initial E)].
  - intros pre f1 st1 o1 mid f2 st2 o2 post E.
    rewrite (Seen (pre ++ ENeg f1 st1 o1 :: mid) post f2 st2 o2) by (rewrite <- app_assoc; exact E).
    exact (acc_has_neg E).
  - intro Hne. pose proof (final_bits_noerr _ _ _ Hne Fin) as Hb. split.
    + exact (has_trans _ _ _ Hb (all_has_initial c bits clear tls outs choices)).
    + intros pre post f st o E. apply (has_trans _ _ _ Hb). fold r. rewrite E.
      rewrite <- (app_nil_r post) in E. exact (acc_has_neg E).
Qed.
Print Assumptions C01_bits_monotone.

(* No bit of the initial state is ever lost (Ready apart, which an error return
   clears): every Negotiate call sees all of them and so does the final state,
   after any number of restarts and whatever kind of connection ([o_rw]: bare
   wrapper, the session's own connection, a net.Conn with or without a
   ConnectionState method) the restarting features returned. *)
Theorem C01_initial_bits_kept :
  forall c bits clear tls outs choices,
  let r := run c bits clear tls outs choices in
  (forall pre post f st o, trace r = pre ++ ENeg f st o :: post -> has st bits = true) /\
  has (N.lor (r_bits r) st_Ready) bits = true.
Proof.
  intros c bits clear tls outs choices r. split; [intros pre post f st o E; apply (proj1 (C01_bits_monotone c bits clear tls outs choices) _ _ _ _ _ E)|].
  exact (has_trans _ _ _ (final_bits_ready _ _ _ (final_bits_accounted c bits clear tls outs choices))
                   (all_has_initial c bits clear tls outs choices)).
Qed.
Print Assumptions C01_initial_bits_kept.

(* The source agrees (table regenerated on every run): every assignment to
   s.state in session.go, features.go and negotiator.go is `|=`, except the one
   `s.state &^= Ready` on negotiateSession's error return; the restart block
   clears nothing. *)
Theorem C01_state_bits_cleared_only_on_error :
  forallb (fun w => write_adds w || write_is_ready_clear w) state_writes = true /\
  length (filter write_is_ready_clear state_writes) = 1 /\
  length (filter (fun w => negb (write_adds w)) state_writes) = 1.
Proof. vm_compute. repeat split; reflexivity. Qed.
Print Assumptions C01_state_bits_cleared_only_on_error.

(* The converse half of "established only with the ready bit set": a run that
   ends in an error never reports Ready — whatever masks the features negotiated
   before the failing step returned. *)
Theorem C01_error_never_ready :
  forall c bits clear tls outs choices e,
  r_class (run c bits clear tls outs choices) = RErr e ->
  has (r_bits (run c bits clear tls outs choices)) st_Ready = false.
Proof.
  intros c bits clear tls outs choices e. apply session_loop_error_not_ready.
Qed.
Print Assumptions C01_error_never_ready.

(* "State bits only ever get added", event by event: a Negotiate call sees
   exactly the bits the events before it determine, and the state written into
   every features list and the state at every read contain them. *)
Theorem C01_bits_monotone_events :
  forall c bits clear tls outs choices pre post e,
  trace (run c bits clear tls outs choices) = pre ++ e :: post ->
  cl_monotone (final (c_feats c) (c_ws c) (mon0 bits) pre) e.
Proof.
  intros c bits clear tls outs choices pre post e E.
  destruct (at_event E) as (_ & _ & _ & M & _). exact M.
Qed.
Print Assumptions C01_bits_monotone_events.

(* A restart always begins with a fresh stream header: once a feature has
   returned a new connection (q_need_header), the next thing that happens is the
   stream header being sent (on a new TLS layer: after its handshake; on the
   receiving side: after reading the peer's header). *)
Theorem C01_restart_sends_header :
  forall c bits clear tls outs choices pre post e,
  trace (run c bits clear tls outs choices) = pre ++ e :: post ->
  cl_restart (final (c_feats c) (c_ws c) (mon0 bits) pre) e.
Proof.
  intros c bits clear tls outs choices pre post e E.
  destruct (at_event E) as (_ & _ & _ & _ & R & _). exact R.
Qed.
Print Assumptions C01_restart_sends_header.

(* The monitor's side of a restart, by the definition of [upd]: a successful
   restarting Negotiate raises q_need_header; the header being sent lowers it and
   empties the monitor's advertisement and set of negotiated features.  (That the
   machine's own set is empty then is part of the invariant, Proofs.Rel.) *)
Theorem C01_restart_monitor :
  forall fs ws q f st o,
  q_need_header (upd fs ws q (ENeg f st o)) = (o_restart o && negb (o_err o))%bool /\
  q_adv (upd fs ws q (EOut WHeader)) = [] /\ q_cache (upd fs ws q (EOut WHeader)) = [] /\
  q_negd (upd fs ws q (EOut WHeader)) = [] /\ q_need_header (upd fs ws q (EOut WHeader)) = false.
Proof. exact (fun fs ws q f st o => conj eq_refl (conj eq_refl (conj eq_refl (conj eq_refl eq_refl)))). Qed.
Print Assumptions C01_restart_monitor.

(* "Reported established": the full statement ... *)
Definition C01_established_sound_statement : Prop := established_sound_statement.

(* ... is false of the code as it is: a required feature whose own mask contains
   Ready (the resource-binding pattern) ends the negotiation while another
   eligible required feature of the same advertisement is pending: the run W1 of C01/Model.v. *)
Theorem C01_established_sound_refuted_required_pending :
  exists c bits clear tls outs choices,
    let r := run c bits clear tls outs choices in
    r_class r = ROk /\ pending (final (c_feats c) (c_ws c) (mon0 bits) (trace r)).
Proof.
  exists cfg_ab, 0%N, [hdr; mkItem false (PFeatures [FC xa (str "a") true false; FC xb (str "b") true false])], [],
         [mkO st_Ready false false RWWrap], [xa].
  split; [vm_compute; reflexivity|]. exists fb. split; vm_compute; auto.
Qed.
Print Assumptions C01_established_sound_refuted_required_pending.

Theorem C01_established_sound_refuted : ~ C01_established_sound_statement.
Proof.
  intro S. destruct C01_established_sound_refuted_required_pending as (c & bits & clear & tls & outs & choices & A & B).
  destruct (S c bits clear tls outs choices A) as (_ & _ & _ & X). exact (X B).
Qed.
Print Assumptions C01_established_sound_refuted.

(* What holds: established implies Ready, all accumulated bits and NO restart
   pending (whatever the features' own masks said); and unless some feature's
   own mask contained Ready, no eligible required feature of the last
   advertisement is left un-negotiated. *)
Theorem C01_established_sound_partial :
  forall c bits clear tls outs choices,
  let r := run c bits clear tls outs choices in
  established_partial (final (c_feats c) (c_ws c) (mon0 bits) (trace r)) r.
Proof. intros c bits clear tls outs choices. exact (fin_est _ _ _ (run_final c bits clear tls outs choices)). Qed.
Print Assumptions C01_established_sound_partial.

(* The same with its hypothesis read off the trace. *)
Theorem C01_established_sound_partial_trace :
  forall c bits clear tls outs choices,
  let r := run c bits clear tls outs choices in
  let q := final (c_feats c) (c_ws c) (mon0 bits) (trace r) in
  r_class r = ROk ->
  has (r_bits r) st_Ready = true /\ q_need_header q = false /\
  (self_ready (trace r) = false -> ~ pending q).
Proof.
  intros c bits clear tls outs choices r q Hok.
  destruct (C01_established_sound_partial c bits clear tls outs choices Hok) as (A & _ & B & C).
  split; [exact A|]. split; [exact B|]. intro Hs. apply C.
  unfold q. rewrite final_self_ready. exact Hs.
Qed.
Print Assumptions C01_established_sound_partial_trace.

(* The literal reading of "no eligible mandatory feature of the last
   advertisement left un-negotiated" counts every configured feature the last
   advertisement marked required whose prerequisites hold now, also one that a
   later child of the same name space replaced in the cache (the cache is a map
   keyed by name space).  It implies the cache reading ... *)
Theorem C01_pending_cache_implies_literal :
  forall fs ws bits tr, let q := final fs ws (mon0 bits) tr in pending q -> pending_adv q.
Proof.
  intros fs ws bits tr q (g & Hg & Hc). exists g. split; [|exact Hc].
  unfold q in Hg. rewrite (final_cache_is_map fs ws tr (mon0 bits) eq_refl) in Hg.
  destruct (In_cache_of _ _ _ Hg) as [[]|X]. exact X.
Qed.
Print Assumptions C01_pending_cache_implies_literal.

(* ... and is false of the code even when no feature reports Ready itself ... *)
Definition C01_established_literal_statement : Prop := established_literal_statement.

(* the cache is keyed by name space, so of two configured features in one name space the
   advertisement names, only the later is kept: the run W5 of C01/Model.v *)
Theorem C01_established_literal_refuted_witness :
  exists c bits clear tls outs choices,
    let r := run c bits clear tls outs choices in
    let q := final (c_feats c) (c_ws c) (mon0 bits) (trace r) in
    r_class r = ROk /\ self_ready (trace r) = false /\ pending_adv q.
Proof.
  exists cfg_w5, 0%N, [hdr; mkItem false (PFeatures [FC xa (str "a") true false; FC xa (str "a2") false false])], [], [], [].
  split; [vm_compute; reflexivity|]. split; [vm_compute; reflexivity|].
  exists fa_req. split; vm_compute; auto.
Qed.
Print Assumptions C01_established_literal_refuted_witness.

Theorem C01_established_literal_refuted : ~ C01_established_literal_statement.
Proof.
  intro S. destruct C01_established_literal_refuted_witness as (c & bits & clear & tls & outs & choices & A & _ & B).
  destruct (S c bits clear tls outs choices A) as (_ & _ & X). exact (X B).
Qed.
Print Assumptions C01_established_literal_refuted.

(* ... what holds: such a feature is not an entry of the cache (it was replaced
   by a later child of the same name space: two configured features share one). *)
Theorem C01_established_literal_partial :
  forall c bits clear tls outs choices,
  let r := run c bits clear tls outs choices in
  let q := final (c_feats c) (c_ws c) (mon0 bits) (trace r) in
  r_class r = ROk -> self_ready (trace r) = false ->
  q_need_header q = false /\
  forall g, In (true, g) (q_advall q) -> cand (q_negd q) (q_last q) (true, g) = true -> ~ In (true, g) (q_cache q).
Proof.
  intros c bits clear tls outs choices r q Hok Hs.
  destruct (C01_established_sound_partial_trace c bits clear tls outs choices Hok) as (_ & X1 & X2).
  split; [exact X1|]. intros g _ Hc Hin. apply (X2 Hs). exists g. split; [exact Hin | exact Hc].
Qed.
Print Assumptions C01_established_literal_partial.

(* The receiving side advertises exactly the configured features whose
   prerequisites hold, in configuration order. *)
Theorem C01_receiver_advertises_exactly_eligible :
  forall c bits clear tls outs choices pre post st names,
  trace (run c bits clear tls outs choices) = pre ++ EOut (WFeatures st names true) :: post ->
  names = map fname (listed (c_feats c) st).
Proof.
  intros c bits clear tls outs choices pre post st names E.
  destruct (at_event E) as (_ & _ & _ & _ & _ & W & _). exact W.
Qed.
Print Assumptions C01_receiver_advertises_exactly_eligible.

(* ... and refuses, without running anything, a selection that was not
   advertised, was already negotiated, is informational only or is no longer
   allowed: the refused selection is the last event and the result is
   policy-violation; a feature runs on the receiving side only as the one
   legitimately selected just before. *)
Theorem C01_receiver_refuses_without_running :
  forall c bits clear tls outs choices,
  let r := run c bits clear tls outs choices in
  (forall pre post st it sp,
     trace r = pre ++ EIn RPSelect st it :: post ->
     let q := final (c_feats c) (c_ws c) (mon0 bits) pre in
     selection_space c it = Some sp -> accept (q_cache q) (q_negd q) st sp = None ->
     post = [] /\ r_class r = RErr EPolicy) /\
  (forall pre post st it,
     trace r = pre ++ EIn RPSelect st it :: post -> selection_space c it = None ->
     post = [] /\ r_class r = RErr EOther) /\
  (forall pre post f st o,
     trace r = pre ++ ENeg f st o :: post ->
     let q := final (c_feats c) (c_ws c) (mon0 bits) pre in
     q_recv q = true -> q_expect q = Some f).
Proof.
  intros c bits clear tls outs choices r. split; [|split].
  - intros pre post st it sp E q Hs Ha. apply (refused_is_last E).
    simpl. rewrite selection_space_ws, Hs. fold q. rewrite Ha. reflexivity.
  - intros pre post st it E Hs. apply (refused_is_last E).
    simpl. rewrite selection_space_ws, Hs. reflexivity.
  - intros pre post f st o E q Hr.
    destruct (at_event E) as (_ & _ & _ & _ & _ & _ & _ & X). exact (X Hr).
Qed.
Print Assumptions C01_receiver_refuses_without_running.

(* All clauses at once, in the form the invariant proves them. *)
Theorem C01_all_clauses :
  forall c bits clear tls outs choices,
  holds (c_feats c) (c_ws c) (cl_all (c_feats c)) (mon0 bits) (trace (run c bits clear tls outs choices)).
Proof. exact all_clauses. Qed.
Print Assumptions C01_all_clauses.

(* The fuel of [run] covers every iteration of negotiateSession's loop. *)
Theorem C01_run_never_out_of_fuel :
  forall c bits clear tls outs choices, r_class (run c bits clear tls outs choices) <> RFuel.
Proof. intros c bits clear tls outs choices. exact (fin_fuel _ _ _ (run_final c bits clear tls outs choices)). Qed.
Print Assumptions C01_run_never_out_of_fuel.
