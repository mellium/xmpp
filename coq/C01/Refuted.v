(* C01/Refuted.v — the clauses that are false of the code as it is: their
   statements, the witness against the literal "voluntary first" (the other two
   stand in Properties.v). *)
From XV Require Import lib.Bytes gen.NegTables Neg.Model Neg.Proofs C01.Model.

Definition established_sound_statement : Prop :=
  forall c bits clear tls outs choices,
    let r := run c bits clear tls outs choices in
    established_sound (final (c_feats c) (c_ws c) (mon0 bits) (trace r)) r.

Definition established_literal_statement : Prop :=
  forall c bits clear tls outs choices,
    let r := run c bits clear tls outs choices in
    let q := final (c_feats c) (c_ws c) (mon0 bits) (trace r) in
    r_class r = ROk -> has (r_bits r) st_Ready = true /\ q_need_header q = false /\ ~ pending_adv q.

Definition voluntary_first_literal_statement : Prop :=
  forall c bits clear tls outs choices,
    holds (c_feats c) (c_ws c) cl_voluntary_first_literal (mon0 bits) (trace (run c bits clear tls outs choices)).

Lemma voluntary_first_literal_refuted :
  exists c bits clear tls outs choices pre post f st o g,
    trace (run c bits clear tls outs choices) = pre ++ ENeg f st o :: post /\
    let q := final (c_feats c) (c_ws c) (mon0 bits) pre in
    q_recv q = false /\ In (true, f) (q_cache q) /\ In (false, g) (q_advall q) /\
    cand (q_negd q) st (false, g) = true.
Proof.
  exists cfg_w6, 0%N, [hdr; mkItem false (PFeatures [FC xa (str "a") false false; FC xa (str "a2") false false; FC xc (str "c") true false])], [],
         [mkO 0%N false false RWWrap], [xc].
  exists (firstn 6 (trace w6_run)), (skipn 7 (trace w6_run)), fr3, 0%N, (mkO 0%N false false RWWrap), fv_a.
  split; [vm_compute; reflexivity|]. vm_compute. auto 10.
Qed.
