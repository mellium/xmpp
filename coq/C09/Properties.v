(* C09/Properties.v — "No peer input can panic or wedge the library."

   Every statement is over the model of C09/Model.v: a component applied to
   what its token reader yields returns the SET of ways the call can end
   (COk | CErr | CPanic | CBlocked).  "For every byte string the peer sends"
   becomes "for every token list and either way for the reader to end" — the
   XML tokenizer is an oracle, and so is encoding/xml's Decode once control
   reaches it (both of its answers are in the set). *)
From XV Require Import lib.Bytes lib.Xml gen.C09Sites C09.Model C09.Proofs.

(* Session.UnmarshalIQ / UnmarshalIQElement and everything built on them (ping,
   version, xtime, carbons enable/disable, upload slot, history.Fetch,
   disco.GetInfo): never a panic, never parked. *)
Theorem C09_no_panic_unmarshal_iq : forall vnil e r, mem CPanic (unmarshal_iq vnil e r) = false.
Proof. intros vnil e r. exact (proj1 (unmarshal_iq_safe vnil e r)). Qed.
Print Assumptions C09_no_panic_unmarshal_iq.

Theorem C09_no_wedge_unmarshal_iq : forall vnil e r, mem CBlocked (unmarshal_iq vnil e r) = false.
Proof. intros vnil e r. exact (proj2 (unmarshal_iq_safe vnil e r)). Qed.
Print Assumptions C09_no_wedge_unmarshal_iq.

(* Session.IterIQ / IterIQElement followed by draining and closing the iterator,
   with or without per-child decoding (roster.Fetch, blocklist.Fetch, direct use). *)
Theorem C09_no_panic_iter_iq : forall e r, mem CPanic (iter_plain e r) = false /\ mem CPanic (iter_decoding e r) = false.
Proof. intros e r. exact (conj (proj1 (iter_plain_safe e r)) (proj1 (iter_decoding_safe e r))). Qed.
Print Assumptions C09_no_panic_iter_iq.

Theorem C09_no_wedge_iter_iq : forall e r, mem CBlocked (iter_plain e r) = false /\ mem CBlocked (iter_decoding e r) = false.
Proof. intros e r. exact (conj (proj2 (iter_plain_safe e r)) (proj2 (iter_decoding_safe e r))). Qed.
Print Assumptions C09_no_wedge_iter_iq.

(* disco.FetchItems / commands.Fetch over any number of pages, for every script of replies. *)
Theorem C09_no_panic_items_pages : forall e replies, mem CPanic (items_pages e replies) = false.
Proof. intros e replies. exact (proj1 (items_pages_safe replies e)). Qed.
Print Assumptions C09_no_panic_items_pages.

Theorem C09_no_wedge_items_pages : forall e replies, mem CBlocked (items_pages e replies) = false.
Proof. intros e replies. exact (proj2 (items_pages_safe replies e)). Qed.
Print Assumptions C09_no_wedge_items_pages.

(* pubsub.Fetch and bookmarks.Fetch. *)
Theorem C09_no_panic_pubsub : forall e r, mem CPanic (pubsub_fetch e r) = false /\ mem CPanic (bookmarks_fetch e r) = false.
Proof. intros e r. exact (conj (proj1 (pubsub_fetch_safe e r)) (proj1 (bookmarks_fetch_safe e r))). Qed.
Print Assumptions C09_no_panic_pubsub.

(* commands.Command.Execute. *)
Theorem C09_no_panic_commands_execute : forall e r, mem CPanic (commands_execute e r) = false.
Proof. intros e r. exact (proj1 (commands_execute_safe e r)). Qed.
Print Assumptions C09_no_panic_commands_execute.

Theorem C09_no_wedge_commands_execute : forall e r, mem CBlocked (commands_execute e r) = false.
Proof. intros e r. exact (proj2 (commands_execute_safe e r)). Qed.
Print Assumptions C09_no_wedge_commands_execute.

(* ping.Send; upload.GetSlot followed by Slot.Put. *)
Theorem C09_no_panic_ping_upload : forall e r, mem CPanic (ping_send e r) = false /\ mem CPanic (upload_slot e r) = false.
Proof. intros e r. exact (conj (proj1 (ping_send_safe e r)) (proj1 (upload_slot_safe e r))). Qed.
Print Assumptions C09_no_panic_ping_upload.

(* carbons.Unwrap and forward.Unwrap on any token sequence. *)
Theorem C09_no_panic_unwrap : forall l, mem CPanic (carbons_unwrap l) = false /\ mem CPanic (forward_unwrap l) = false.
Proof. intros l. exact (conj (proj1 (carbons_unwrap_safe l)) (proj1 (forward_unwrap_safe l))). Qed.
Print Assumptions C09_no_panic_unwrap.

(* every request helper and token-level function at once: neither panic nor wedge *)
Theorem C09_helpers_return : forall f c e start replies,
  helper_or_function c = true ->
  mem CPanic (run_comp f c e start replies) = false /\ mem CBlocked (run_comp f c e start replies) = false.
Proof.
  intros f c e start replies H. apply uncond_safe. destruct c; (discriminate H || reflexivity).
Qed.
Print Assumptions C09_helpers_return.

(* history.Handler.HandleMessage: no panic whatever the message; it parks only
   while the iterator it hands the message to is neither advanced nor closed and
   its context is alive (e_ready = false), never otherwise. *)
Theorem C09_no_panic_history : forall e r, mem CPanic (history_handle e r) = false.
Proof. intros e r. exact (proj1 (history_guarded e r) eq_refl). Qed.
Print Assumptions C09_no_panic_history.

Theorem C09_no_wedge_history : forall e r, e_ready e = true -> mem CBlocked (history_handle e r) = false.
Proof. intros e r. exact (proj2 (history_guarded e r)). Qed.
Print Assumptions C09_no_wedge_history.

(* carbons.Handler.HandleMessage and blocklist.Handler.HandleIQ. *)
Theorem C09_no_panic_carbons : forall r, mem CPanic (carbons_handle r) = false /\ mem CBlocked (carbons_handle r) = false.
Proof. exact carbons_handle_safe. Qed.
Print Assumptions C09_no_panic_carbons.

Theorem C09_no_panic_blocklist : forall start r, mem CPanic (blocklist_handle start r) = false /\ mem CBlocked (blocklist_handle start r) = false.
Proof. exact blocklist_handle_safe. Qed.
Print Assumptions C09_no_panic_blocklist.

(* receipts.Handler.HandleMessage (repaired: children that are not elements are
   skipped): no panic; and for every sequence of receipts — duplicates included,
   while a message awaits its receipt and while none does, whatever the
   application did in between — it never parks, given that the handler deletes
   the table entry before it signals the sender (at most one signal per entry
   on a channel with room for one). *)
Theorem C09_no_panic_receipts : forall f e r, mem CPanic (receipts_handle f e r) = false.
Proof. intros f e r. exact (proj1 (receipts_guarded f e r) eq_refl). Qed.
Print Assumptions C09_no_panic_receipts.

Theorem C09_no_wedge_receipts : forall f e r,
  f_rcpt_delete_first f = true -> mem CBlocked (receipts_handle f e r) = false.
Proof. intros f e r. exact (proj2 (receipts_guarded f e r)). Qed.
Print Assumptions C09_no_wedge_receipts.

(* without that order a repeated receipt parks *)
Theorem C09_no_wedge_receipts_needs_order : forall f,
  f_rcpt_delete_first f = false -> mem CBlocked (receipts_handle f rcpt_env rcpt_msg) = true.
Proof. intros [k d o r w]. cbn [f_rcpt_delete_first]. intros ->. vm_compute. reflexivity. Qed.
Print Assumptions C09_no_wedge_receipts_needs_order.

(* ibb.Handler.HandleIQ (sources owned by C15/C06), for every history of
   Listen / Accept / Listener.Close calls of the application on a session with a
   full or a bare local address: when the listener table is deleted from under
   the key it is inserted with, an <open/> never meets a closed listener (no
   panic), and it parks only while a listener is registered that nobody accepts
   from; a <close/> does not park, given that the close handler does not wait
   for a local Write (f_close_no_wait). *)
Theorem C09_no_wedge_ibb_partial : forall f e start,
  f_keys_agree f = true -> f_close_no_wait f = true ->
  mem CPanic (ibb_iq f e start) = false /\
  (listener_served f e = true -> mem CBlocked (ibb_iq f e start) = false).
Proof.
  intros f e start Hk Hc. destruct (ibb_iq_guarded f e start) as [G1 G2].
  split; [exact (G1 Hk)|]. intro Hs. apply G2. rewrite Hs, Hc. reflexivity.
Qed.
Print Assumptions C09_no_wedge_ibb_partial.

(* An <open/> for the session a live Expect call is waiting for is delivered to
   it, with or without anybody in Accept: it never parks (this is what separates
   it from the known stall of an unexpected <open/>), given that an Expect call
   that gives up removes a registration only if it is its own; without that, the
   take-over history (Expect, Expect again for the same session) parks. *)
Theorem C09_expected_open_delivered : forall f e start,
  f_keys_agree f = true -> f_close_no_wait f = true -> f_expect_owner f = true ->
  e_match e = true -> expect_live (e_hist e) = true ->
  mem CPanic (ibb_iq f e start) = false /\ mem CBlocked (ibb_iq f e start) = false.
Proof.
  intros f e start Hk Hc Ho Hm Hl. destruct (ibb_iq_guarded f e start) as [G1 G2].
  split; [exact (G1 Hk)|]. apply G2. rewrite Hc, andb_true_r.
  unfold listener_served. rewrite Ho, Hm, (expect_live_registered _ Hl).
  destruct (l_state _ _ _) as [|[|]|]; reflexivity.
Qed.
Print Assumptions C09_expected_open_delivered.

Theorem C09_expected_open_needs_owner_check : forall f, f_expect_owner f = false ->
  mem CBlocked (ibb_iq f takeover_env (TStart (mkname (str "http://jabber.org/protocol/ibb") (str "open")) [])) = true.
Proof. intros [[|] d o r w]; cbn [f_expect_owner]; intros ->; vm_compute; reflexivity. Qed.
Print Assumptions C09_expected_open_needs_owner_check.

(* A <close/> for a stream on which a local Write is in progress (its data IQ is
   out, it holds the write lock and waits for an acknowledgement only the serving
   goroutine can deliver) parks exactly when the close handler waits for that lock. *)
Theorem C09_close_needs_no_wait : forall f, f_close_no_wait f = false ->
  mem CBlocked (ibb_iq f writing_env close_start) = true.
Proof. intros [k d o r w]. cbn [f_close_no_wait]. intros ->. vm_compute. reflexivity. Qed.
Print Assumptions C09_close_needs_no_wait.

(* muc.Client.HandlePresence (sources owned by C18), for every history of joins,
   departures and Leave calls: no panic; never parked when the departure
   notification is one alternative of a select. *)
Theorem C09_no_wedge_muc_presence : forall f e,
  f_depart_select f = true -> mem CPanic (muc_presence f e) = false /\ mem CBlocked (muc_presence f e) = false.
Proof.
  intros f e H. destruct (muc_presence_guarded f e) as [G1 G2]. split; [exact (G1 eq_refl) | exact (G2 H)].
Qed.
Print Assumptions C09_no_wedge_muc_presence.

(* The facts hold of the sources the check runs on (regenerated on every run):
   every insertion into and deletion from the listener table uses the same key
   expression; the departure notification is sent inside a select; an Expect
   call that gives up removes only its own registration; the close handler
   never waits for the write lock; the receipt handler deletes before it signals. *)
Theorem C09_listener_table_keys_agree : f_keys_agree gen_facts = true.
Proof. vm_compute. reflexivity. Qed.
Print Assumptions C09_listener_table_keys_agree.

Theorem C09_depart_is_select : f_depart_select gen_facts = true.
Proof. vm_compute. reflexivity. Qed.
Print Assumptions C09_depart_is_select.

Theorem C09_expect_cleanup_checks_owner : f_expect_owner gen_facts = true.
Proof. vm_compute. reflexivity. Qed.
Print Assumptions C09_expect_cleanup_checks_owner.

Theorem C09_serve_close_never_waits_for_writer : f_close_no_wait gen_facts = true.
Proof. vm_compute. reflexivity. Qed.
Print Assumptions C09_serve_close_never_waits_for_writer.

Theorem C09_receipts_delete_first : f_rcpt_delete_first gen_facts = true.
Proof. vm_compute. reflexivity. Qed.
Print Assumptions C09_receipts_delete_first.

(* every access of the session's map of pending requests (read by the serve
   loop, written by request helpers in other goroutines) lies inside a lock
   region of its mutex: an access outside makes the runtime abort the process *)
Theorem C09_session_maps_accessed_under_lock : session_maps_locked = true.
Proof. vm_compute. reflexivity. Qed.
Print Assumptions C09_session_maps_accessed_under_lock.

(* every Lock (RLock) statement in the handler files has its Unlock on every path
   of the function: deferred, or explicit before each return and with the same
   state at the end of all branches (an early return or a conditional unlock leaves
   the mutex held: the NEXT stanza that needs it parks Serve for good) *)
Theorem C09_locks_released_on_every_path : locks_released = true.
Proof. vm_compute. reflexivity. Qed.
Print Assumptions C09_locks_released_on_every_path.

(* No component panics: for every component, environment (application history,
   full or bare local address), start element and readers (every token list,
   either way for a reader to end, every script of replies), given the table
   fact. *)
Theorem C09_no_panic_given_keys : forall f c e start rs,
  f_keys_agree f = true -> mem CPanic (run_comp f c e start rs) = false.
Proof. intros f c e start rs. exact (proj1 (run_comp_guarded f c e start rs)). Qed.
Print Assumptions C09_no_panic_given_keys.

(* Hence unconditionally for the sources the check runs on. *)
Theorem C09_no_panic : forall c e start rs, mem CPanic (run_comp gen_facts c e start rs) = false.
Proof. intros. apply C09_no_panic_given_keys, C09_listener_table_keys_agree. Qed.
Print Assumptions C09_no_panic.

(* The table fact is needed: without it an <open/> after Listen and
   Listener.Close on a session with a full local address panics. *)
Theorem C09_no_panic_needs_keys : forall f, f_keys_agree f = false ->
  exists e start, mem CPanic (run_comp f HIbbIQ e start []) = true.
Proof.
  intros [k d o r w]. cbn [f_keys_agree]. intros ->. exists stale_env, open_start. vm_compute. reflexivity.
Qed.
Print Assumptions C09_no_panic_needs_keys.

(* The unconditional no-wedge claim is false of the faithful model: a hand-over
   to a partner that never shows up parks ... *)
Theorem C09_no_wedge_refuted : ~ no_wedge_statement.
Proof.
  intro H.
  specialize (H gen_facts HHistory (mkenv [str "q1"] false [] true true [] false) (TChar [])
    [mkrd [TStart (mkname [] (str "message")) []; TStart (mkname (str "urn:xmpp:mam:2") (str "result")) [at_ (str "queryid") (str "q1")]] TmEOF]).
  vm_compute in H. discriminate.
Qed.
Print Assumptions C09_no_wedge_refuted.

(* ... and these are the only ways: the history iterator is neither advanced nor
   released, an <open/> finds a listener nobody accepts from and no Expect call
   registered for its session, or (not the case in these sources) the ibb close
   handler waits for a local Write / the muc departure is a plain send / the
   receipt handler signals before deleting; *)
Theorem C09_no_wedge_partial : forall f c e start rs,
  mem CBlocked (run_comp f c e start rs) = true ->
  (c = HHistory /\ e_ready e = false) \/
  (c = HIbbIQ /\ (listener_served f e = false \/ f_close_no_wait f = false)) \/
  (c = HMucPres /\ f_depart_select f = false) \/ (c = HReceipts /\ f_rcpt_delete_first f = false).
Proof.
  intros f c e start rs H. apply wedge_needs_cond in H.
  destruct c; try discriminate H; cbn [comp_cond] in H.
  - left. split; [reflexivity | exact H].
  - right. right. right. split; [reflexivity | exact H].
  - right. left. split; [reflexivity | apply andb_false_iff, H].
  - right. right. left. split; [reflexivity | exact H].
Qed.
Print Assumptions C09_no_wedge_partial.

(* under its condition every component returns. *)
Theorem C09_every_component_returns : forall f c e start rs,
  f_keys_agree f = true -> comp_cond f c e = true ->
  mem CPanic (run_comp f c e start rs) = false /\ mem CBlocked (run_comp f c e start rs) = false.
Proof.
  intros f c e start rs Hk Hc. destruct (run_comp_guarded f c e start rs) as [G1 G2]. split; auto.
Qed.
Print Assumptions C09_every_component_returns.

(* For every script of top-level elements, whatever handlers each one reaches
   (any routing) and whatever their environments, Serve does not panic; *)
Theorem C09_serve_never_panics : forall script, ~ In Panicked (serve_may gen_facts script).
Proof.
  intros script H. apply serve_may_inv in H. destruct H as (el & i & _ & _ & H).
  unfold run_inv in H. rewrite C09_no_panic in H. discriminate.
Qed.
Print Assumptions C09_serve_never_panics.

(* If every invocation meets its component's condition Serve returns: the
   model's Returned stands both for nil at the end of input and for a reported
   error. *)
Theorem C09_serve_returns_at_end_of_input : forall f script,
  f_keys_agree f = true ->
  (forall el i, In el script -> In i el -> inv_cond f i = true) ->
  forall o, In o (serve_may f script) -> o = Returned.
Proof.
  intros f script Hk Hc o H. apply serve_may_inv in H.
  destruct o; [reflexivity | |]; destruct H as (el & i & Hel & Hi & H); exfalso;
    destruct (C09_every_component_returns f _ _ (i_start i) (i_rds i) Hk (Hc el i Hel Hi)) as [G1 G2];
    unfold run_inv in H; congruence.
Qed.
Print Assumptions C09_serve_returns_at_end_of_input.

(* every partial operation the translator finds in the sources is accounted for
   by the model (in files of other properties: every one of a dangerous kind):
   a new unguarded assertion, a removed nil check, a Must call or a bare channel
   send breaks this obligation before any input is found *)
Theorem C09_sites_covered : forall s, In s generated_sites ->
  (owned s = false /\ dangerous_kind (s_kind s) = false) \/
  exists m, In m modelled_sites /\ site_loose_eqb s (fst m) = true.
Proof.
  intros s H. apply covered_spec.
  pose proof (proj1 site_inventory) as Hall. rewrite forallb_forall in Hall. exact (Hall s H).
Qed.
Print Assumptions C09_sites_covered.

Theorem C09_sites_covered_exactly : forallb covered generated_sites = true.
Proof. exact (proj1 site_inventory). Qed.
Print Assumptions C09_sites_covered_exactly.

(* in the repaired files every operation of a dangerous kind (unchecked
   assertion, Must call, unguarded nil start element, bare channel send) is
   listed with its justification; there are exactly two: receipts.SendMessage
   asserts on a token supplied by the calling application, and the receipt
   handler's send goes to a channel that has room for it *)
Theorem C09_owned_sites_clean :
  forallb (fun s => negb (owned s && dangerous_kind (s_kind s)) || justified s) generated_sites = true.
Proof. apply forallb_guard. exact (proj1 (proj2 site_inventory)). Qed.
Print Assumptions C09_owned_sites_clean.

Theorem C09_owned_dangerous_sites :
  map (fun s => (s_func s, s_kind s)) (filter (fun s => owned s && dangerous_kind (s_kind s)) generated_sites)
  = [(str "Handler.HandleMessage", KSend); (str "Handler.SendMessage", KAssert)].
Proof. exact (proj2 (proj2 site_inventory)). Qed.
Print Assumptions C09_owned_dangerous_sites.
