(* C09/Examples.v — non-vacuity and worked examples. *)
From XV Require Import lib.Bytes lib.Xml C09.Model C09.Proofs.

Definition iqn := mkname (str "jabber:client") (str "iq").
Definition qn := mkname (str "jabber:iq:version") (str "query").
Definition env0 := mkenv [] true [] true true [] false.

(* <iq type='result'>text<query/></iq>: the witness of the unmarshalIQ panic on the pinned
   tree; the repaired code skips the text and reaches the decoder *)
Example ex_text_first :
  unmarshal_iq false env0 (mkrd [TStart iqn [at_ (str "type") (str "result")]; TChar (str "text"); TStart qn []; TEnd qn; TEnd iqn] TmEOF)
  = [COk; CErr].
Proof. vm_compute. reflexivity. Qed.

(* <iq type='result'/>: nothing to decode *)
Example ex_empty_result :
  unmarshal_iq false env0 (mkrd [TStart iqn [at_ (str "type") (str "result")]; TEnd iqn] TmEOF) = [COk].
Proof. vm_compute. reflexivity. Qed.

(* the same reply to a command: an error, not a panic *)
Example ex_command_empty :
  commands_execute env0 (mkrd [TStart iqn [at_ (str "type") (str "result")]; TEnd iqn] TmEOF) = [CErr].
Proof. vm_compute. reflexivity. Qed.

Example ex_error_reply :
  unmarshal_iq false env0 (mkrd [TStart iqn [at_ (str "type") (str "error")]; TEnd iqn] TmEOF) = [CErr].
Proof. vm_compute. reflexivity. Qed.

(* a result cut by invalid XML in the middle of the items *)
Example ex_cut_roster :
  iter_decoding env0 (mkrd [TStart iqn [at_ (str "type") (str "result")]; TStart (mkname (str "jabber:iq:roster") (str "query")) [];
                            TStart (mkname (str "jabber:iq:roster") (str "item")) []; TEnd (mkname (str "jabber:iq:roster") (str "item"))] TmErr)
  = [CErr; CErr].
Proof. vm_compute. reflexivity. Qed.

(* two pages of items, the second request answered with an error *)
Definition items_q := mkname (str "http://jabber.org/protocol/disco#items") (str "query").
Definition rsm_set := mkname ns_rsm (str "set").
Example ex_pages :
  mem COk (items_pages env0
    [mkrd [TStart iqn [at_ (str "type") (str "result")]; TStart items_q []; TStart rsm_set []; TEnd rsm_set; TEnd items_q; TEnd iqn] TmEOF;
     mkrd [TStart iqn [at_ (str "type") (str "error")]; TEnd iqn] TmEOF]) = true
  /\ mem CErr (items_pages env0
    [mkrd [TStart iqn [at_ (str "type") (str "result")]; TStart items_q []; TStart rsm_set []; TEnd rsm_set; TEnd items_q; TEnd iqn] TmEOF;
     mkrd [TStart iqn [at_ (str "type") (str "error")]; TEnd iqn] TmEOF]) = true.
Proof. vm_compute. split; reflexivity. Qed.

(* history: a tracked result with an iterator that is advanced, and with one that is never released *)
Definition msgn := mkname (str "jabber:client") (str "message").
Definition resn := mkname (str "urn:xmpp:mam:2") (str "result").
Definition hist_msg := mkrd [TStart msgn []; TChar (str " "); TStart resn [at_ (str "queryid") (str "q1")]; TEnd resn; TEnd msgn] TmEOF.
Example ex_history_tracked : history_handle (mkenv [str "q1"] true (str "normal") true true [] false) hist_msg = [COk; CErr].
Proof. vm_compute. reflexivity. Qed.
Example ex_history_parked : history_handle (mkenv [str "q1"] false (str "normal") true true [] false) hist_msg = [CBlocked].
Proof. vm_compute. reflexivity. Qed.

Example ex_cond_history : comp_cond gen_facts HHistory (mkenv [str "q1"] true (str "normal") true true [] false) = true.
Proof. reflexivity. Qed.
(* <message>text<request xmlns='urn:xmpp:receipts'/></message>: panicked the pinned receipts handler *)
Example ex_receipts_text_child : receipts_handle gen_facts env0 receipts_witness = [COk; CErr].
Proof. vm_compute. reflexivity. Qed.
Example ex_serve_script :
  serve_may gen_facts
    [[mkinv HHistory (mkenv [str "q1"] true (str "normal") true true [] false) (TChar []) [hist_msg]];
     [mkinv HCarbons env0 (TChar []) [mkrd [TStart msgn []; TChar (str "x"); TEnd msgn] TmEOF]]]
  = [Returned; Returned; Returned].
Proof. vm_compute. reflexivity. Qed.
Example ex_helper : helper_or_function QItems = true.
Proof. reflexivity. Qed.

(* ibb: Listen, an acceptor, Listener.Close, then <open/> on a session with a full local address *)
Example ex_ibb_after_close : ibb_iq gen_facts stale_env open_start = [COk; CErr].
Proof. vm_compute. reflexivity. Qed.
Example ex_ibb_key_mismatch : ibb_iq (mkfacts false true true true true) stale_env open_start = [CPanic; COk; CErr].
Proof. vm_compute. reflexivity. Qed.
(* the same mismatch is harmless on a bare local address *)
Example ex_ibb_key_mismatch_bare :
  ibb_iq (mkfacts false true true true true) (mkenv [] true (str "set") true false [ALListen; ALAcceptor; ALClose] false) open_start = [COk; CErr].
Proof. vm_compute. reflexivity. Qed.
(* a listener nobody accepts from *)
Example ex_ibb_unserved : ibb_iq gen_facts (mkenv [] true (str "set") true true [ALListen] false) open_start = [CBlocked; COk; CErr].
Proof. vm_compute. reflexivity. Qed.
(* muc: joined, removed, joined again, removed again *)
Example ex_muc_second_departure : muc_presence gen_facts depart_env = [COk; CErr].
Proof. vm_compute. reflexivity. Qed.
Example ex_muc_plain_send : muc_presence (mkfacts true false true true true) depart_env = [CBlocked; COk; CErr].
Proof. vm_compute. reflexivity. Qed.
(* a Leave in between drains the slot *)
Example ex_muc_leave_drains :
  muc_presence (mkfacts true false true true true) (mkenv [] true (str "unavailable") true true [AMJoin; AMDepart; AMLeave; AMJoin] false) = [COk; CErr].
Proof. vm_compute. reflexivity. Qed.
Example ex_served : listener_served gen_facts (mkenv [] true [] true true [ALListen; ALAcceptor] false) = true.
Proof. vm_compute. reflexivity. Qed.

(* ibb: Expect taken over by a second call for the same session, nobody in Accept, then the <open/> *)
Example ex_takeover_delivered : ibb_iq gen_facts takeover_env open_start = [COk; CErr].
Proof. vm_compute. reflexivity. Qed.
Example ex_takeover_lost : ibb_iq (mkfacts true true false true true) takeover_env open_start = [CBlocked; COk; CErr].
Proof. vm_compute. reflexivity. Qed.
Example ex_takeover_live : expect_live (e_hist takeover_env) = true /\ e_match takeover_env = true.
Proof. split; reflexivity. Qed.
(* the same <open/> for another session is the known stall *)
Example ex_unexpected_open :
  ibb_iq gen_facts (mkenv [] true (str "set") true true [ALListen; AEExpect] false) open_start = [CBlocked; COk; CErr].
Proof. vm_compute. reflexivity. Qed.
(* receipts: the same receipt a second time while the message awaits it *)
Example ex_receipt_repeated : receipts_handle gen_facts rcpt_env rcpt_msg = [COk; CErr].
Proof. vm_compute. reflexivity. Qed.
Example ex_receipt_repeated_no_delete :
  receipts_handle (mkfacts true true true false true) rcpt_env rcpt_msg = [CBlocked; COk; CErr].
Proof. vm_compute. reflexivity. Qed.

(* ibb: <close/> while a local Write on the acknowledged stream waits for its ack *)
Example ex_close_while_writing : ibb_iq gen_facts writing_env close_start = [COk; CErr].
Proof. vm_compute. reflexivity. Qed.
Example ex_close_waits_for_writer : ibb_iq (mkfacts true true true true false) writing_env close_start = [CBlocked; COk; CErr].
Proof. vm_compute. reflexivity. Qed.
