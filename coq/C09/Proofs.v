(* C09/Proofs.v — every component's set of outcomes is [guarded]: a panic only if
   a fact of the sources fails, a wedge only if the condition on its environment
   fails.  The components are enumerated once (uncond_safe, run_comp_guarded);
   Serve is handled by an inversion of serve_may. *)
From XV Require Import lib.Bytes lib.ListAux lib.Xml gen.C09Sites C09.Model.

Definition safe (s : cset) : Prop := mem CPanic s = false /\ mem CBlocked s = false.

Definition guarded (p w : bool) (s : cset) : Prop :=
  (p = true -> mem CPanic s = false) /\ (w = true -> mem CBlocked s = false).

Lemma safe_guarded p w s : safe s -> guarded p w s.
Proof. intros [H1 H2]. split; intros _; assumption. Qed.

Lemma guarded_weaken p w s : guarded true w s -> guarded p w s.
Proof. intros [H1 H2]. split; [intros _; exact (H1 eq_refl) | exact H2]. Qed.

Lemma safe_returns : safe returns.
Proof. split; reflexivity. Qed.

Lemma safe_ok : safe [COk].
Proof. split; reflexivity. Qed.

Lemma safe_err : safe [CErr].
Proof. split; reflexivity. Qed.

Lemma safe_nil : safe [].
Proof. split; reflexivity. Qed.

Lemma safe_app a b : safe a -> safe b -> safe (a ++ b).
Proof.
  unfold safe, mem. intros [Ha1 Ha2] [Hb1 Hb2]. rewrite !existsb_app, Ha1, Ha2, Hb1, Hb2. split; reflexivity.
Qed.

Lemma safe_cons_err s : safe s -> safe (CErr :: s).
Proof. intro H. exact H. Qed.

Lemma safe_cons_ok s : safe s -> safe (COk :: s).
Proof. intro H. exact H. Qed.

Lemma safe_if (b : bool) a c : safe a -> safe c -> safe (if b then a else c).
Proof. destruct b; auto. Qed.

Lemma safe_at_end tm : safe (at_end tm).
Proof. destruct tm; split; reflexivity. Qed.

Lemma safe_iter_end e tm : safe (iter_end e tm).
Proof. destruct e; [apply safe_ok | apply safe_at_end]. Qed.

(* The outcome sets of the components are built from these pieces, so [auto]
   with them (and with the components proved so far) walks a definition once
   its matches are destructed. *)
Create HintDb safe_sets discriminated.
#[local] Hint Resolve safe_returns safe_ok safe_err safe_nil safe_app safe_cons_err safe_if
  safe_at_end safe_iter_end : safe_sets.

Lemma um_payload_safe l tm : safe (um_payload l tm).
Proof. induction l as [|[] l IH]; cbn [um_payload]; auto with safe_sets. Qed.

Lemma unmarshal_iq_safe vnil e r : safe (unmarshal_iq vnil e r).
Proof.
  unfold unmarshal_iq. destruct (iq_front e r), vnil; auto using um_payload_safe with safe_sets.
Qed.
#[local] Hint Resolve unmarshal_iq_safe : safe_sets.

Lemma ping_send_safe e r : safe (ping_send e r).
Proof. unfold ping_send. destruct (r_toks r) as [|[] l]; auto with safe_sets. Qed.

Lemma upload_slot_safe e r : safe (upload_slot e r).
Proof. unfold upload_slot. auto with safe_sets. Qed.

Lemma drain_decoding_safe l tm : safe (drain_decoding l tm).
Proof. unfold drain_decoding. destruct (kids 0 l). auto with safe_sets. Qed.

Lemma drain_plain_safe l tm : safe (drain_plain l tm).
Proof. unfold drain_plain. destruct (kids 0 l). auto with safe_sets. Qed.
#[local] Hint Resolve drain_decoding_safe drain_plain_safe : safe_sets.

Lemma iter_plain_safe e r : safe (iter_plain e r).
Proof. unfold iter_plain. destruct (iter_front e r); auto with safe_sets. Qed.

Lemma iter_decoding_safe e r : safe (iter_decoding e r).
Proof. unfold iter_decoding. destruct (iter_front e r); auto with safe_sets. Qed.

Lemma items_pages_safe rs : forall e, safe (items_pages e rs).
Proof.
  induction rs as [|r rs IH]; intro e; cbn [items_pages]; [apply safe_err|].
  destruct (iter_front e r) as [l|]; [|apply safe_err].
  destruct (kids 0 l). auto with safe_sets.
Qed.

Lemma pubsub_fetch_safe e r : safe (pubsub_fetch e r).
Proof. unfold pubsub_fetch. destruct (pubsub_front e r); auto with safe_sets. Qed.

Lemma bookmarks_fetch_safe e r : safe (bookmarks_fetch e r).
Proof. unfold bookmarks_fetch. destruct (pubsub_front e r); auto with safe_sets. Qed.

Lemma exec_payload_safe l : safe (exec_payload l).
Proof. induction l as [|[] l IH]; cbn [exec_payload]; auto with safe_sets. Qed.

Lemma commands_execute_safe e r : safe (commands_execute e r).
Proof. unfold commands_execute. destruct (iq_front e r); auto using exec_payload_safe with safe_sets. Qed.

Lemma forward_unwrap_safe l : safe (forward_unwrap l).
Proof. unfold forward_unwrap. destruct l as [|[] l]; auto with safe_sets. Qed.

Lemma carbons_unwrap_safe l : safe (carbons_unwrap l).
Proof. unfold carbons_unwrap. destruct l as [|[] l]; auto using forward_unwrap_safe with safe_sets. Qed.

Lemma carb_loop_safe l : forall d tm, safe (carb_loop d l tm).
Proof.
  induction l as [|[n a|n|b|k b] l IH]; intros d tm; cbn [carb_loop]; auto with safe_sets.
  - destruct d; [destruct l|]; auto with safe_sets.
  - destruct d; auto with safe_sets.
Qed.

Lemma carbons_handle_safe r : safe (carbons_handle r).
Proof. unfold carbons_handle. destruct (r_toks r); auto using carb_loop_safe with safe_sets. Qed.

Lemma blocklist_handle_safe start r : safe (blocklist_handle start r).
Proof.
  unfold blocklist_handle. destruct start; auto with safe_sets.
  destruct (kids 0 (r_toks r)). auto with safe_sets.
Qed.

#[local] Hint Resolve ping_send_safe upload_slot_safe iter_plain_safe iter_decoding_safe items_pages_safe
  pubsub_fetch_safe bookmarks_fetch_safe commands_execute_safe forward_unwrap_safe carbons_unwrap_safe
  carbons_handle_safe blocklist_handle_safe : safe_sets.

Lemma hist_child_guarded e l tm : guarded true (e_ready e) (hist_child e l tm).
Proof.
  induction l as [|[] l IH]; cbn [hist_child]; auto using safe_guarded with safe_sets.
  destruct (tracked e _), tm; auto using safe_guarded with safe_sets.
  split; [destruct (e_ready e); reflexivity | intros ->; reflexivity].
Qed.

Lemma history_guarded e r : guarded true (e_ready e) (history_handle e r).
Proof.
  unfold history_handle. destruct (r_toks r); [apply safe_guarded, safe_err | apply hist_child_guarded].
Qed.

(* deleting first: nothing is ever signalled twice, the count of unconsumed signals stays 0 *)
Lemma r_state_unsignalled h : snd (r_state true h) = 0.
Proof.
  unfold r_state. apply fold_left_inv; [|reflexivity].
  intros [entry sig] o Hst. destruct o; cbn [r_step snd] in *; try exact Hst; [reflexivity|].
  destruct entry; [reflexivity | exact Hst].
Qed.

Lemma rcpt_loop_guarded f ev k e tm : guarded true (f_rcpt_delete_first f) (rcpt_loop f ev k e tm).
Proof.
  induction k as [|[n a|t] k IH]; cbn [rcpt_loop]; auto using safe_guarded with safe_sets.
  destruct (bytes_eqb (nlocal n) (str "received")); [|destruct (bytes_eqb _ _); auto using safe_guarded with safe_sets].
  split.
  - intros _. destruct (r_state _ _) as [entry [|sig]], (_ && _); reflexivity.
  - intros ->. pose proof (r_state_unsignalled (e_hist ev)) as Hi.
    destruct (r_state true (e_hist ev)) as [entry sig]. cbn [snd] in Hi. subst sig.
    destruct (_ && _); reflexivity.
Qed.

Lemma receipts_guarded f ev r : guarded true (f_rcpt_delete_first f) (receipts_handle f ev r).
Proof.
  unfold receipts_handle. destruct (r_toks r) as [|t l]; [apply safe_guarded, safe_err|].
  destruct (kids 0 l). apply rcpt_loop_guarded.
Qed.

(* the witness of the pinned tree's panic: a message whose first child is character data *)
Definition receipts_witness : rd :=
  mkrd [TStart (mkname (str "jabber:client") (str "message")) []; TChar (str "text");
        TStart (mkname (str "urn:xmpp:receipts") (str "request")) []; TEnd (mkname (str "urn:xmpp:receipts") (str "request"));
        TEnd (mkname (str "jabber:client") (str "message"))] TmEOF.

(* a receipt repeated while the message still awaits it: [ARSend; ARSignal] then the same receipt *)
Definition rcpt_env : env := mkenv [str "r1"] true (str "chat") true true [ARSend; ARSignal] false.
Definition rcpt_msg : rd :=
  mkrd [TStart (mkname (str "jabber:client") (str "message")) [];
        TStart (mkname (str "urn:xmpp:receipts") (str "received")) [at_ (str "id") (str "r1")];
        TEnd (mkname (str "urn:xmpp:receipts") (str "received"));
        TEnd (mkname (str "jabber:client") (str "message"))] TmEOF.

(* ibb: with agreeing keys a closed listener never stays in the table *)
Lemma l_state_not_stale full h : l_state true full h <> LStale.
Proof.
  unfold l_state. apply fold_left_inv; [|discriminate].
  intros st o H. destruct o, st; cbn [l_step orb]; try exact H; discriminate.
Qed.

(* ibb: with the owner check a registration is never lost, so a waiting Expect
   call is always registered *)
Lemma e_state_not_lost h : e_state true h <> ELost.
Proof.
  unfold e_state. apply fold_left_inv; [|discriminate].
  intros st o H. destruct o, st; cbn [e_step]; try exact H; discriminate.
Qed.

Lemma expect_live_registered h : expect_live h = true -> e_state true h = EReg.
Proof.
  unfold expect_live. pose proof (e_state_not_lost h) as Hn.
  destruct (e_state true h); [discriminate | reflexivity | contradiction].
Qed.

(* the <open/> finds somebody to take the connection: no listener at all, a
   listener that is accepted from, or the Expect call registered for the session *)
Definition listener_served (f : facts) (e : env) : bool :=
  match l_state (f_keys_agree f) (e_full e) (e_hist e) with
  | LOpen false => e_match e && match e_state (f_expect_owner f) (e_hist e) with EReg => true | _ => false end
  | _ => true
  end.

Lemma ibb_iq_guarded f e start :
  guarded (f_keys_agree f) (listener_served f e && f_close_no_wait f) (ibb_iq f e start).
Proof.
  unfold ibb_iq, listener_served. destruct start as [n a| | |]; auto using safe_guarded with safe_sets.
  destruct (bytes_eqb (nlocal n) (str "open") && e_ok e); split.
  - (* <open/>: a panic needs a closed listener still in the table *)
    intros ->. pose proof (l_state_not_stale (e_full e) (e_hist e)) as Hs.
    destruct (l_state true (e_full e) (e_hist e)) as [|acc|]; [reflexivity | | contradiction].
    destruct (if e_match e then _ else _), acc; reflexivity.
  - (* <open/>: a wedge needs a listener nobody accepts from and no registered Expect *)
    intro H. apply andb_true_iff in H. destruct H as [Hs _].
    destruct (l_state (f_keys_agree f) (e_full e) (e_hist e)) as [|[|]|]; try reflexivity.
    + destruct (if e_match e then _ else _); reflexivity.
    + destruct (e_match e); [|discriminate]. destruct (e_state _ _); try discriminate. reflexivity.
  - intros _. destruct (_ && _); reflexivity.
  - (* <close/>: a wedge needs a close handler that waits *)
    intro H. apply andb_true_iff in H. destruct H as [_ ->]. rewrite andb_false_r. reflexivity.
Qed.

(* the witness of a lost registration: Listen (nobody accepts), Expect, Expect again for the same session *)
Definition takeover_env : env := mkenv [] true (str "set") true true [ALListen; AEExpect; AEExpect] true.

(* the witness of a close that waits for the writer: an acknowledged stream with a Write in progress *)
Definition writing_env : env := mkenv [] true (str "set") true true [ALListen; ALAcceptor; AEOpen; AWWrite] true.
Definition close_start : token := TStart (mkname (str "http://jabber.org/protocol/ibb") (str "close")) [].

(* the witness of a key mismatch: full local JID, Listen, Close, then <open/> *)
Definition stale_env : env := mkenv [] true (str "set") true true [ALListen; ALAcceptor; ALClose] false.
Definition open_start : token := TStart (mkname (str "http://jabber.org/protocol/ibb") (str "open")) [].

Lemma muc_presence_guarded f e : guarded true (f_depart_select f) (muc_presence f e).
Proof.
  unfold muc_presence. destruct (m_state (e_hist e)) as [[m sl] p]. split.
  - intros _. destruct (_ && _); reflexivity.
  - intros ->. rewrite andb_false_r. reflexivity.
Qed.

(* the witness of a blocking departure: joined, removed by the room, joined again, removed again *)
Definition depart_env : env := mkenv [] true (str "unavailable") true true [AMJoin; AMDepart; AMJoin] false.

Lemma muc_plain_send_parks f : f_depart_select f = false -> mem CBlocked (muc_presence f depart_env) = true.
Proof. destruct f as [k d o r w]. cbn [f_depart_select]. intros ->. vm_compute. reflexivity. Qed.

Definition comp_cond (f : facts) (c : comp) (e : env) : bool :=
  match c with
  | HHistory => e_ready e
  | HIbbIQ => listener_served f e && f_close_no_wait f
  | HMucPres => f_depart_select f
  | HReceipts => f_rcpt_delete_first f
  | _ => true
  end.

Definition uncond (c : comp) : bool :=
  match c with HHistory | HIbbIQ | HMucPres | HReceipts => false | _ => true end.

Lemma uncond_safe f c e start rs : uncond c = true -> safe (run_comp f c e start rs).
Proof. intro H. destruct c; try discriminate H; cbn [run_comp]; auto with safe_sets. Qed.

Lemma run_comp_guarded f c e start rs :
  guarded (f_keys_agree f) (comp_cond f c e) (run_comp f c e start rs).
Proof.
  destruct (uncond c) eqn:U; [apply safe_guarded, uncond_safe, U|].
  destruct c; try discriminate U; cbn [run_comp comp_cond].
  - apply guarded_weaken, history_guarded.
  - apply guarded_weaken, receipts_guarded.
  - apply ibb_iq_guarded.
  - apply guarded_weaken, muc_presence_guarded.
Qed.

Lemma wedge_needs_cond f c e start rs :
  mem CBlocked (run_comp f c e start rs) = true -> comp_cond f c e = false.
Proof.
  intro H. destruct (comp_cond f c e) eqn:C; [|reflexivity].
  rewrite (proj2 (run_comp_guarded f c e start rs) C) in H. discriminate.
Qed.

Definition inv_cond (f : facts) (i : inv) : bool := comp_cond f (i_comp i) (i_env i).

Lemma in_flagged {A B} (p : A -> bool) l (x o : B) :
  In o (if existsb p l then [x] else []) -> o = x /\ exists a, In a l /\ p a = true.
Proof.
  destruct (existsb p l) eqn:E; [|intros []]. intros [<-|[]].
  split; [reflexivity | apply existsb_exists, E].
Qed.

Lemma serve_may_inv f script o : In o (serve_may f script) ->
  match o with
  | Returned => True
  | Panicked => exists el i, In el script /\ In i el /\ mem CPanic (run_inv f i) = true
  | Wedged => exists el i, In el script /\ In i el /\ mem CBlocked (run_inv f i) = true
  end.
Proof.
  induction script as [|el rest IH]; cbn [serve_may]; intro H.
  - destruct H as [<-|[]]. exact I.
  - apply in_app_or in H. destruct H as [H|H]; [|apply in_app_or in H; destruct H as [H|[<-|H]]].
    + apply in_flagged in H. destruct H as [-> (i & Hi & Hm)]. exists el, i. auto with datatypes.
    + apply in_flagged in H. destruct H as [-> (i & Hi & Hm)]. exists el, i. auto with datatypes.
    + exact I.
    + specialize (IH H). destruct o; [exact I | |];
        destruct IH as (el' & i & Hel & Hi & Hm); exists el', i; auto with datatypes.
Qed.

Lemma serve_wedge_witness f :
  In Wedged (serve_may f [[mkinv HHistory (mkenv [str "q1"] false [] true true [] false) (TChar [])
     [mkrd [TStart (mkname [] (str "message")) []; TStart (mkname (str "urn:xmpp:mam:2") (str "result")) [at_ (str "queryid") (str "q1")]] TmEOF]]]).
Proof. vm_compute. left. reflexivity. Qed.

Lemma covered_spec s : covered s = true ->
  (owned s = false /\ dangerous_kind (s_kind s) = false) \/
  exists m, In m modelled_sites /\ site_loose_eqb s (fst m) = true.
Proof.
  unfold covered. destruct (owned s); intro H.
  - right. apply existsb_exists in H. destruct H as (m & Hin & Hm).
    exists m. split; [exact Hin|]. apply andb_true_iff in Hm. exact (proj1 Hm).
  - apply orb_true_iff in H. destruct H as [H|H].
    + left. split; [reflexivity | apply negb_true_iff, H].
    + right. apply existsb_exists, H.
Qed.

(* [||] evaluates both sides under vm_compute; with the guard as an [if] the
   right side is evaluated only for the elements that need it *)
Lemma forallb_guard {A} (p q : A -> bool) l :
  forallb (fun x => if p x then q x else true) l = true -> forallb (fun x => negb (p x) || q x) l = true.
Proof.
  rewrite !forallb_forall. intros H x Hx. specialize (H x Hx). destruct (p x); [exact H | reflexivity].
Qed.

(* What the inventory theorems state, evaluated in one piece: a checker that
   evaluates lazily then decodes the generated table once, not once per
   statement. *)
Lemma site_inventory :
  forallb covered generated_sites = true /\
  forallb (fun s => if owned s && dangerous_kind (s_kind s) then justified s else true) generated_sites = true /\
  map (fun s => (s_func s, s_kind s)) (filter (fun s => owned s && dangerous_kind (s_kind s)) generated_sites)
  = [(str "Handler.HandleMessage", KSend); (str "Handler.SendMessage", KAssert)].
Proof. vm_compute. repeat split. Qed.

Definition helper_or_function (c : comp) : bool :=
  match c with
  | QUnmarshal _ | QPing | QUpload | QHistIter | QItems | QRoster | QBlocklist | QPubsub | QBookmarks
  | QExecute | QIterPlain | QSendOnly | FCarbonsUnwrap | FForwardUnwrap => true
  | _ => false
  end.

(* the unconditional no-wedge statement, which C09_no_wedge_refuted refutes *)
Definition no_wedge_statement : Prop :=
  forall f c e start rs, mem CBlocked (run_comp f c e start rs) = false.
