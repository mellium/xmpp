(* C13/Proofs.v — token trees parse back; well-formedness of what the encoders write; maps as sorted
   association lists under the order of sort.Strings; stanza and stream errors decoded after the wire. *)
From Coq Require Import ZifyBool.
From XV Require Import lib.Bytes lib.ListAux C13.Xml C13.Model.

Section TreeInd.
  Variable P : tree -> Prop.
  Hypothesis Htext : forall s, P (Text s).
  Hypothesis Helem : forall n at_ ks, Forall P ks -> P (Elem n at_ ks).
  Fixpoint tree_ind' (t : tree) : P t :=
    match t with
    | Text s => Htext s
    | Elem n at_ ks =>
        Helem n at_ ks
          ((fix go (l : list tree) : Forall P l :=
              match l with
              | [] => Forall_nil P
              | x :: r => Forall_cons x (tree_ind' x) (go r)
              end) ks)
    end.
End TreeInd.

Lemma name_eqb_eq a b : name_eqb a b = true <-> a = b.
Proof.
  destruct a as [s l], b as [s' l']. unfold name_eqb. cbn [nspace nlocal].
  rewrite andb_true_iff, !bytes_eqb_eq. split; [intros [-> ->]; reflexivity|intro H; inversion H; auto].
Qed.

Lemma name_eqb_refl n : name_eqb n n = true.
Proof. apply name_eqb_eq. reflexivity. Qed.

Definition parses_back (t : tree) : Prop :=
  forall rest stack cur, parse (tokens_of_tree t ++ rest) stack cur = parse rest stack (t :: cur).

Lemma parse_forest_gen f : Forall parses_back f ->
  forall rest stack cur, parse (tokens_of_forest f ++ rest) stack cur = parse rest stack (rev f ++ cur).
Proof.
  unfold tokens_of_forest. induction 1 as [|t f Ht _ IH]; intros rest stack cur; [reflexivity|].
  cbn [flat_map rev]. rewrite <- !app_assoc, Ht, IH. reflexivity.
Qed.

Lemma parse_tokens_of_tree_gen t : parses_back t.
Proof.
  induction t as [s | n at_ ks IH] using tree_ind'; intros rest stack cur; [reflexivity|].
  cbn [tokens_of_tree app parse]. rewrite <- app_assoc. fold (tokens_of_forest ks).
  rewrite (parse_forest_gen ks IH).
  cbn [app parse]. rewrite name_eqb_refl, app_nil_r, rev_involutive. reflexivity.
Qed.

Lemma parse_forest_tokens f : parse_forest (tokens_of_forest f) = Some f.
Proof.
  unfold parse_forest. rewrite <- (app_nil_r (tokens_of_forest f)), parse_forest_gen.
  - cbn [parse]. rewrite app_nil_r, rev_involutive. reflexivity.
  - apply Forall_forall. intros t _. apply parse_tokens_of_tree_gen.
Qed.

Lemma parse_tree t : parse_forest (tokens_of_tree t) = Some [t].
Proof. rewrite <- (app_nil_r (tokens_of_tree t)). apply parse_tokens_of_tree_gen. Qed.

Lemma tokens_of_forest_app a b : tokens_of_forest (a ++ b) = tokens_of_forest a ++ tokens_of_forest b.
Proof. unfold tokens_of_forest. apply flat_map_app. Qed.

Lemma se_conds_name_ok : forallb name_ok SE_CONDS = true.
Proof. vm_compute. reflexivity. Qed.
Lemma ste_conds_name_ok : forallb name_ok STE_CONDS = true.
Proof. vm_compute. reflexivity. Qed.
Lemma se_conds_not_text : mem L_text SE_CONDS = false /\ mem L_undefined SE_CONDS = true.
Proof. vm_compute. split; reflexivity. Qed.
Lemma ste_conds_not_text : mem L_text STE_CONDS = false /\ mem L_soh STE_CONDS = true.
Proof. vm_compute. split; reflexivity. Qed.
Lemma type_tables_clean :
  forallb xml_clean IQ_TYPES = true /\ forallb xml_clean MSG_TYPES = true /\ forallb xml_clean PRES_TYPES = true /\
  forallb xml_clean ERR_TYPES = true /\
  mem [] IQ_TYPES = false /\ mem L_normal MSG_TYPES = true /\ mem [] MSG_TYPES = false.
Proof. vm_compute. repeat split; reflexivity. Qed.
Lemma name_spaces_distinct :
  bytes_eqb NS_STREAM NS_STE = false /\ bytes_eqb NS_CLIENT NS_SE = false /\ bytes_eqb NS_SERVER NS_SE = false /\
  is_empty NS_SE = false /\ is_empty NS_STE = false /\ is_empty NS_STREAM = false.
Proof. vm_compute. repeat split; reflexivity. Qed.

Lemma mem_In x l : mem x l = true <-> In x l.
Proof. exact (existsb_eqb_In bytes_eqb bytes_eqb_eq x l). Qed.

Lemma mem_forallb (p : bytes -> bool) x l : forallb p l = true -> mem x l = true -> p x = true.
Proof. intros Hall Hm. apply mem_In in Hm. rewrite forallb_forall in Hall. auto. Qed.

Lemma msg_default_defined t : mem t MSG_TYPES = true -> msg_default t = t.
Proof. intro H. unfold msg_default. rewrite H. reflexivity. Qed.

Lemma wrap_parses k v f :
  parse_forest (wrap_tokens k v (tokens_of_forest f)) = Some [Elem (start_name k v) (start_attrs k v) f].
Proof. exact (parse_tree (Elem _ _ f)). Qed.

Lemma error_tokens_tree e f : error_tokens e (tokens_of_forest f) = tokens_of_tree (error_tree e f).
Proof.
  unfold error_tokens, error_tree. cbn [tokens_of_tree]. f_equal.
  fold (tokens_of_forest (error_children e ++ f)). rewrite tokens_of_forest_app, <- app_assoc.
  reflexivity.
Qed.

Lemma error_reply_parses k v e :
  parse_forest (error_reply_tokens k v e) =
  Some [Elem (start_name k (reply v L_error)) (start_attrs k (reply v L_error)) [error_tree e []]].
Proof.
  unfold error_reply_tokens. change (@nil token) with (tokens_of_forest []). rewrite error_tokens_tree.
  rewrite <- (app_nil_r (tokens_of_tree _)). apply (wrap_parses k _ [_]).
Qed.

Lemma stream_error_tokens_tree s f :
  stream_error_tokens s (tokens_of_forest f) = tokens_of_tree (stream_error_tree s f).
Proof.
  unfold stream_error_tokens, stream_error_tree. cbn [tokens_of_tree flat_map app]. f_equal.
  f_equal. f_equal. f_equal.
  fold (tokens_of_forest (f ++ map ste_text_el (st_text s))).
  rewrite tokens_of_forest_app, <- app_assoc. reflexivity.
Qed.

Lemma stanza_tree_wf k v f :
  forallb wf_tree f = true -> wf_tree (Elem (start_name k v) (start_attrs k v) f) = true.
Proof.
  intro Hf. destruct v as [ns lo id to from lang typ]. unfold start_attrs.
  cbn [wf_tree s_typ s_to s_from s_id s_lang]. rewrite Hf.
  destruct k, typ, to, from, id, lang; vm_compute; reflexivity.
Qed.

Lemma text_el_wf ns kv : wf_tree (Elem (mkname ns L_text) (lang_attr (fst kv)) [Text (snd kv)]) = true.
Proof. destruct (fst kv); reflexivity. Qed.

Lemma error_tree_wf e f :
  mem (cond_or_default (e_cond e)) SE_CONDS = true -> forallb wf_tree f = true -> wf_tree (error_tree e f) = true.
Proof.
  intros Hc Hf. unfold error_tree. cbn [wf_tree]. rewrite forallb_app, Hf.
  unfold error_children, error_attrs. cbn [forallb wf_tree nlocal].
  rewrite (mem_forallb name_ok _ _ se_conds_name_ok Hc).
  rewrite forallb_map, (forallb_true _ _ (text_el_wf NS_SE)).
  destruct (e_typ e), (e_by e); reflexivity.
Qed.

Lemma stream_error_tree_wf s f :
  mem (st_err s) STE_CONDS = true -> forallb wf_tree f = true -> wf_tree (stream_error_tree s f) = true.
Proof.
  intros Hc Hf. unfold stream_error_tree. cbn [wf_tree forallb nlocal attr_names_distinct].
  rewrite (mem_forallb name_ok _ _ ste_conds_name_ok Hc), forallb_app, Hf.
  rewrite forallb_map, (forallb_true _ _ (text_el_wf NS_STE)).
  reflexivity.
Qed.

(* a JID in its String() form that jid.Parse maps to itself; [] is the zero JID *)
Definition jid_ok (parse : jparse) (j : bytes) : Prop := j = [] \/ parse j = Some j.

(* [jid_ok] of what the encoder leaves of j ([clean_text]) *)
Definition jid_okc (parse : jparse) (j : bytes) : Prop := j = [] \/ parse (clean_text j) = Some (clean_text j).

Definition set_local (v : stanza) (l : bytes) : stanza :=
  mkst (s_ns v) l (s_id v) (s_to v) (s_from v) (s_lang v) (s_typ v).

Definition set_ns (v : stanza) (x : bytes) : stanza :=
  mkst x (s_local v) (s_id v) (s_to v) (s_from v) (s_lang v) (s_typ v).

(* the two-paths clause of the property at full strength; false of the model, which [two_paths_witness] shows
   (Properties.v) *)
Definition two_paths_statement : Prop :=
  forall k parse v, jid_okc parse (s_to v) -> jid_okc parse (s_from v) -> type_defined k v = true ->
    unmarshal_stanza k parse (wire [] (marshal_tree k v)) =
    unmarshal_stanza k parse (wire [] (Elem (start_name k v) (start_attrs k v) [])).

Definition two_paths_witness : stanza := mkst NS_CLIENT L_iq (str "1") [] [] [] L_get.

Definition stanza_clean (v : stanza) : bool :=
  xml_clean (s_id v) && xml_clean (s_to v) && xml_clean (s_from v) && xml_clean (s_lang v) && xml_clean (s_typ v).

(* every branch of [clean_text] on a non-empty input emits at least one byte *)
Lemma clean_text_is_empty s : is_empty (clean_text s) = is_empty s.
Proof.
  destruct s as [|b0 r0]; [reflexivity|]. cbn [clean_text is_empty].
  repeat match goal with
         | |- context [if ?c then _ else _] => destruct c
         | |- context [match ?x with _ => _ end] => destruct x
         end; reflexivity.
Qed.

Lemma xml_clean_eq s : xml_clean s = true -> clean_text s = s.
Proof. unfold xml_clean. apply bytes_eqb_eq. Qed.

Lemma chardata_merge_single s : chardata (merge_text [Text s]) = s.
Proof. destruct s; cbn; [reflexivity|]. rewrite app_nil_r. reflexivity. Qed.

Lemma wire_omitted n x :
  is_empty (nlocal n) = false ->
  map wire_attr (filter (fun a => negb (is_empty (nlocal (aname a)))) (if is_empty x then [] else [mkattr n x])) =
  if is_empty (clean_text x) then [] else [mkattr n (clean_text x)].
Proof.
  intro Hn. rewrite clean_text_is_empty. destruct (is_empty x); [reflexivity|]. cbn.
  rewrite Hn. reflexivity.
Qed.

Lemma wire_elem d n at_ ks :
  wire d (Elem n at_ ks) =
  Elem (mkname (if is_empty (nspace n) then d else nspace n) (nlocal n)) (wire_attrs n at_)
       (merge_text (map (wire (if is_empty (nspace n) then d else nspace n)) ks)).
Proof. reflexivity. Qed.

Lemma wire_text_el d ns k x :
  is_empty ns = false ->
  wire d (Elem (mkname ns L_text) (lang_attr k) [Text x]) =
  Elem (mkname ns L_text) (mkattr xmlns_name (clean_text ns) :: lang_attr (clean_text k))
       (merge_text [Text (clean_text x)]).
Proof.
  intro H. rewrite wire_elem. unfold wire_attrs, lang_attr. cbn [nspace nlocal map wire app].
  rewrite H.
  cbn [app]. f_equal. f_equal. apply wire_omitted. reflexivity.
Qed.

Lemma last_lang_attr y k : last_attr is_xml_lang (mkattr xmlns_name y :: lang_attr k) [] = k.
Proof. destruct k; reflexivity. Qed.

Lemma bytes_ltb_irrefl a : bytes_ltb a a = false.
Proof. induction a as [|x a IH]; [reflexivity|]. cbn [bytes_ltb]. rewrite IH. lia. Qed.

Lemma bytes_ltb_trans a : forall b c, bytes_ltb a b = true -> bytes_ltb b c = true -> bytes_ltb a c = true.
Proof.
  induction a as [|x a IH]; intros [|y b] [|z c] H1 H2; cbn [bytes_ltb] in *; try discriminate;
    try reflexivity.
  specialize (IH b c). lia.
Qed.

Lemma bytes_ltb_neq a b : bytes_ltb a b = true -> bytes_eqb a b = false.
Proof. intro H. apply bytes_eqb_neq. intros ->. rewrite bytes_ltb_irrefl in H. discriminate. Qed.

Lemma bytes_ltb_asym a b : bytes_ltb a b = true -> bytes_ltb b a = false.
Proof.
  intro H. destruct (bytes_ltb b a) eqn:E; [|reflexivity].
  rewrite <- (bytes_ltb_irrefl a). symmetry. exact (bytes_ltb_trans _ _ _ H E).
Qed.

Lemma bytes_ltb_total a : forall b, bytes_eqb a b = false -> bytes_ltb a b = false -> bytes_ltb b a = true.
Proof.
  induction a as [|x a IH]; intros [|y b] He Hl; cbn [bytes_ltb bytes_eqb] in *; try discriminate;
    try reflexivity.
  specialize (IH b). destruct (byte_eqb x y) eqn:E.
  - apply byte_eqb_eq in E. subst y. lia.
  - assert (N : bN x <> bN y) by (intro F; apply bN_inj in F; apply byte_eqb_neq in E; contradiction).
    clear - N Hl. lia.
Qed.

Definition keys_lt (k : bytes) (m : list (bytes * bytes)) : bool := forallb (fun kv => bytes_ltb k (fst kv)) m.

Fixpoint sorted_keys (m : list (bytes * bytes)) : bool :=
  match m with
  | [] => true
  | kv :: r => keys_lt (fst kv) r && sorted_keys r
  end.

Lemma keys_lt_trans x k m : bytes_ltb x k = true -> keys_lt k m = true -> keys_lt x m = true.
Proof.
  unfold keys_lt. rewrite !forallb_forall. intros Hx Hm kv Hin.
  exact (bytes_ltb_trans _ _ _ Hx (Hm kv Hin)).
Qed.

Lemma map_set_In x k v m : In x (map_set k v m) -> x = (k, v) \/ In x m.
Proof.
  induction m as [|[k' v'] r IH]; cbn [map_set];
    [|destruct (bytes_eqb k k'); [|destruct (bytes_ltb k k')]];
    cbn [In]; intuition congruence.
Qed.

Lemma keys_lt_map_set x k v m :
  bytes_ltb x k = true -> keys_lt x m = true -> keys_lt x (map_set k v m) = true.
Proof.
  unfold keys_lt. rewrite !forallb_forall. intros Hx Hm kv Hin.
  destruct (map_set_In _ _ _ _ Hin) as [->|H]; [exact Hx|exact (Hm _ H)].
Qed.

Lemma map_set_sorted k v m : sorted_keys m = true -> sorted_keys (map_set k v m) = true.
Proof.
  induction m as [|[k' v'] r IH]; cbn [map_set sorted_keys fst]; [reflexivity|].
  destruct (bytes_eqb k k') eqn:E; [apply bytes_eqb_eq in E; subst k'; exact (fun H => H)|].
  intro Hs. apply andb_true_iff in Hs. destruct Hs as [H1 H2].
  destruct (bytes_ltb k k') eqn:L; cbn [sorted_keys fst keys_lt forallb].
  - fold (keys_lt k r). rewrite L, H1, H2, (keys_lt_trans _ _ _ L H1). reflexivity.
  - rewrite (IH H2), (keys_lt_map_set _ _ _ _ (bytes_ltb_total _ _ E L) H1). reflexivity.
Qed.

Lemma map_of_sorted l : sorted_keys (map_of l) = true.
Proof.
  apply (fold_left_inv _ (fun m => sorted_keys m = true)); [|reflexivity].
  intros m kv. apply map_set_sorted.
Qed.

Lemma map_set_head k v a m : bytes_ltb (fst a) k = true -> map_set k v (a :: m) = a :: map_set k v m.
Proof.
  destruct a as [k' v']. cbn [fst map_set]. intro H.
  rewrite bytes_eqb_sym, (bytes_ltb_neq _ _ H), (bytes_ltb_asym _ _ H). reflexivity.
Qed.

Lemma map_set_above k v m :
  (forall kv, In kv m -> bytes_ltb (fst kv) k = true) -> map_set k v m = m ++ [(k, v)].
Proof.
  induction m as [|a m IH]; intro H; [reflexivity|].
  rewrite map_set_head, IH; auto using in_eq, in_cons.
Qed.

Lemma fold_map_set_head a l : keys_lt (fst a) l = true -> forall acc,
  fold_left (fun m kv => map_set (fst kv) (snd kv) m) l (a :: acc) =
  a :: fold_left (fun m kv => map_set (fst kv) (snd kv) m) l acc.
Proof.
  induction l as [|kv l IH]; intros H acc; [reflexivity|]. cbn [keys_lt forallb] in H.
  apply andb_true_iff in H. destruct H as [H1 H2]. cbn [fold_left]. rewrite (map_set_head _ _ _ _ H1).
  apply IH, H2.
Qed.

(* folding a sorted list rebuilds it: its head stays in front of everything set after it *)
Lemma map_of_id m : sorted_keys m = true -> map_of m = m.
Proof.
  induction m as [|kv m IH]; intro H; [reflexivity|]. cbn [sorted_keys] in H.
  apply andb_true_iff in H. destruct H as [H1 H2]. unfold map_of. cbn [fold_left map_set].
  rewrite <- surjective_pairing, (fold_map_set_head kv m H1). f_equal. apply IH, H2.
Qed.

Lemma sorted_filter p m : sorted_keys m = true -> sorted_keys (filter p m) = true.
Proof.
  induction m as [|kv r IH]; intro Hs; cbn [filter sorted_keys] in *; [reflexivity|].
  apply andb_true_iff in Hs. destruct Hs as [H1 H2]. destruct (p kv); cbn [sorted_keys]; [|auto].
  rewrite (IH H2), andb_true_r. unfold keys_lt in *. rewrite forallb_forall in *.
  intros x Hin. apply H1. exact (proj1 (proj1 (filter_In _ _ _) Hin)).
Qed.

Lemma fold_map_set_In x l : forall acc,
  In x (fold_left (fun m kv => map_set (fst kv) (snd kv) m) l acc) -> In x acc \/ In x l.
Proof.
  induction l as [|[k v] l IH]; intros acc H; cbn [fold_left] in H; [left; exact H|].
  destruct (IH _ H) as [Hin|Hin]; [|right; right; exact Hin].
  destruct (map_set_In _ _ _ _ Hin) as [->|Hacc]; [right; left; reflexivity|left; exact Hacc].
Qed.

Lemma map_of_In x l : In x (map_of l) -> In x l.
Proof. intro H. destruct (fold_map_set_In x l [] H) as [[]|Hin]. exact Hin. Qed.

Lemma filter_map_filter {A B} (p : B -> bool) (q : A -> bool) (g : A -> B) l :
  (forall x, p (g x) = q x) -> filter p (map g (filter q l)) = map g (filter q l).
Proof.
  intro H. induction l as [|x l IH]; [reflexivity|]. cbn [filter]. destruct (q x) eqn:E; [|exact IH].
  cbn [map filter]. rewrite H, E, IH. reflexivity.
Qed.

Lemma nonempty_texts_idem l : nonempty_texts (nonempty_texts l) = nonempty_texts l.
Proof.
  unfold nonempty_texts. rewrite <- (map_id (filter _ l)). apply filter_map_filter.
  reflexivity.
Qed.

Lemma nonempty_texts_clean l : nonempty_texts (map clean_pair (nonempty_texts l)) = map clean_pair (nonempty_texts l).
Proof.
  apply filter_map_filter. intro kv. cbn [clean_pair snd]. rewrite clean_text_is_empty.
  reflexivity.
Qed.

Lemma cond_or_default_idem c : cond_or_default (cond_or_default c) = cond_or_default c.
Proof. unfold cond_or_default. destruct c; reflexivity. Qed.

Lemma norm_error_idem e : norm_error (norm_error e) = norm_error e.
Proof.
  unfold norm_error. cbn [e_by e_typ e_cond e_text]. rewrite cond_or_default_idem. f_equal.
  rewrite map_of_id; [apply nonempty_texts_idem|]. apply sorted_filter. apply map_of_sorted.
Qed.

Lemma norm_stream_idem s : norm_stream (norm_stream s) = norm_stream s.
Proof.
  unfold norm_stream. cbn [st_err st_text st_content].
  destruct (bytes_eqb (st_err s) L_soh); reflexivity.
Qed.

(* a payload element stays outside name space [ns] when written under default name space [d] *)
Definition foreign (ns d : bytes) (t : tree) : bool :=
  match t with
  | Text _ => true
  | Elem n _ _ => negb (bytes_eqb (if is_empty (nspace n) then d else nspace n) ns)
  end.

(* Both error decoders pass over character data and over the elements outside one name space: of a child
   list they see [own ns].  Neither [merge_text], which only drops, joins or keeps character data, nor a
   foreign payload changes it. *)
Definition inside (ns : bytes) (t : tree) : bool :=
  match t with Text _ => false | Elem n _ _ => bytes_eqb (nspace n) ns end.

Definition own (ns : bytes) : list tree -> list tree := filter (inside ns).

Lemma own_app ns a b : own ns (a ++ b) = own ns a ++ own ns b.
Proof. apply filter_app. Qed.

Lemma own_merge ns l : own ns (merge_text l) = own ns l.
Proof.
  induction l as [|[n a ks|s] r IH]; [reflexivity| |].
  - cbn [merge_text own filter]. fold (own ns). rewrite IH. reflexivity.
  - cbn [own filter inside]. fold (own ns). rewrite <- IH. destruct s as [|b s]; [reflexivity|].
    cbn [merge_text]. destruct (merge_text r) as [|[n a ks|s'] r']; reflexivity.
Qed.

Lemma own_foreign ns d f : forallb (foreign ns d) f = true -> own ns (map (wire d) f) = [].
Proof.
  induction f as [|t f IH]; intro H; [reflexivity|]. cbn [forallb] in H. apply andb_true_iff in H.
  destruct H as [H1 H2]. cbn [map own filter]. fold (own ns).
  destruct t as [n a ks|s]; [apply negb_true_iff in H1; cbn [wire inside nspace]; rewrite H1|]; apply IH, H2.
Qed.

Lemma text_entries_own ks : text_entries (own NS_SE ks) = text_entries ks.
Proof.
  induction ks as [|[n a cs|s] r IH]; [reflexivity| |exact IH].
  cbn [own filter inside text_entries]. fold (own NS_SE). unfold is_se_text.
  destruct (bytes_eqb (nspace n) NS_SE) eqn:E; [|rewrite andb_false_r; exact IH].
  cbn [text_entries]. unfold is_se_text. rewrite E, IH. reflexivity.
Qed.

Lemma text_entries_app a b : text_entries (a ++ b) = text_entries a ++ text_entries b.
Proof.
  induction a as [|t a IH]; [reflexivity|].
  destruct t as [n at_ ks|s]; cbn [app text_entries]; [|exact IH].
  destruct (is_se_text n); rewrite IH; reflexivity.
Qed.

Lemma wire_se_text_entries d l : text_entries (map (wire d) (map se_text_el l)) = map clean_pair l.
Proof.
  induction l as [|[k x] l IH]; [reflexivity|]. cbn [map]. unfold se_text_el at 1.
  rewrite wire_text_el by reflexivity.
  cbn [text_entries]. change (is_se_text (mkname NS_SE L_text)) with true. cbn iota.
  rewrite last_lang_attr, chardata_merge_single, IH. reflexivity.
Qed.

Lemma unmarshal_error_wire parse d e f :
  jid_okc parse (e_by e) ->
  bytes_eqb (cond_or_default (e_cond e)) L_text = false ->
  forallb (foreign NS_SE d) f = true ->
  unmarshal_error parse (wire d (error_tree e f)) =
  Some (mkse (clean_text (e_by e)) (clean_text (e_typ e)) (cond_or_default (e_cond e))
             (map_of (map clean_pair (nonempty_texts (map_of (e_text e)))))).
Proof.
  intros Hby Hc Hf. unfold error_tree. rewrite wire_elem.
  change (if is_empty (nspace error_name) then d else nspace error_name) with d.
  unfold unmarshal_error, error_children.
  assert (Hn : is_se_text (mkname NS_SE (cond_or_default (e_cond e))) = false)
    by (unfold is_se_text; cbn [nspace nlocal]; rewrite Hc; reflexivity).
  (* texts: the payload is not seen; condition: its element comes first and is not a <text/> *)
  rewrite <- text_entries_own, own_merge, map_app, own_app, (own_foreign _ _ _ Hf), app_nil_r, text_entries_own.
  cbn [app map]. rewrite wire_elem. cbn [nspace nlocal merge_text any_names text_entries].
  replace (is_empty NS_SE) with false by reflexivity. rewrite Hn. cbn [first_cond nspace nlocal].
  rewrite bytes_eqb_refl, wire_se_text_entries, nonempty_texts_clean.
  unfold error_attrs, wire_attrs, jid_okc in *. cbn [nspace is_empty app].
  destruct (e_typ e) as [|t0 ty], (e_by e) as [|b0 by_];
    try (destruct Hby as [Hby|Hby]; [discriminate|]).
  all: cbn -[clean_text map_of]; rewrite ?clean_text_is_empty; cbn -[clean_text map_of];
    rewrite ?Hby; reflexivity.
Qed.

Definition text_clean (kv : bytes * bytes) : bool := xml_clean (fst kv) && xml_clean (snd kv).

Definition error_clean (e : serror) : bool :=
  xml_clean (e_by e) && xml_clean (e_typ e) && forallb text_clean (e_text e).

Lemma map_clean_id l : (forall kv, In kv l -> text_clean kv = true) -> map clean_pair l = l.
Proof.
  intro H. rewrite <- (map_id l) at 2. apply map_ext_in. intros [a b] Hin.
  apply H, andb_true_iff in Hin. destruct Hin as [H1 H2]. unfold clean_pair. cbn [fst snd] in *.
  rewrite (xml_clean_eq _ H1), (xml_clean_eq _ H2). reflexivity.
Qed.

Lemma unmarshal_error_roundtrip parse d e f :
  error_clean e = true -> jid_ok parse (e_by e) ->
  bytes_eqb (cond_or_default (e_cond e)) L_text = false ->
  forallb (foreign NS_SE d) f = true ->
  unmarshal_error parse (wire d (error_tree e f)) = Some (norm_error e).
Proof.
  intros Hcl Hby Hc Hf. unfold error_clean in Hcl. apply andb_true_iff in Hcl. destruct Hcl as [Hcl Ht].
  apply andb_true_iff in Hcl. destruct Hcl as [Hb Hy].
  rewrite unmarshal_error_wire; auto.
  - rewrite (xml_clean_eq _ Hb), (xml_clean_eq _ Hy). unfold norm_error. f_equal. f_equal.
    rewrite map_clean_id.
    + apply map_of_id. apply sorted_filter. apply map_of_sorted.
    + intros kv Hin. unfold nonempty_texts in Hin. apply filter_In in Hin. destruct Hin as [Hin _].
      apply map_of_In in Hin. rewrite forallb_forall in Ht. apply Ht. exact Hin.
  - unfold jid_okc. rewrite (xml_clean_eq _ Hb). exact Hby.
Qed.

Lemma unmarshal_error_iter_reply parse k v e :
  error_clean e = true -> jid_ok parse (e_by e) ->
  bytes_eqb (cond_or_default (e_cond e)) L_text = false ->
  exists n at_ ks,
    wire [] (Elem (start_name k (reply v L_error)) (start_attrs k (reply v L_error)) [error_tree e []]) =
      Elem n at_ ks /\
    unmarshal_error_iter parse ks = Some (norm_error e).
Proof.
  intros Hcl Hby Hc. rewrite wire_elem. eexists _, _, _. split; [reflexivity|].
  cbn [map].
  set (d := if is_empty (nspace (start_name k (reply v L_error))) then []
            else nspace (start_name k (reply v L_error))).
  pose proof (unmarshal_error_roundtrip parse d e [] Hcl Hby Hc eq_refl) as H.
  unfold error_tree in *. rewrite wire_elem in *. cbn [merge_text].
  cbn [unmarshal_error_iter nlocal error_name].
  replace (bytes_eqb L_error L_error) with true by reflexivity. exact H.
Qed.

Lemma ste_loop_own ks : forall acc, ste_loop (own NS_STE ks) acc = ste_loop ks acc.
Proof.
  induction ks as [|[n a cs|s] r IH]; intro acc; [reflexivity| |apply IH].
  cbn [own filter inside ste_loop]. fold (own NS_STE).
  destruct (bytes_eqb (nspace n) NS_STE) eqn:E; [|apply IH].
  cbn [ste_loop]. rewrite E, !IH. reflexivity.
Qed.

Lemma ste_loop_app a : forall b acc, ste_loop (a ++ b) acc = ste_loop b (ste_loop a acc).
Proof.
  induction a as [|t a IH]; intros b acc; [reflexivity|].
  destruct t as [n at_ ks|s]; cbn [app ste_loop]; [|apply IH].
  destruct (bytes_eqb (nspace n) NS_STE);
    [destruct (bytes_eqb (nlocal n) L_soh); [|destruct (bytes_eqb (nlocal n) L_text)]|]; apply IH.
Qed.

Lemma ste_loop_text_el a cs r acc :
  ste_loop (Elem (mkname NS_STE L_text) a cs :: r) acc =
  ste_loop r (mkste (st_err acc) (st_text acc ++ [(last_attr is_xml_lang a [], chardata cs)]) (st_content acc)).
Proof. reflexivity. Qed.

Lemma ste_loop_texts d l : forall acc,
  ste_loop (map (wire d) (map ste_text_el l)) acc =
  mkste (st_err acc) (st_text acc ++ map clean_pair l) (st_content acc).
Proof.
  induction l as [|[k x] l IH]; intro acc.
  - cbn [map ste_loop]. rewrite app_nil_r. destruct acc; reflexivity.
  - cbn [map]. unfold ste_text_el at 1. rewrite wire_text_el by reflexivity.
    rewrite ste_loop_text_el, last_lang_attr, chardata_merge_single, IH. cbn [st_err st_text st_content].
    rewrite <- app_assoc. reflexivity.
Qed.

Lemma unmarshal_stream_error_wire d s f :
  bytes_eqb (st_err s) L_text = false ->
  forallb (foreign NS_STE NS_STREAM) f = true ->
  unmarshal_stream_error (wire d (stream_error_tree s f)) =
  Some (mkste (st_err s) (map clean_pair (st_text s))
              (if bytes_eqb (st_err s) L_soh then clean_text (st_content s) else [])).
Proof.
  intros Hc Hf. unfold stream_error_tree. rewrite wire_elem.
  change (if is_empty (nspace stream_error_name) then d else nspace stream_error_name) with NS_STREAM.
  unfold unmarshal_stream_error. f_equal.
  (* the merging of character data is not seen; the condition is read; the payload is not seen *)
  rewrite <- ste_loop_own, own_merge, ste_loop_own. cbn [map]. rewrite wire_elem.
  cbn [nspace nlocal map wire ste_loop]. replace (is_empty NS_STE) with false by reflexivity.
  replace (bytes_eqb NS_STE NS_STE) with true by reflexivity. rewrite Hc, chardata_merge_single.
  destruct (bytes_eqb (st_err s) L_soh) eqn:E;
    rewrite <- ste_loop_own, map_app, own_app, (own_foreign _ _ _ Hf), app_nil_l, ste_loop_own, ste_loop_texts;
    [apply bytes_eqb_eq in E; rewrite E|]; reflexivity.
Qed.

Definition stream_clean (s : sterror) : bool := xml_clean (st_content s) && forallb text_clean (st_text s).

Lemma unmarshal_stream_error_roundtrip d s f :
  stream_clean s = true -> bytes_eqb (st_err s) L_text = false ->
  forallb (foreign NS_STE NS_STREAM) f = true ->
  unmarshal_stream_error (wire d (stream_error_tree s f)) = Some (norm_stream s).
Proof.
  intros Hcl Hc Hf. rewrite unmarshal_stream_error_wire; auto. unfold stream_clean in Hcl.
  apply andb_true_iff in Hcl.
  destruct Hcl as [H1 H2]. unfold norm_stream. rewrite (xml_clean_eq _ H1).
  rewrite map_clean_id; [reflexivity|].
  rewrite forallb_forall in H2. exact H2.
Qed.

Lemma mem_not_text c l : mem L_text l = false -> mem c l = true -> bytes_eqb c L_text = false.
Proof. intros N H. apply bytes_eqb_neq. intros ->. rewrite N in H. discriminate. Qed.
