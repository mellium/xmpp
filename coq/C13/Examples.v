(* C13/Examples.v — non-vacuity of every hypothesis used in Properties.v and
   worked examples (RFC 6120 §4.9.3 / §8.3.2 style values). *)
From XV Require Import lib.Bytes gen.Stanza gen.StanzaAlloc C13.Xml C13.Model C13.Proofs C13.Cross C13.Heap.

Definition idp : jparse := fun s => Some s.

(* a client IQ with XML-special and non-ASCII text in its fields *)
Definition ex_iq : stanza :=
  mkst NS_CLIENT L_iq (str "a<b&""c'") (str "juliet@capulet.example/balcony") (str "romeo@montague.example")
       (str "en") (str "set").
Definition ex_payload : list tree :=
  [Elem (mkname (str "urn:xmpp:ping") (str "ping")) [] []; Text (str " "); Elem (mkname [] (str "plain")) [lattr L_id (str "x<y")] [Text (str "a"); Text []; Text (str "b")]].

Example ex_hyps_stanza :
  jid_ok idp (s_to ex_iq) /\ jid_okc idp (s_from ex_iq) /\ type_defined KIQ ex_iq = true /\
  stanza_clean ex_iq = true /\ forallb wf_tree ex_payload = true /\ forallb wire_ok ex_payload = true.
Proof. repeat split; try (right; reflexivity); vm_compute; reflexivity. Qed.

Example ex_roundtrip_iq :
  unmarshal_stanza KIQ idp (wire [] (Elem (start_name KIQ ex_iq) (start_attrs KIQ ex_iq) ex_payload)) = Some ex_iq.
Proof. vm_compute. reflexivity. Qed.

(* adjacent and empty character data merge on the wire *)
Example ex_wire_merges :
  wire [] (Elem (mkname [] (str "plain")) [] [Text (str "a"); Text []; Text (str "b")]) =
  Elem (mkname [] (str "plain")) [] [Text (str "ab")].
Proof. vm_compute. reflexivity. Qed.

(* text XML cannot carry is replaced by U+FFFD, byte by byte where the UTF-8 is broken *)
Example ex_clean_text :
  clean_text [x61; x00; xff; xc3; xa9; xed; xa0; x80; xef; xbf; xbe]%byte =
  [x61] ++ fffd ++ fffd ++ [xc3; xa9] ++ fffd ++ fffd ++ fffd ++ fffd.
Proof. vm_compute. reflexivity. Qed.

Example ex_message_default_type :
  new_stanza KMessage idp (mkname NS_CLIENT L_message) [lattr L_type (str "bogus")] =
  Some (mkst NS_CLIENT L_message [] [] [] [] L_normal).
Proof. vm_compute. reflexivity. Qed.

(* a stanza error with several languages, an empty text and an application condition *)
Definition ex_err : serror :=
  mkse (str "example.net") (str "modify") (str "gone")
       [(str "en", str "moved <away>"); ([], str "xmpp:romeo@afterlife.example.net"); (str "de", [])].
Definition ex_app : list tree := [Elem (mkname (str "urn:example:app") (str "too-many-parameters")) [] []].

Example ex_hyps_error :
  error_clean ex_err = true /\ jid_ok idp (e_by ex_err) /\ mem (cond_or_default (e_cond ex_err)) SE_CONDS = true /\
  forallb (foreign NS_SE NS_CLIENT) ex_app = true /\ forallb (foreign NS_SE []) ex_app = true.
Proof. repeat split; try (right; reflexivity); vm_compute; reflexivity. Qed.

Example ex_error_roundtrip :
  unmarshal_error idp (wire [] (error_tree ex_err ex_app)) =
  Some (mkse (str "example.net") (str "modify") (str "gone")
             [([], str "xmpp:romeo@afterlife.example.net"); (str "en", str "moved <away>")]).
Proof. vm_compute. reflexivity. Qed.

Example ex_norm_error_default : e_cond (norm_error (mkse [] [] [] [])) = L_undefined.
Proof. reflexivity. Qed.

(* the defined-constant premises are needed: a condition that is not a name breaks
   well-formedness, and the condition "text" is mistaken for a text element *)
Example ex_bad_condition_not_wf : wf_tree (error_tree (mkse [] [] (str "a b><c") []) []) = false.
Proof. vm_compute. reflexivity. Qed.

Example ex_condition_text_lost :
  unmarshal_error idp (wire [] (error_tree (mkse [] (str "cancel") L_text [([], str "a")]) [])) =
  Some (mkse [] (str "cancel") [] [([], str "a")]).
Proof. vm_compute. reflexivity. Qed.

(* a payload in the stanza-error name space is not foreign, and is indeed read as a text *)
Example ex_payload_not_foreign :
  forallb (foreign NS_SE []) [Elem (mkname NS_SE L_text) [] [Text (str "smuggled")]] = false /\
  unmarshal_error idp (wire [] (error_tree (mkse [] [] (str "gone") []) [Elem (mkname NS_SE L_text) [] [Text (str "smuggled")]])) =
  Some (mkse [] [] (str "gone") [([], str "smuggled")]).
Proof. split; vm_compute; reflexivity. Qed.

(* stream errors: see-other-host keeps its content, an application payload sits between condition and texts *)
Definition ex_ste : sterror := mkste L_soh [(str "en", str "moved"); ([], [])] (str "[2001:41d0:1:a49b::1]:9222").

Example ex_hyps_stream :
  stream_clean ex_ste = true /\ mem (st_err ex_ste) STE_CONDS = true /\ forallb (foreign NS_STE NS_STREAM) ex_app = true.
Proof. repeat split; vm_compute; reflexivity. Qed.

Example ex_stream_roundtrip : unmarshal_stream_error (wire [] (stream_error_tree ex_ste ex_app)) = Some ex_ste.
Proof. vm_compute. reflexivity. Qed.

Example ex_stream_content_dropped :
  unmarshal_stream_error (wire [] (stream_error_tree (mkste (str "host-gone") [] (str "x")) [])) = Some (mkste (str "host-gone") [] []).
Proof. vm_compute. reflexivity. Qed.

(* UnmarshalError: character data before the error element is passed over *)
Example ex_unmarshal_error_chardata :
  unmarshal_error_iter idp [Text (str " "); Elem (mkname NS_CLIENT L_error) [lattr L_type (str "cancel")]
                              [Elem (mkname NS_SE (str "bad-request")) [] []]] =
  Some (mkse [] (str "cancel") (str "bad-request") []).
Proof. vm_compute. reflexivity. Qed.

(* IQ.Result swaps the addresses *)
Example ex_result_swaps :
  result_tokens ex_iq [] =
  [TStart (mkname NS_CLIENT L_iq)
     [lattr L_type L_result; lattr L_to (str "romeo@montague.example"); lattr L_from (str "juliet@capulet.example/balcony");
      lattr L_id (str "a<b&""c'"); mkattr (mkname NS_XML L_lang) (str "en")];
   TEnd (mkname NS_CLIENT L_iq)].
Proof. vm_compute. reflexivity. Qed.

(* histories: two error replies and a stream error are built up front, read
   in another order and in pieces; every reader delivers its own value *)
Definition ex_err_a : serror := mkse (str "first.example.net") (str "cancel") (str "item-not-found") [].
Definition ex_err_b : serror := mkse [] (str "auth") (str "forbidden") [([], str "no <&> entry"); (str "de", str "kein Zutritt")].
Definition ex_history : list hop :=
  [HErrReply KIQ ex_iq ex_err_a; HErr ex_err_b [TText (str "x")]; HRead 0 1;
   HStream (mkste (str "host-gone") [(str "en", str "bye")] []) []; HStart KMessage ex_iq;
   HRead 1 100; HRead 0 2; HRead 2 100; HRead 0 100; HRead 3 1].

Example ex_history_creations : length (filter is_creation ex_history) = 4.
Proof. reflexivity. Qed.

Example ex_history_reads :
  reads_of 0 (snd (run_hist src_origins ex_history)) = error_reply_tokens KIQ ex_iq ex_err_a /\
  reads_of 1 (snd (run_hist src_origins ex_history)) = error_tokens ex_err_b [TText (str "x")] /\
  reads_of 2 (snd (run_hist src_origins ex_history)) = stream_error_tokens (mkste (str "host-gone") [(str "en", str "bye")] []) [] /\
  reads_of 3 (snd (run_hist src_origins ex_history)) = [TStart (start_name KMessage ex_iq) (start_attrs KMessage ex_iq)].
Proof. repeat split; vm_compute; reflexivity. Qed.

(* in-place append is really modelled: a slice with spare capacity shares its array *)
Example ex_append_in_place :
  let (h1, s0) := origin_slice (OFresh 2) [] in
  let (h2, s1) := sl_append h1 s0 (lattr L_type (str "cancel")) in
  let (h3, s2) := sl_append h2 s0 (lattr L_type (str "auth")) in
  sl_read h3 s1 = [lattr L_type (str "auth")] /\ length h3 = 1.
Proof. vm_compute. split; reflexivity. Qed.

(* and growth beyond the capacity is a new array: the old slice keeps its contents *)
Example ex_append_grows :
  let (h1, s0) := origin_slice (OFresh 0) [] in
  let (h2, s1) := sl_append h1 s0 (lattr L_type (str "cancel")) in
  let (h3, s2) := sl_append h2 s0 (lattr L_type (str "auth")) in
  sl_read h3 s1 = [lattr L_type (str "cancel")] /\ sl_read h3 s2 = [lattr L_type (str "auth")] /\ length h3 = 3.
Proof. vm_compute. repeat split; reflexivity. Qed.

(* cross-decoding: New* on the marshalled form of an IQ with a language tag;
   with the name space of the Lang tag removed the language is lost *)
Example ex_new_of_marshalled :
  new_of_tree KIQ idp (wire [] (marshal_tree KIQ ex_iq)) = Some (set_ns ex_iq []).
Proof. vm_compute. reflexivity. Qed.

Example ex_lang_tag_space_needed :
  let v := mkst [] L_iq (str "1") [] [] (str "de-CH") L_get in
  new_of_tree KIQ idp (wire [] (Elem (mkname [] L_iq) (flat_map (marshal_field v) (lang_tag_without_space iq_schema)) [])) =
  Some (set_lang v []).
Proof. vm_compute. reflexivity. Qed.
