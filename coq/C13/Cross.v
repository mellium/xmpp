(* C13/Cross.v — the two encodings carry the same attribute names, and both decoders read both to the
   same value.  xml.Unmarshal offers an attribute of any name space to a field whose tag has none, so the
   struct decoder reads `lang=".."` and `xml:lang=".."` alike; the start element parser New* does not.
   Both attribute lists are [field_attrs] of a table of fields (order, left out when empty or not).  Such a
   list is decoded one attribute at a time with New* ([new_loop]), whose steps hold by computation, and the
   result is carried over to xml.Unmarshal by [new_loop_assign]. *)
From XV Require Import lib.Bytes gen.Stanza C13.Xml C13.Model C13.Proofs.

(* the attribute name IQ/Message/Presence.StartElement gives each field *)
Definition start_attr_name (f : fsel) : name :=
  match f with
  | FID => mkname [] L_id
  | FTo => mkname [] L_to
  | FFrom => mkname [] L_from
  | FLang => mkname NS_XML L_lang
  | FType => mkname [] L_type
  end.

Definition field_named_as_start (f : afield) : bool :=
  name_eqb (mkname (f_space f) (f_local f)) (start_attr_name (f_sel f)).

Definition has_field (s : list afield) (x : fsel) : bool :=
  existsb (fun f => match f_sel f, x with
                    | FID, FID | FTo, FTo | FFrom, FFrom | FLang, FLang | FType, FType => true
                    | _, _ => false end) s.

Definition schema_ok (s : list afield) : bool :=
  forallb field_named_as_start s &&
  has_field s FID && has_field s FTo && has_field s FFrom && has_field s FLang && has_field s FType.

(* table lemma: the struct tags of the source name every attribute as StartElement does;
   in particular the Lang field of all three types is `http://www.w3.org/XML/1998/namespace lang,attr` *)
Lemma schema_names_are_start_names :
  schema_ok iq_schema = true /\ schema_ok message_schema = true /\ schema_ok presence_schema = true.
Proof. vm_compute. repeat split; reflexivity. Qed.

Lemma schema_fields_named k f : In f (schema_of k) -> mkname (f_space f) (f_local f) = start_attr_name (f_sel f).
Proof.
  intro Hin. apply name_eqb_eq. revert f Hin. apply forallb_forall.
  (* each kind takes its conjunct by name: [assumption] would first try those of the other kinds, and
     telling them apart compares two whole tables *)
  assert (H : schema_ok (schema_of k) = true)
    by (destruct schema_names_are_start_names as (A & B & C), k; [exact A | exact B | exact C]).
  unfold schema_ok in H. do 5 apply andb_prop, proj1 in H. exact H.
Qed.

(* the attribute of one field; [fst]: left out when the field is empty *)
Definition field_attr (v : stanza) (of : bool * fsel) : list attr :=
  if fst of && is_empty (get_field v (snd of)) then []
  else [mkattr (start_attr_name (snd of)) (get_field v (snd of))].

Definition field_attrs (l : list (bool * fsel)) (v : stanza) : list attr := flat_map (field_attr v) l.

(* IQ/Message/Presence.StartElement *)
Definition start_fields (k : kind) : list (bool * fsel) :=
  [(match k with KPresence => true | _ => false end, FType); (true, FTo); (true, FFrom); (true, FID); (true, FLang)].

Lemma start_attrs_fields k v : start_attrs k v = field_attrs (start_fields k) v.
Proof. unfold field_attrs. cbn [start_fields flat_map]. rewrite app_nil_r. destruct k; reflexivity. Qed.

Lemma field_attrs_names l v a : In a (field_attrs l v) -> exists f, aname a = start_attr_name f.
Proof.
  intro H. apply in_flat_map in H. destruct H as ([o f] & _ & H). exists f. unfold field_attr in H.
  destruct (_ && _); [destruct H|destruct H as [<-|[]]; reflexivity].
Qed.

Lemma start_attrs_names k v a :
  In a (start_attrs k v) -> exists f, aname a = start_attr_name f.
Proof. rewrite start_attrs_fields. apply field_attrs_names. Qed.

Lemma marshal_attrs_names k v a :
  In a (flat_map (marshal_field v) (schema_of k)) -> exists f, aname a = start_attr_name f.
Proof.
  intro H. apply in_flat_map in H. destruct H as (f & Hf & Ha).
  exists (f_sel f). rewrite <- (schema_fields_named k f Hf).
  unfold marshal_field in Ha. destruct (f_kind f);
    try (destruct (f_omit f && is_empty (get_field v (f_sel f))));
    cbn in Ha; intuition; subst; reflexivity.
Qed.

Lemma set_field_same v f x : get_field v f = x -> set_field v f x = v.
Proof. intros <-. destruct v, f; reflexivity. Qed.

Lemma new_loop_text k parse ns f x r v :
  f = FID \/ f = FLang ->
  new_loop k parse ns (mkattr (start_attr_name f) x :: r) v = new_loop k parse ns r (set_field v f x).
Proof. intros [-> | ->]; reflexivity. Qed.

Lemma new_loop_type k parse ns x r v :
  new_loop k parse ns (mkattr (start_attr_name FType) x :: r) v =
  new_loop k parse ns r (set_typ v (match k with KMessage => msg_default x | _ => x end)).
Proof. reflexivity. Qed.

(* an empty JID is passed over, so the field has to be empty already *)
Lemma new_loop_jid k parse ns f x r v :
  f = FTo \/ f = FFrom -> jid_ok parse x -> (x = [] -> get_field v f = []) ->
  new_loop k parse ns (mkattr (start_attr_name f) x :: r) v = new_loop k parse ns r (set_field v f x).
Proof.
  intros Hf Hx Hv. destruct x as [|b x].
  - rewrite (set_field_same _ _ _ (Hv eq_refl)). destruct Hf as [-> | ->]; reflexivity.
  - destruct Hx as [Hx|Hx]; [discriminate|].
    destruct Hf as [-> | ->]; cbn; rewrite Hx; reflexivity.
Qed.

(* gen/Stanza.v holds the names of the struct tags as [hex ".."]; computing with the schemas in this form
   decodes them again for every field of every case, so the proofs that do compute start from the tables
   evaluated once *)
Definition schema_nf (k : kind) : list afield := Eval vm_compute in schema_of k.

Lemma schema_of_nf k : schema_of k = schema_nf k.
Proof. destruct k; vm_compute; reflexivity. Qed.

Lemma assign_fields_xmlns k parse x v : assign_fields parse (schema_of k) (mkattr xmlns_name x) v = Some v.
Proof. destruct k; reflexivity. Qed.

Lemma new_loop_as_assign_fields k parse ns f x r v :
  new_loop k parse ns (mkattr (start_attr_name f) x :: r) v =
  match assign_fields parse (schema_of k) (mkattr (start_attr_name f) x) v with
  | Some v' => new_loop k parse ns r v'
  | None => None
  end.
Proof.
  (* id, lang, type: both sides compute.  to, from: both pass over an empty value and call [parse] otherwise *)
  rewrite schema_of_nf. destruct f, k; try reflexivity.
  all: destruct x as [|b x]; [reflexivity|].
  all: cbn; destruct (parse (b :: x)); reflexivity.
Qed.

Definition start_named (a : attr) : Prop := aname a = xmlns_name \/ exists f, aname a = start_attr_name f.

Lemma new_loop_assign k parse ns at_ :
  Forall start_named at_ -> forall v, new_loop k parse ns at_ v = assign_attrs parse (schema_of k) at_ v.
Proof.
  induction 1 as [|[n x] r Hn _ IH]; intro v; [reflexivity|].
  cbn [assign_attrs]. destruct Hn as [E|[f E]]; cbn [aname] in E; subst n.
  - rewrite assign_fields_xmlns. apply IH.
  - rewrite new_loop_as_assign_fields. destruct (assign_fields _ _ _ _); [apply IH|reflexivity].
Qed.

Definition root_name (t : tree) : name := match t with Elem n _ _ => n | Text _ => mkname [] [] end.
Definition root_attrs (t : tree) : list attr := match t with Elem _ a _ => a | Text _ => [] end.

(* New*(start) where start is the first token of the document *)
Definition new_of_tree (k : kind) (parse : jparse) (t : tree) : option stanza :=
  new_stanza k parse (root_name t) (root_attrs t).

Lemma get_field_clean v f : get_field (clean_stanza v) f = clean_text (get_field v f).
Proof. destruct f; reflexivity. Qed.

Lemma wire_field_attrs n l v :
  wire_attrs n (field_attrs l v) =
  (if is_empty (nspace n) then [] else [mkattr xmlns_name (clean_text (nspace n))]) ++ field_attrs l (clean_stanza v).
Proof.
  unfold wire_attrs. f_equal. induction l as [|[o f] l IH]; [reflexivity|]. unfold field_attrs in *.
  cbn [flat_map]. rewrite filter_app, map_app, IH. f_equal. unfold field_attr. cbn [fst snd].
  rewrite get_field_clean, clean_text_is_empty. destruct (o && _); [reflexivity|].
  destruct f; reflexivity.
Qed.

Lemma wire_start_attrs k v :
  wire_attrs (start_name k v) (start_attrs k v) =
  (if is_empty (s_ns v) then [] else [mkattr xmlns_name (clean_text (s_ns v))]) ++ start_attrs k (clean_stanza v).
Proof. rewrite !start_attrs_fields. apply wire_field_attrs. Qed.

Lemma unmarshal_stanza_kind k parse ns at_ ks :
  unmarshal_stanza k parse (Elem (mkname ns (kind_local k)) at_ ks) =
  assign_attrs parse (schema_of k) at_ (mkst ns (kind_local k) [] [] [] [] []).
Proof. destruct k; reflexivity. Qed.

Lemma if_empty_self s : (if is_empty s then [] else s) = s.
Proof. destruct s; reflexivity. Qed.

Lemma jid_okc_clean parse j : jid_okc parse j -> jid_ok parse (clean_text j).
Proof. intros [->|H]; [left; reflexivity|right; exact H]. Qed.

Lemma new_loop_xmlns k parse ns (x y : bytes) r v :
  new_loop k parse ns ((if is_empty x then [] else [mkattr xmlns_name y]) ++ r) v = new_loop k parse ns r v.
Proof. destruct x; reflexivity. Qed.

Lemma type_clean k t : mem t (kind_types k) = true -> clean_text t = t.
Proof.
  intro H. apply xml_clean_eq. destruct type_tables_clean as (C1 & C2 & C3 & _).
  destruct k; [exact (mem_forallb _ _ _ C1 H)|exact (mem_forallb _ _ _ C2 H)|exact (mem_forallb _ _ _ C3 H)].
Qed.

Lemma get_set_field w g x f :
  get_field (set_field w g x) f = x /\ f = g \/ get_field (set_field w g x) f = get_field w f.
Proof. destruct f, g; auto. Qed.

Section Decode.
  Variables (k : kind) (parse : jparse) (ns : bytes) (v : stanza).
  Hypothesis Hto : jid_ok parse (s_to v).
  Hypothesis Hfrom : jid_ok parse (s_from v).
  Hypothesis Hm : k = KMessage -> mem (s_typ v) MSG_TYPES = true.

  (* [w] is empty wherever [v] is.  Then an attribute that is left out because it is empty, and an empty JID
     that is passed over, leave the field as [v] has it; and every assignment of a field of [v] keeps this. *)
  Definition below (w : stanza) : Prop := forall f, get_field v f = [] -> get_field w f = [].

  Lemma new_loop_field f r w :
    below w ->
    new_loop k parse ns (mkattr (start_attr_name f) (get_field v f) :: r) w =
    new_loop k parse ns r (set_field w f (get_field v f)).
  Proof.
    intro Hw. destruct f.
    - apply new_loop_text. auto.
    - apply new_loop_jid; auto.
    - apply new_loop_jid; auto.
    - apply new_loop_text. auto.
    - rewrite new_loop_type. destruct k; try reflexivity. cbn [get_field]. rewrite msg_default_defined; auto.
  Qed.

  Lemma new_loop_field_attrs l : forall w,
    below w ->
    new_loop k parse ns (field_attrs l v) w =
    Some (fold_left (fun w of => set_field w (snd of) (get_field v (snd of))) l w).
  Proof.
    induction l as [|[o f] l IH]; intros w Hw; [reflexivity|].
    unfold field_attrs. cbn [flat_map fold_left snd]. fold (field_attrs l v). rewrite <- IH.
    - unfold field_attr. cbn [fst snd]. destruct (o && is_empty (get_field v f)) eqn:E.
      + apply andb_true_iff in E. destruct E as [_ E]. destruct (get_field v f) eqn:Ex; [|discriminate E].
        rewrite set_field_same; [reflexivity|]. apply Hw. exact Ex.
      + apply new_loop_field. exact Hw.
    - intros g Hg. destruct (get_set_field w f (get_field v f) g) as [[E ->]| ->]; auto. rewrite E. exact Hg.
  Qed.

  (* the values the decoders start from: New* starts a message at type "normal", xml.Unmarshal starts every
     kind at ""; a message of defined type has a type *)
  Lemma zero_below lo t0 : (s_typ v = [] -> t0 = []) -> below (mkst ns lo [] [] [] [] t0).
  Proof. intros Ht f Hf. destruct f; auto. Qed.

  Lemma new_type_below : s_typ v = [] -> match k with KMessage => L_normal | _ => [] end = [].
  Proof. intro E. destruct k; try reflexivity. rewrite E in Hm. discriminate (Hm eq_refl). Qed.

  (* a list of attributes that sets all five fields is read by both decoders as the value it was written
     from, whatever the children and with or without an xmlns attribute in front *)
  Theorem field_attrs_decode (x y : bytes) l ks :
    (forall w, fold_left (fun w of => set_field w (snd of) (get_field v (snd of))) l w =
               mkst (s_ns w) (s_local w) (s_id v) (s_to v) (s_from v) (s_lang v) (s_typ v)) ->
    let t := Elem (mkname ns (kind_local k))
                  ((if is_empty x then [] else [mkattr xmlns_name y]) ++ field_attrs l v) ks in
    let r := mkst ns (kind_local k) (s_id v) (s_to v) (s_from v) (s_lang v) (s_typ v) in
    unmarshal_stanza k parse t = Some r /\ new_of_tree k parse t = Some r.
  Proof.
    intros Hall t r.
    assert (H : forall t0, (s_typ v = [] -> t0 = []) ->
      new_loop k parse ns ((if is_empty x then [] else [mkattr xmlns_name y]) ++ field_attrs l v)
        (mkst ns (kind_local k) [] [] [] [] t0) = Some r).
    { intros t0 Ht. rewrite new_loop_xmlns, new_loop_field_attrs, Hall by (apply zero_below; exact Ht).
      reflexivity. }
    split.
    - unfold t. rewrite unmarshal_stanza_kind, <- (new_loop_assign k parse ns); [apply H; auto|].
      apply Forall_app. split; [destruct (is_empty x); repeat constructor|].
      apply Forall_forall. intros a Ha. right. exact (field_attrs_names _ _ _ Ha).
    - apply H. exact new_type_below.
  Qed.
End Decode.

Lemma new_loop_start_attrs k parse ns lo t0 v :
  jid_ok parse (s_to v) -> jid_ok parse (s_from v) ->
  (k = KMessage -> mem (s_typ v) MSG_TYPES = true) -> (s_typ v = [] -> t0 = []) ->
  new_loop k parse ns (start_attrs k v) (mkst ns lo [] [] [] [] t0) =
  Some (mkst ns lo (s_id v) (s_to v) (s_from v) (s_lang v) (s_typ v)).
Proof.
  intros Hto Hfrom Hm Ht. rewrite start_attrs_fields.
  exact (new_loop_field_attrs k parse ns v Hto Hfrom Hm _ _ (zero_below ns v lo t0 Ht)).
Qed.

Lemma token_path k parse v f :
  jid_okc parse (s_to v) -> jid_okc parse (s_from v) ->
  (k = KMessage -> mem (s_typ v) MSG_TYPES = true) ->
  unmarshal_stanza k parse (wire [] (Elem (start_name k v) (start_attrs k v) f)) =
    Some (clean_stanza (set_local v (kind_local k))) /\
  new_of_tree k parse (wire [] (Elem (start_name k v) (start_attrs k v) f)) =
    Some (clean_stanza (set_local v (kind_local k))).
Proof.
  intros Hto Hfrom Hm. rewrite wire_elem, if_empty_self, wire_start_attrs, start_attrs_fields.
  apply (field_attrs_decode k parse _ (clean_stanza v)); try (apply jid_okc_clean; assumption).
  - intro E. cbn [clean_stanza s_typ]. rewrite (type_clean KMessage _ (Hm E)). exact (Hm E).
  - reflexivity.
Qed.

Lemma marshal_name_kind k v : marshal_name k v = mkname [] (kind_local k).
Proof. destruct k; reflexivity. Qed.

Lemma type_defined_nonempty k v : type_defined k v = true -> s_typ v = [] -> k = KPresence.
Proof.
  unfold type_defined. intros H E. rewrite E in H.
  destruct k; [discriminate H|discriminate H|reflexivity].
Qed.

(* xml.Marshal of a value of defined type: MarshalText is then the identity and a type that is tested for
   omitempty is empty only for presence *)
Definition marshal_fields (k : kind) : list (bool * fsel) :=
  [(match k with KMessage => true | _ => false end, FID); (false, FTo); (false, FFrom); (true, FLang);
   (match k with KPresence => true | _ => false end, FType)].

Lemma marshal_attrs_fields k v :
  type_defined k v = true -> flat_map (marshal_field v) (schema_of k) = field_attrs (marshal_fields k) v.
Proof.
  intro H. rewrite schema_of_nf. pose proof (type_defined_nonempty k v H) as Hn.
  destruct v as [ns lo id to from lang typ].
  cbn [s_typ] in Hn. unfold field_attrs. cbn [marshal_fields flat_map]. destruct k.
  - destruct typ; [discriminate (Hn eq_refl)|reflexivity].
  - destruct typ; [discriminate (Hn eq_refl)|].
    unfold field_attr. cbn [fst snd get_field s_id s_to s_from s_lang s_typ andb is_empty].
    (* only the type on the right; [rewrite .. at 2] is slow to check here *)
    set (t := _ :: typ) at 2. rewrite <- (msg_default_defined _ H : _ = t). reflexivity.
  - reflexivity.
Qed.

Lemma type_defined_clean k v : type_defined k v = true -> type_defined k (clean_stanza v) = true.
Proof. unfold type_defined. cbn [clean_stanza s_typ]. intro H. rewrite (type_clean k _ H). exact H. Qed.

Lemma marshal_path k parse v :
  jid_okc parse (s_to v) -> jid_okc parse (s_from v) -> type_defined k v = true ->
  unmarshal_stanza k parse (wire [] (marshal_tree k v)) =
    Some (set_ns (clean_stanza (set_local v (kind_local k))) []) /\
  new_of_tree k parse (wire [] (marshal_tree k v)) =
    Some (set_ns (clean_stanza (set_local v (kind_local k))) []).
Proof.
  intros Hto Hfrom Ht. unfold marshal_tree.
  rewrite wire_elem, marshal_name_kind, (marshal_attrs_fields _ _ Ht), wire_field_attrs.
  apply type_defined_clean in Ht.
  apply (field_attrs_decode k parse [] (clean_stanza v)) with (x := []); try (apply jid_okc_clean; assumption).
  - intros ->. exact Ht.
  - reflexivity.
Qed.

(* necessity of the table lemma: with the name space of the Lang tag removed
   (`xml:"lang,attr,omitempty"`), New* finds no language on the marshalled form *)
Definition lang_tag_without_space (s : list afield) : list afield :=
  map (fun f => match f_sel f with FLang => mkfield FLang [] (f_local f) (f_omit f) (f_kind f) | _ => f end) s.

Lemma lang_tag_space_needed :
  let v := mkst [] L_iq (str "1") [] [] (str "de-CH") L_get in
  let t := Elem (mkname [] L_iq) (flat_map (marshal_field v) (lang_tag_without_space iq_schema)) [] in
  new_of_tree KIQ (fun s => Some s) (wire [] t) = Some (set_lang v []) /\
  new_of_tree KIQ (fun s => Some s) (wire [] (marshal_tree KIQ v)) = Some v.
Proof. vm_compute. split; reflexivity. Qed.
