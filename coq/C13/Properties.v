(* C13/Properties.v — the property theorems of C13.
   "Core stanzas and errors encode consistently and round-trip."

   Reading guide.  [wrap_tokens], [result_tokens], [error_reply_tokens],
   [error_tokens], [stream_error_tokens] are the token sequences the
   hand-written TokenReader/WriteXML/Wrap code emits; [marshal_tree] is what
   xml.Marshal emits from the struct tags; [wire] is the encoder/tokenizer pair
   (bytes on the wire, read back); [unmarshal_stanza], [unmarshal_error],
   [unmarshal_error_iter], [unmarshal_stream_error] are the decoders.  JIDs are
   their String() form; [parse] is jid.Parse and only enters through the
   premises [jid_ok]/[jid_okc] (a JID value parses to itself — property C11).
   [wire] is claimed to describe encoding/xml only on trees that satisfy
   [wire_ok] (C13/Xml.v); the theorems quantify over every payload and, outside
   [wire_ok], speak of the model alone. *)
From XV Require Import lib.Bytes gen.Stanza C13.Xml C13.Model C13.Proofs C13.Cross C13.Heap C13.HeapProofs.

(* well-formedness: whatever bytes the text fields hold, the emitted tokens
   are those of exactly one element whose every name position holds a proper
   name and whose attributes are distinct; text only ever sits in attribute
   values and character data, which the encoder escapes. For errors the
   condition is a name, hence the defined-constant premise. *)
Theorem C13_wellformed_stanza : forall k v f,
  forallb wf_tree f = true ->
  parse_forest (wrap_tokens k v (tokens_of_forest f)) = Some [Elem (start_name k v) (start_attrs k v) f] /\
  wf_tree (Elem (start_name k v) (start_attrs k v) f) = true.
Proof. intros k v f Hf. split; [apply wrap_parses|apply stanza_tree_wf; exact Hf]. Qed.
Print Assumptions C13_wellformed_stanza.

Theorem C13_wellformed_error : forall e f,
  mem (cond_or_default (e_cond e)) SE_CONDS = true -> forallb wf_tree f = true ->
  parse_forest (error_tokens e (tokens_of_forest f)) = Some [error_tree e f] /\ wf_tree (error_tree e f) = true.
Proof.
  intros e f Hc Hf. rewrite error_tokens_tree.
  split; [apply parse_tree|apply error_tree_wf; assumption].
Qed.
Print Assumptions C13_wellformed_error.

Theorem C13_wellformed_error_reply : forall k v e,
  mem (cond_or_default (e_cond e)) SE_CONDS = true ->
  exists t, parse_forest (error_reply_tokens k v e) = Some [t] /\ wf_tree t = true.
Proof.
  intros k v e Hc. eexists. split; [apply error_reply_parses|]. apply stanza_tree_wf. cbn [forallb].
  rewrite error_tree_wf; auto.
Qed.
Print Assumptions C13_wellformed_error_reply.

Theorem C13_wellformed_stream_error : forall s f,
  mem (st_err s) STE_CONDS = true -> forallb wf_tree f = true ->
  parse_forest (stream_error_tokens s (tokens_of_forest f)) = Some [stream_error_tree s f] /\
  wf_tree (stream_error_tree s f) = true.
Proof.
  intros s f Hc Hf. rewrite stream_error_tokens_tree.
  split; [apply parse_tree|apply stream_error_tree_wf; assumption].
Qed.
Print Assumptions C13_wellformed_stream_error.

(* the wrapping helpers: a stanza of the right kind holding the payload
   unchanged; Result and Error set the type and swap the addresses. *)
Theorem C13_wrap_preserves_payload : forall k v f,
  parse_forest (wrap_tokens k v (tokens_of_forest f)) =
    Some [Elem (mkname (s_ns v) (kind_local k)) (start_attrs k v) f] /\
  parse_forest (result_tokens v (tokens_of_forest f)) =
    Some [Elem (mkname (s_ns v) L_iq)
               (lattr L_type L_result :: opt_attr L_to (s_from v) ++ opt_attr L_from (s_to v) ++ opt_attr L_id (s_id v) ++ lang_attr (s_lang v)) f] /\
  (forall e, parse_forest (error_reply_tokens k v e) =
    Some [Elem (mkname (s_ns v) (kind_local k))
               (lattr L_type L_error :: opt_attr L_to (s_from v) ++ opt_attr L_from (s_to v) ++ opt_attr L_id (s_id v) ++ lang_attr (s_lang v))
               [error_tree e []]]).
Proof.
  intros k v f. split; [apply wrap_parses|]. split; [apply (wrap_parses KIQ)|].
  intro e. rewrite error_reply_parses. destruct k; reflexivity.
Qed.
Print Assumptions C13_wrap_preserves_payload.

(* New*(v.StartElement()) returns v under the local name of its kind; a message
   needs a defined type, since NewMessage reads every other one as "normal" *)
Theorem C13_start_element_inverse : forall k parse v,
  jid_ok parse (s_to v) -> jid_ok parse (s_from v) ->
  (k = KMessage -> mem (s_typ v) MSG_TYPES = true) ->
  new_stanza k parse (start_name k v) (start_attrs k v) = Some (set_local v (kind_local k)).
Proof.
  intros k parse v Hto Hfrom Hm. unfold new_stanza.
  apply new_loop_start_attrs; auto. exact (new_type_below k v Hm).
Qed.
Print Assumptions C13_start_element_inverse.

(* round trip of the token path, for every content of the text fields:
   decoding what the encoder wrote returns the value with its local name
   normalised and its text as the encoder could carry it ([clean_stanza] is the
   identity on valid XML text, [C13_clean_is_identity]). *)
Theorem C13_roundtrip_stanza : forall k parse v f,
  jid_okc parse (s_to v) -> jid_okc parse (s_from v) ->
  (k = KMessage -> mem (s_typ v) MSG_TYPES = true) ->
  unmarshal_stanza k parse (wire [] (Elem (start_name k v) (start_attrs k v) f)) =
  Some (clean_stanza (set_local v (kind_local k))).
Proof. intros. apply token_path; assumption. Qed.
Print Assumptions C13_roundtrip_stanza.

Theorem C13_clean_is_identity : forall v, stanza_clean v = true -> clean_stanza v = v.
Proof.
  intro v. unfold stanza_clean, clean_stanza. rewrite !andb_true_iff. intros [[[[H1 H2] H3] H4] H5].
  rewrite !xml_clean_eq by assumption. destruct v; reflexivity.
Qed.
Print Assumptions C13_clean_is_identity.

(* the two encoding paths.  Full statement: both decode to the same value. *)
Definition C13_two_paths_agree_statement : Prop := two_paths_statement.

(* refuted by the faithful model: xml.Marshal names the element from the struct
   tag and drops XMLName.Space (known finding C13/stanza/marshal/xmlname-space-dropped) *)
Theorem C13_two_paths_agree_refuted :
  type_defined KIQ two_paths_witness = true /\
  unmarshal_stanza KIQ (fun s => Some s) (wire [] (marshal_tree KIQ two_paths_witness)) <>
  unmarshal_stanza KIQ (fun s => Some s) (wire [] (Elem (start_name KIQ two_paths_witness) (start_attrs KIQ two_paths_witness) [])).
Proof. split; [vm_compute; reflexivity|vm_compute; discriminate]. Qed.
Print Assumptions C13_two_paths_agree_refuted.

Theorem C13_two_paths_agree_statement_false : ~ C13_two_paths_agree_statement.
Proof.
  intro H. destruct C13_two_paths_agree_refuted as [Hd Hneq]. apply Hneq.
  apply H; [left; reflexivity..|exact Hd].
Qed.
Print Assumptions C13_two_paths_agree_statement_false.

(* proved part: for every defined type both paths decode, to values that agree
   in every field except the name space of XMLName, and the token-path value is
   the round-trip value; with an empty XMLName.Space they agree entirely. *)
Theorem C13_two_paths_agree_partial : forall k parse v,
  jid_okc parse (s_to v) -> jid_okc parse (s_from v) -> type_defined k v = true ->
  exists r,
    unmarshal_stanza k parse (wire [] (Elem (start_name k v) (start_attrs k v) [])) = Some r /\
    unmarshal_stanza k parse (wire [] (marshal_tree k v)) = Some (set_ns r []) /\
    r = clean_stanza (set_local v (kind_local k)).
Proof.
  intros k parse v Hto Hfrom Ht. eexists. split; [|split; [|reflexivity]].
  - apply token_path; auto. intros ->. exact Ht.
  - apply marshal_path; auto.
Qed.
Print Assumptions C13_two_paths_agree_partial.

Theorem C13_two_paths_agree_without_namespace : forall k parse v,
  s_ns v = [] -> jid_okc parse (s_to v) -> jid_okc parse (s_from v) -> type_defined k v = true ->
  unmarshal_stanza k parse (wire [] (marshal_tree k v)) =
  unmarshal_stanza k parse (wire [] (Elem (start_name k v) (start_attrs k v) [])).
Proof.
  intros k parse v Hns Hto Hfrom Ht.
  destruct (C13_two_paths_agree_partial k parse v Hto Hfrom Ht) as (r & H1 & H2 & Hr).
  rewrite H1, H2. subst r. unfold set_ns, clean_stanza, set_local.
  cbn [s_ns s_local s_id s_to s_from s_lang s_typ].
  rewrite Hns. reflexivity.
Qed.
Print Assumptions C13_two_paths_agree_without_namespace.

(* stanza errors (MarshalXML, WriteXML and TokenReader are one function):
   general form for arbitrary text, then the round trip to the documented normal
   form for valid XML text, with and without an application payload. *)
Theorem C13_error_decode_general : forall parse d e f,
  jid_okc parse (e_by e) ->
  bytes_eqb (cond_or_default (e_cond e)) L_text = false ->
  forallb (foreign NS_SE d) f = true ->
  unmarshal_error parse (wire d (error_tree e f)) =
  Some (mkse (clean_text (e_by e)) (clean_text (e_typ e)) (cond_or_default (e_cond e))
             (map_of (map clean_pair (nonempty_texts (map_of (e_text e)))))).
Proof. exact unmarshal_error_wire. Qed.
Print Assumptions C13_error_decode_general.

Theorem C13_roundtrip_error : forall parse d e f,
  error_clean e = true -> jid_ok parse (e_by e) ->
  mem (cond_or_default (e_cond e)) SE_CONDS = true ->
  forallb (foreign NS_SE d) f = true ->
  unmarshal_error parse (wire d (error_tree e f)) = Some (norm_error e).
Proof. intros. apply unmarshal_error_roundtrip; auto using (mem_not_text _ _ (proj1 se_conds_not_text)). Qed.
Print Assumptions C13_roundtrip_error.

(* the error placed in a reply by IQ/Message/Presence.Error is read back by UnmarshalError *)
Theorem C13_roundtrip_error_reply : forall parse k v e,
  error_clean e = true -> jid_ok parse (e_by e) ->
  mem (cond_or_default (e_cond e)) SE_CONDS = true ->
  exists n at_ ks,
    wire [] (Elem (start_name k (reply v L_error)) (start_attrs k (reply v L_error)) [error_tree e []]) = Elem n at_ ks /\
    unmarshal_error_iter parse ks = Some (norm_error e).
Proof. intros. apply unmarshal_error_iter_reply; auto using (mem_not_text _ _ (proj1 se_conds_not_text)). Qed.
Print Assumptions C13_roundtrip_error_reply.

(* UnmarshalError passes over children that are not elements (xmlstream.Iter delivers them with a nil
   start); this is one clause of [unmarshal_error_iter] *)
Theorem C13_unmarshal_error_skips_chardata : forall parse s f,
  unmarshal_error_iter parse (Text s :: f) = unmarshal_error_iter parse f.
Proof. reflexivity. Qed.
Print Assumptions C13_unmarshal_error_skips_chardata.

(* stream errors, with an application payload between condition and texts (elements of
   other name spaces are skipped whole) *)
Theorem C13_stream_error_decode_general : forall d s f,
  bytes_eqb (st_err s) L_text = false ->
  forallb (foreign NS_STE NS_STREAM) f = true ->
  unmarshal_stream_error (wire d (stream_error_tree s f)) =
  Some (mkste (st_err s) (map clean_pair (st_text s))
              (if bytes_eqb (st_err s) L_soh then clean_text (st_content s) else [])).
Proof. exact unmarshal_stream_error_wire. Qed.
Print Assumptions C13_stream_error_decode_general.

Theorem C13_roundtrip_stream_error : forall d s f,
  stream_clean s = true -> mem (st_err s) STE_CONDS = true ->
  forallb (foreign NS_STE NS_STREAM) f = true ->
  unmarshal_stream_error (wire d (stream_error_tree s f)) = Some (norm_stream s).
Proof. intros. apply unmarshal_stream_error_roundtrip; auto using (mem_not_text _ _ (proj1 ste_conds_not_text)). Qed.
Print Assumptions C13_roundtrip_stream_error.

Theorem C13_norm_idempotent :
  (forall e, norm_error (norm_error e) = norm_error e) /\ (forall s, norm_stream (norm_stream s) = norm_stream s).
Proof. exact (conj norm_error_idem norm_stream_idem). Qed.
Print Assumptions C13_norm_idempotent.

(* readers are values: what a token reader (or start element) built by the
   library delivers does not depend on constructor calls made after it was
   built.  [run_hist] executes a history of constructor calls (StartElement,
   Wrap, Result, Error, stanza.Error.Wrap/TokenReader, stream.Error.TokenReader)
   interleaved with partial reads, over a heap of backing arrays with Go's
   append semantics (C13/Heap.v); the origins of the attribute slices are read
   from the source (gen/StanzaAlloc.v) and every one is allocated by the call
   ([C13_alloc_sites_fresh], by evaluation).  For every history, at every moment and
   for every reader: what it has delivered followed by what it would deliver if
   drained now is exactly the token list of the value it was built from. *)
Theorem C13_alloc_sites_fresh : origins_fresh src_origins = true.
Proof. exact src_origins_fresh. Qed.
Print Assumptions C13_alloc_sites_fresh.

Theorem C13_readers_independent : forall ops i o,
  nth_error (filter is_creation ops) i = Some o ->
  reads_of i (snd (run_hist src_origins ops)) ++ pending (fst (run_hist src_origins ops)) i = spec_tokens o.
Proof. exact (readers_independent_gen src_origins src_origins_fresh). Qed.
Print Assumptions C13_readers_independent.

Theorem C13_readers_independent_of_fresh_origins : forall og, origins_fresh og = true -> forall ops i o,
  nth_error (filter is_creation ops) i = Some o ->
  reads_of i (snd (run_hist og ops)) ++ pending (fst (run_hist og ops)) i = spec_tokens o.
Proof. exact readers_independent_gen. Qed.
Print Assumptions C13_readers_independent_of_fresh_origins.

Theorem C13_drained_reader_delivers_its_value : forall ops i o,
  nth_error (filter is_creation ops) i = Some o ->
  nth i (w_readers (fst (run_hist src_origins ops))) [] = [] ->
  reads_of i (snd (run_hist src_origins ops)) = spec_tokens o.
Proof.
  intros ops i o H Hd. pose proof (C13_readers_independent _ _ _ H) as R.
  unfold pending in R. rewrite Hd, app_nil_r in R. exact R.
Qed.
Print Assumptions C13_drained_reader_delivers_its_value.

(* freshness is necessary: with the <error/> start element copied from a
   package-level variable whose Attr slice has spare capacity (OShared), the
   reader of a cancel error that is read after an auth error was built delivers
   type="auth" *)
Theorem C13_shared_backing_array_breaks_independence :
  reads_of 0 (snd (run_hist shared_error_origins aliasing_history)) <>
  spec_tokens (HErr (mkse [] (str "cancel") (str "item-not-found") []) []) /\
  reads_of 0 (snd (run_hist shared_error_origins aliasing_history)) =
  spec_tokens (HErr (mkse [] (str "auth") (str "item-not-found") []) []).
Proof. split; [vm_compute; discriminate | vm_compute; reflexivity]. Qed.
Print Assumptions C13_shared_backing_array_breaks_independence.

(* encoding consistently: the standard marshaller and the token path use
   the same attribute names, name space included, and every decoder reads every
   encoding to the same value.  xml.Unmarshal offers an attribute of any name
   space to a field whose tag has none, so the struct decoder alone cannot tell
   `lang=".."` from `xml:lang=".."`; the start element parser New* can.
   [schema_ok] is checked on the struct tags the translator reads from the
   source on every run: every attribute field is named as StartElement names it
   — the Lang field of all three stanza types is
   `http://www.w3.org/XML/1998/namespace lang,attr`. *)
Theorem C13_struct_tags_name_attributes_as_start_element :
  schema_ok iq_schema = true /\ schema_ok message_schema = true /\ schema_ok presence_schema = true.
Proof. exact schema_names_are_start_names. Qed.
Print Assumptions C13_struct_tags_name_attributes_as_start_element.

Theorem C13_lang_tag_in_xml_name_space : forall k f,
  In f (schema_of k) -> f_sel f = FLang -> f_space f = NS_XML /\ f_local f = L_lang.
Proof.
  intros k f Hin Hsel. pose proof (schema_fields_named k f Hin) as H. rewrite Hsel in H.
  inversion H. split; reflexivity.
Qed.
Print Assumptions C13_lang_tag_in_xml_name_space.

Theorem C13_two_paths_same_attribute_names : forall k v a,
  (In a (start_attrs k v) -> exists f, aname a = start_attr_name f) /\
  (In a (root_attrs (marshal_tree k v)) -> exists f, aname a = start_attr_name f).
Proof. intros k v a. split; [apply start_attrs_names | apply marshal_attrs_names]. Qed.
Print Assumptions C13_two_paths_same_attribute_names.

(* all four combinations {token path, xml.Marshal} x {xml.Unmarshal, New*} agree,
   modulo the element name space xml.Marshal drops (the known finding) *)
Theorem C13_two_paths_cross_decode : forall k parse v,
  jid_okc parse (s_to v) -> jid_okc parse (s_from v) -> type_defined k v = true ->
  let r := clean_stanza (set_local v (kind_local k)) in
  unmarshal_stanza k parse (wire [] (Elem (start_name k v) (start_attrs k v) [])) = Some r /\
  new_of_tree k parse (wire [] (Elem (start_name k v) (start_attrs k v) [])) = Some r /\
  unmarshal_stanza k parse (wire [] (marshal_tree k v)) = Some (set_ns r []) /\
  new_of_tree k parse (wire [] (marshal_tree k v)) = Some (set_ns r []).
Proof.
  intros k parse v Hto Hfrom Ht. cbn zeta.
  destruct (token_path k parse v [] Hto Hfrom) as [H1 H2]; [intros ->; exact Ht|].
  destruct (marshal_path k parse v Hto Hfrom Ht) as [H3 H4]. auto.
Qed.
Print Assumptions C13_two_paths_cross_decode.
