(* C13/HeapProofs.v — readers are independent of later constructor calls.

   Constructors whose slices have a fresh origin only ever write above the heap size at the time they were
   called ([keeps]), and every array a reader refers to lies below the heap size at the time the reader was
   finished.  Hence what a reader still has to deliver never changes, and delivered ++ pending is the token
   list of Model.v at all times.
   [valid h r spec]: r delivers spec in h and in every heap that keeps h;
   [creates rd G mk spec]: mk only writes above the heap it is called on and returns a reader valid for spec,
   the readers of G, made before, staying valid; a constructor is a sequence of such calls ([creates_seq])
   ending in a list built from their results ([creates_ret]). *)
From XV Require Import lib.Bytes lib.ListAux gen.StanzaAlloc C13.Xml C13.Model C13.Heap.
From XV Require lib.Heap.

Lemma firstn_set_nth_below {A} (l : list A) : forall i n x, n <= i -> firstn n (set_nth l i x) = firstn n l.
Proof. intros i n x H. apply Heap.firstn_set_nth_below, H. Qed.

(* [ss]: one list per reader, what it has still to deliver, followed by [rest].  A read of n from list i0
   takes the first n of it and leaves the others alone. *)
Lemma nth_read {A} (ss : list (list A)) rest i0 n i :
  (if Nat.eqb i0 i then firstn n (nth i0 ss []) else []) ++
  nth i (set_nth ss i0 (skipn n (nth i0 ss [])) ++ rest) [] = nth i (ss ++ rest) [].
Proof.
  destruct (Nat.lt_ge_cases i0 (length ss)) as [H|H].
  - destruct (Nat.eqb_spec i0 i) as [<-|E].
    + rewrite !app_nth1 by (rewrite ?Heap.set_nth_length; exact H). rewrite Heap.nth_set_nth_same by exact H.
      apply firstn_skipn.
    + cbn [app]. destruct (Nat.lt_ge_cases i (length ss)) as [Hi|Hi].
      * rewrite !app_nth1 by (rewrite ?Heap.set_nth_length; exact Hi). apply Heap.nth_set_nth_other. intro. apply E. congruence.
      * rewrite !app_nth2 by (rewrite ?Heap.set_nth_length; exact Hi). rewrite Heap.set_nth_length. reflexivity.
  - rewrite Heap.set_nth_beyond by exact H. rewrite (nth_overflow ss [] H), firstn_nil.
    destruct (Nat.eqb i0 i); reflexivity.
Qed.

Definition keeps (b : nat) (h h' : heap) : Prop :=
  length h <= length h' /\ forall i, i < b -> nth i h' [] = nth i h [].

Lemma keeps_weaken b b' h h' : keeps b' h h' -> b <= b' -> keeps b h h'.
Proof. intros K Hb. exact (Heap.keeps_trans _ _ _ _ _ (Heap.keeps_refl b h) K Hb). Qed.

Definition sl_ok (b : nat) (h : heap) (s : slice) : Prop :=
  b <= sl_arr s /\ sl_arr s < length h /\ sl_len s <= sl_cap s /\ sl_cap s <= length (nth (sl_arr s) h []).

Lemma sl_read_keeps b h h' s : keeps b h h' -> sl_arr s < b -> sl_read h' s = sl_read h s.
Proof. intros [_ K] H. unfold sl_read. rewrite K by exact H. reflexivity. Qed.

Lemma sl_append_ok b h s a :
  sl_ok b h s -> let '(h', s') := sl_append h s a in
  sl_ok b h' s' /\ keeps b h h' /\ sl_read h' s' = sl_read h s ++ [a].
Proof.
  intros (Hb & Ha & Hl & Hc). unfold sl_append.
  destruct (Nat.ltb_spec (sl_len s) (sl_cap s)) as [Elt|Elt];
    unfold sl_ok, keeps, sl_read; cbn [sl_arr sl_len sl_cap].
  - (* spare capacity: cell [sl_len s] of the same array is written *)
    rewrite !Heap.set_nth_length, Heap.nth_set_nth_same, Heap.set_nth_length by exact Ha.
    split; [lia|].
    split; [split; [lia|intros i Hi; apply Heap.nth_set_nth_other; lia]|apply Heap.firstn_set_nth_at; lia].
  - (* a new array at index [length h] *)
    assert (Hlen : length (firstn (sl_len s) (nth (sl_arr s) h [])) = sl_len s) by (rewrite firstn_length; lia).
    rewrite !app_length, app_nth2, Nat.sub_diag by lia. cbn [nth length]. rewrite app_length, Hlen.
    cbn [length].
    split; [lia|]. split; [split; [lia|intros i Hi; apply app_nth1; lia]|].
    replace (S (sl_len s)) with (length (firstn (sl_len s) (nth (sl_arr s) h []) ++ [a]))
      by (rewrite app_length, Hlen; cbn; lia).
    apply firstn_all.
Qed.

Lemma sl_append_list_ok b l : forall h s,
  sl_ok b h s -> let '(h', s') := sl_append_list h s l in
  sl_ok b h' s' /\ keeps b h h' /\ sl_read h' s' = sl_read h s ++ l.
Proof.
  induction l as [|a l IH]; intros h s Hok; cbn [sl_append_list].
  - rewrite app_nil_r. exact (conj Hok (conj (Heap.keeps_refl _ _) eq_refl)).
  - pose proof (sl_append_ok b h s a Hok) as H1. destruct (sl_append h s a) as [h1 s1].
    destruct H1 as (Hok1 & K1 & R1). specialize (IH h1 s1 Hok1).
    destruct (sl_append_list h1 s1 l) as [h' s']. destruct IH as (Hok2 & K2 & R2).
    split; [exact Hok2|]. split.
    + eapply Heap.keeps_trans; eauto.
    + rewrite R2, R1, <- app_assoc. reflexivity.
Qed.

Lemma keeps_then h h1 h2 : keeps (length h) h h1 -> keeps (length h1) h1 h2 -> keeps (length h) h h2.
Proof. intros K1 K2. exact (Heap.keeps_trans _ _ _ _ _ K1 K2 (proj1 K1)). Qed.

Definition valid (h : heap) (r : reader) (spec : list token) : Prop :=
  forall h', keeps (length h) h h' -> map (resolve h') r = spec.

Lemma valid_now h r spec : valid h r spec -> map (resolve h) r = spec.
Proof. intro V. exact (V h (Heap.keeps_refl _ _)). Qed.

Lemma valid_keeps h h' r spec : valid h r spec -> keeps (length h) h h' -> valid h' r spec.
Proof. intros V K h'' K'. exact (V h'' (keeps_then _ _ _ K K')). Qed.

Lemma valid_app h a sa b sb : valid h a sa -> valid h b sb -> valid h (a ++ b) (sa ++ sb).
Proof. intros Va Vb h' K. rewrite map_app, (Va h' K), (Vb h' K). reflexivity. Qed.

Lemma valid_LTok h l : valid h (map LTok l) l.
Proof. intros h' _. rewrite map_map. apply map_id. Qed.

Lemma valid_skipn h r spec n : valid h r spec -> valid h (skipn n r) (skipn n spec).
Proof. intros V h' K. rewrite <- (V h' K). symmetry. apply skipn_map. Qed.

(* readers made earlier in the same constructor call, each with what it delivers *)
Fixpoint holds (G : list (reader * list token)) (h : heap) : Prop :=
  match G with
  | [] => True
  | (r, s) :: G' => valid h r s /\ holds G' h
  end.

Lemma holds_keeps G h h' : holds G h -> keeps (length h) h h' -> holds G h'.
Proof.
  intros H K. induction G as [|[r s] G IH]; [exact I|]. destruct H as [V H].
  exact (conj (valid_keeps _ _ _ _ V K) (IH H)).
Qed.

(* [mk], called where the readers of [G] are valid, only writes above the heap it is called on and returns
   something that is, read through [rd], a reader valid for [spec] *)
Definition creates {A} (rd : A -> reader) (G : list (reader * list token)) (mk : heap -> heap * A)
  (spec : list token) : Prop :=
  forall h, holds G h -> let '(h', a) := mk h in keeps (length h) h h' /\ valid h' (rd a) spec.

(* the one place where what was made before is carried over a later call *)
Lemma creates_seq {A B} {rd : A -> reader} {rd2 : B -> reader} {G mk1 s1} {mk2 : A -> heap -> heap * B} {spec} :
  creates rd G mk1 s1 -> (forall a, creates rd2 ((rd a, s1) :: G) (mk2 a) spec) ->
  creates rd2 G (fun h => let (h1, a) := mk1 h in mk2 a h1) spec.
Proof.
  intros H1 H2 h HG. specialize (H1 h HG). destruct (mk1 h) as [h1 a]. destruct H1 as (K1 & V1).
  specialize (H2 a h1 (conj V1 (holds_keeps _ _ _ HG K1))). destruct (mk2 a h1) as [h' b].
  exact (conj (keeps_then _ _ _ K1 (proj1 H2)) (proj2 H2)).
Qed.

Lemma creates_ret {A} (rd : A -> reader) G a spec :
  (forall h, holds G h -> valid h (rd a) spec) -> creates rd G (fun h => (h, a)) spec.
Proof. intros H h HG. exact (conj (Heap.keeps_refl _ _) (H h HG)). Qed.

Lemma mk_start_fresh G c n ats : creates (fun st => [st]) G (mk_start (OFresh c) n ats) [TStart n ats].
Proof.
  intros h _. unfold mk_start, origin_slice.
  assert (Hok : sl_ok (length h) (h ++ [repeat dummy_attr c]) (mksl (length h) 0 c)).
  { unfold sl_ok. cbn [sl_arr sl_len sl_cap]. rewrite app_length. cbn [length].
    rewrite app_nth2 by lia. rewrite Nat.sub_diag. cbn [nth]. rewrite repeat_length. lia. }
  apply (sl_append_list_ok _ ats) in Hok.
  destruct (sl_append_list (h ++ [repeat dummy_attr c]) (mksl (length h) 0 c) ats) as [h2 s].
  destruct Hok as ((_ & Ha & _) & K & R).
  split.
  - eapply Heap.keeps_trans; [apply Heap.keeps_app; apply Nat.le_refl | exact K | apply Nat.le_refl].
  - intros h' K'. cbn. rewrite (sl_read_keeps _ _ _ _ K' Ha), R. reflexivity.
Qed.

Lemma mk_elem_fresh G c n ats body sb :
  (forall h, holds G h -> valid h body sb) ->
  creates id G (mk_elem (OFresh c) n ats body) (TStart n ats :: sb ++ [TEnd n]).
Proof.
  intro Hb. apply (creates_seq (mk_start_fresh G c n ats)). intro st. apply creates_ret.
  intros h (Vs & HG). exact (valid_app _ _ _ _ _ Vs (valid_app _ _ _ _ _ (Hb h HG) (valid_LTok _ [TEnd n]))).
Qed.

Lemma mk_list_creates {A} (mk : A -> heap -> heap * reader) (spec : A -> list token) l :
  (forall x G, creates id G (mk x) (spec x)) -> forall G, creates id G (mk_list mk l) (flat_map spec l).
Proof.
  intro Hmk. induction l as [|x l IH]; intro G; [exact (creates_ret id G [] [] (fun h _ => valid_LTok h []))|].
  apply (creates_seq (Hmk x G)). intro a. apply (creates_seq (IH _)). intro b. apply creates_ret.
  intros h (Vb & Va & _). exact (valid_app _ _ _ _ _ Va Vb).
Qed.

Lemma flat_map_map' {A B C} (f : B -> list C) (g : A -> B) l :
  flat_map f (map g l) = flat_map (fun x => f (g x)) l.
Proof. induction l; cbn; congruence. Qed.

Lemma tokens_of_text_el ns kv :
  tokens_of_tree (Elem (mkname ns L_text) (lang_attr (fst kv)) [Text (snd kv)]) =
  [TStart (mkname ns L_text) (lang_attr (fst kv)); TText (snd kv); TEnd (mkname ns L_text)].
Proof. reflexivity. Qed.

(* users find [f] in the nine-element list by [auto 10]: one [or_intror] per position *)
Lemma origins_fresh_inv og : origins_fresh og = true ->
  forall f,
    In f [o_iq; o_message; o_presence; o_se_error; o_se_text; o_se_cond; o_ste_error; o_ste_text; o_ste_cond] ->
  exists c, f og = OFresh c.
Proof.
  unfold origins_fresh. intros H f Hin. repeat (apply andb_prop in H; destruct H as [H ?]).
  assert (Hf : is_fresh (f og) = true) by (cbn [In] in Hin; intuition (subst; assumption)).
  destruct (f og); try discriminate. eauto.
Qed.

Section Fresh.
  Variable og : origins.
  Hypothesis Hfresh : origins_fresh og = true.

  Lemma shared_nil : o_shared og = [].
  Proof.
    revert Hfresh. unfold origins_fresh.
    destruct (o_shared og); [reflexivity|]. intros H. apply andb_prop, proj1, andb_prop, proj2 in H. discriminate H.
  Qed.

  Lemma start_origin_fresh k : exists c, start_origin og k = OFresh c.
  Proof. destruct k; apply (origins_fresh_inv og Hfresh); cbn; auto. Qed.

  Lemma mk_wrap_creates G k v body sb :
    (forall h, holds G h -> valid h body sb) -> creates id G (mk_wrap og k v body) (wrap_tokens k v sb).
  Proof. unfold mk_wrap. destruct (start_origin_fresh k) as [c ->]. apply mk_elem_fresh. Qed.

  Lemma mk_se_text_creates kv G : creates id G (mk_se_text og kv) (tokens_of_tree (se_text_el kv)).
  Proof.
    unfold mk_se_text. destruct (origins_fresh_inv og Hfresh o_se_text) as [c ->]; [cbn; auto 10|].
    exact (mk_elem_fresh G c _ _ _ _ (fun h _ => valid_LTok h [TText (snd kv)])).
  Qed.

  Lemma mk_ste_text_creates kv G : creates id G (mk_ste_text og kv) (tokens_of_tree (ste_text_el kv)).
  Proof.
    unfold mk_ste_text. destruct (origins_fresh_inv og Hfresh o_ste_text) as [c ->]; [cbn; auto 10|].
    exact (mk_elem_fresh G c _ _ _ _ (fun h _ => valid_LTok h [TText (snd kv)])).
  Qed.

  Lemma mk_error_creates e p : creates id [] (mk_error og e p) (error_tokens e p).
  Proof.
    unfold mk_error.
    destruct (origins_fresh_inv og Hfresh o_se_error) as [c1 ->]; [cbn; auto 10|].
    destruct (origins_fresh_inv og Hfresh o_se_cond) as [c2 ->]; [cbn; auto 10|].
    apply (creates_seq (mk_start_fresh _ c1 _ _)). intro st.
    apply (creates_seq (mk_list_creates _ _ _ mk_se_text_creates _)). intro texts.
    apply (creates_seq (mk_elem_fresh _ c2 _ _ _ _ (fun h _ => valid_LTok h []))). intro cond.
    apply creates_ret.
    (* the start element was made first and is delivered first; the condition was made last *)
    intros h (Vc & Vt & Vs & _). unfold error_tokens, error_children, tokens_of_forest.
    cbn [map flat_map tokens_of_tree app]. rewrite flat_map_map'.
    exact (valid_app _ _ _ _ _ Vs (valid_app _ _ _ _ _ Vc (valid_app _ _ _ _ _ Vt
             (valid_app _ _ _ _ _ (valid_LTok _ p) (valid_LTok _ [TEnd error_name]))))).
  Qed.

  Lemma mk_stream_error_creates s p : creates id [] (mk_stream_error og s p) (stream_error_tokens s p).
  Proof.
    unfold mk_stream_error.
    destruct (origins_fresh_inv og Hfresh o_ste_error) as [c1 ->]; [cbn; auto 10|].
    destruct (origins_fresh_inv og Hfresh o_ste_cond) as [c2 ->]; [cbn; auto 10|].
    apply (creates_seq (mk_elem_fresh _ c2 _ _ _ _ (fun h _ => valid_LTok h [TText (st_content s)]))).
    intro cond. apply (creates_seq (mk_list_creates _ _ _ mk_ste_text_creates _)). intro texts.
    unfold stream_error_tokens, tokens_of_forest. rewrite flat_map_map', (app_assoc p), (app_assoc [_; _; _]).
    apply mk_elem_fresh.
    intros h (Vt & Vc & _). exact (valid_app _ _ _ _ _ Vc (valid_app _ _ _ _ _ (valid_LTok _ p) Vt)).
  Qed.

  Lemma create_creates o : is_creation o = true -> creates id [] (create og o) (spec_tokens o).
  Proof.
    destruct o as [k v|k v p|v p|k v e|e p|s p|i n]; intro Hc; try discriminate Hc.
    - (* HStart *) unfold create, mk_stanza_start. destruct (start_origin_fresh k) as [c ->].
      apply (creates_seq (mk_start_fresh _ c _ _)). intro st. apply creates_ret. intros h (V & _). exact V.
    - (* HWrap *) exact (mk_wrap_creates _ k v _ _ (fun h _ => valid_LTok h p)).
    - (* HResult *) exact (mk_wrap_creates _ KIQ _ _ _ (fun h _ => valid_LTok h p)).
    - (* HErrReply *) apply (creates_seq (mk_error_creates e [])). intro body.
      apply mk_wrap_creates. intros h (V & _). exact V.
    - (* HErr *) apply mk_error_creates.
    - (* HStream *) apply mk_stream_error_creates.
  Qed.

  Lemma step_creation w o :
    is_creation o = true ->
    step og w o = let (h', r) := create og o (w_heap w) in (mkw h' (w_readers w ++ [r]), []).
  Proof. destruct o; try discriminate; reflexivity. Qed.

  (* from a world whose readers deliver [ss], a run delivers to reader i, in all, the i-th of [ss] followed
     by the token lists of the constructor calls of the run *)
  Lemma run_serves ops : forall w ss,
    Forall2 (valid (w_heap w)) (w_readers w) ss ->
    forall i, reads_of i (snd (run og w ops)) ++ pending (fst (run og w ops)) i =
              nth i (ss ++ map spec_tokens (filter is_creation ops)) [].
  Proof.
    induction ops as [|o ops IH]; intros w ss Hw i; cbn [run filter].
    - cbn [map reads_of flat_map app fst snd]. rewrite app_nil_r.
      exact (valid_now _ _ _ (Forall2_nth _ [] [] _ _ Hw (valid_LTok _ []) i)).
    - destruct (is_creation o) eqn:Hc.
      + (* the readers there are remain valid; the new one delivers [spec_tokens o] *)
        rewrite (step_creation _ _ Hc). pose proof (create_creates o Hc (w_heap w) I) as C.
        destruct (create og o (w_heap w)) as [h' r]. destruct C as (K & V).
        specialize (IH (mkw h' (w_readers w ++ [r])) (ss ++ [spec_tokens o])
                       (Forall2_app (Forall2_mono _ _ _ _ (fun a b V0 => valid_keeps _ _ _ _ V0 K) Hw)
                                    (Forall2_cons _ _ V (Forall2_nil _))) i).
        destruct (run og (mkw h' (w_readers w ++ [r])) ops) as [w2 l2].
        rewrite <- app_assoc in IH. exact IH.
      + (* reader i0 delivers the first n of its list and keeps the rest *)
        destruct o as [| | | | | |i0 n]; try discriminate Hc. cbn [step].
        pose proof (Forall2_nth _ [] [] _ _ Hw (valid_LTok _ []) i0) as V0.
        specialize (IH (mkw (w_heap w) _) (set_nth ss i0 (skipn n (nth i0 ss [])))
                       (Heap.Forall2_set_nth _ _ _ _ _ Hw (valid_skipn _ _ _ n V0) i0) i).
        destruct (run og (mkw (w_heap w) _) ops) as [w2 l2].
        cbn [reads_of flat_map app fst snd] in *. rewrite <- app_assoc, IH, <- firstn_map. unfold reader in *.
        rewrite (valid_now _ _ _ V0). apply nth_read.
  Qed.

  Lemma readers_independent_gen ops i o :
    nth_error (filter is_creation ops) i = Some o ->
    reads_of i (snd (run_hist og ops)) ++ pending (fst (run_hist og ops)) i = spec_tokens o.
  Proof.
    intro Hi. unfold run_hist. rewrite (run_serves ops (init_world og) [] (Forall2_nil _) i). cbn [app].
    change [] with (spec_tokens (HRead 0 0)). rewrite map_nth, (nth_error_nth _ _ _ Hi). reflexivity.
  Qed.
End Fresh.

(* table lemma over gen/StanzaAlloc.v *)
Lemma src_origins_fresh : origins_fresh src_origins = true.
Proof. vm_compute. reflexivity. Qed.

Lemma reads_prefix ops i o :
  nth_error (filter is_creation ops) i = Some o ->
  exists rest, spec_tokens o = reads_of i (snd (run_hist src_origins ops)) ++ rest.
Proof. intro H. eexists. symmetry. exact (readers_independent_gen _ src_origins_fresh _ _ _ H). Qed.

(* necessity: with the <error/> start element copied from a package-level
   variable whose Attr has spare capacity, a later constructor call rewrites
   the attributes of a reader that has not been consumed yet *)
Definition shared_error_origins : origins :=
  mkorigins (OFresh 5) (OFresh 5) (OFresh 5) (OShared 0 2) (OFresh 1) (OFresh 0) (OFresh 0)
            (OFresh 0) (OFresh 0) (OFresh 0) (OFresh 0) [2] [].

Definition aliasing_history : list hop :=
  [HErr (mkse [] (str "cancel") (str "item-not-found") []) [];
   HErr (mkse [] (str "auth") (str "forbidden") []) [];
   HRead 0 5; HRead 1 5].
