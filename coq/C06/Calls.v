(* C06/Calls.v — lists of call records.  The transition systems of C06 keep
   their calls (requesters, senders, join/leave calls) in a list: a call is
   appended when it starts and afterwards only its own record is replaced
   ([upd], C06/Model.v, convertible with [Heap.set_nth]: the lemmas of
   lib/Heap.v are used for it).  What one step does to that list is fixed by the
   label: nothing, one record moved, one record appended ([calls_at]). *)
From Coq Require Import List Arith Lia.
Import ListNotations.
From XV Require Import lib.Lts C06.Model.
From XV Require lib.Heap.

Lemma nth_app_inv {A} (l : list A) x j y :
  nth_error (l ++ [x]) j = Some y ->
  (j < length l /\ nth_error l j = Some y) \/ (j = length l /\ y = x).
Proof.
  intro H. destruct (Nat.lt_ge_cases j (length l)) as [L|G].
  - rewrite nth_error_app1 in H by exact L. left; auto.
  - rewrite nth_error_app2 in H by exact G.
    destruct (j - length l) as [|k] eqn:E; cbn in H.
    + right. split; [lia|congruence].
    + destruct k; discriminate.
Qed.

Lemma nth_app_old {A} (l : list A) x j y :
  nth_error l j = Some y -> nth_error (l ++ [x]) j = Some y.
Proof.
  intro H. rewrite nth_error_app1; [exact H|]. apply nth_error_Some. congruence.
Qed.

Lemma nth_app_new {A} (l : list A) x : nth_error (l ++ [x]) (length l) = Some x.
Proof. rewrite nth_error_app2, Nat.sub_diag by apply Nat.le_refl. reflexivity. Qed.

Lemma nth_upd_ex {A} (P : A -> Prop) (l : list A) i j x x' :
  nth_error l i = Some x -> (j = i -> P x -> P x') ->
  (exists a, nth_error l j = Some a /\ P a) -> exists a, nth_error (upd l i x') j = Some a /\ P a.
Proof.
  intros Hi Hx [a [Ha Pa]]. destruct (Nat.eq_dec j i) as [->|N].
  - exists x'. split; [eapply Heap.nth_error_set_nth_same; eauto|]. apply Hx; [reflexivity|congruence].
  - exists a. rewrite Heap.nth_error_set_nth_other by congruence. auto.
Qed.

Lemma nth_app_ex {A} (P : A -> Prop) (l : list A) x j :
  (exists a, nth_error l j = Some a /\ P a) -> exists a, nth_error (l ++ [x]) j = Some a /\ P a.
Proof. intros [a [Ha Pa]]. exists a. split; [apply nth_app_old; exact Ha|exact Pa]. Qed.

Lemma nth_nil {A} i (x : A) : nth_error [] i = Some x -> False.
Proof. destruct i; discriminate. Qed.

Definition b2n (b : bool) : nat := if b then 1 else 0.

(* which record a label moves *)
Inductive target := TNone | TCall (i : nat) | TNew.

Section Calls.
  Context {A : Type}.
  Variable R : A -> A -> Prop.             (* the move of the record named by the label *)
  Variable fresh : list A -> A -> Prop.    (* the record of a call that starts *)

  Definition calls_at (t : target) (l l' : list A) : Prop :=
    match t with
    | TNone => l' = l
    | TCall i => exists x x', nth_error l i = Some x /\ R x x' /\ l' = upd l i x'
    | TNew => exists x, fresh l x /\ l' = l ++ [x]
    end.

  Lemma calls_fwd t l l' j x :
    calls_at t l l' -> nth_error l j = Some x ->
    exists x', nth_error l' j = Some x' /\ (x' = x \/ t = TCall j /\ R x x').
  Proof.
    destruct t as [|i|]; cbn [calls_at].
    - intros -> Hj. eauto.
    - intros (y & y' & Hi & Hr & ->) Hj. destruct (Nat.eq_dec i j) as [->|N].
      + exists y'. split; [eapply Heap.nth_error_set_nth_same; eauto|]. right. split; [reflexivity|congruence].
      + exists x. rewrite Heap.nth_error_set_nth_other by exact N. auto.
    - intros (y & _ & ->) Hj. exists x. split; [apply nth_app_old; exact Hj|auto].
  Qed.

  (* a property of every record, by position.  P may mention the rest of the
     state, which can change in the same step: P before, P' after *)
  Definition all_calls (P : nat -> A -> Prop) (l : list A) : Prop :=
    forall i x, nth_error l i = Some x -> P i x.

  Lemma all_calls_upd (P P' : nat -> A -> Prop) l i x x' :
    all_calls P l -> nth_error l i = Some x ->
    (forall j y, j <> i -> P j y -> P' j y) -> (P i x -> P' i x') -> all_calls P' (upd l i x').
  Proof.
    intros H Hi Ho Hx j y Hy. destruct (Heap.nth_error_set_nth_inv _ _ _ _ _ Hy) as [[-> ->]|[N Hy']]; auto.
  Qed.

  Lemma all_calls_snoc (P P' : nat -> A -> Prop) l x :
    all_calls P l -> (forall j y, P j y -> P' j y) -> P' (length l) x -> all_calls P' (l ++ [x]).
  Proof.
    intros H Ho Hx j y Hy. apply nth_app_inv in Hy. destruct Hy as [[_ Hy]|[-> ->]]; auto.
  Qed.

  Lemma all_calls_at (P P' : nat -> A -> Prop) t l l' :
    calls_at t l l' -> all_calls P l ->
    (forall j y, t <> TCall j -> P j y -> P' j y) ->
    (forall i x x', t = TCall i -> nth_error l i = Some x -> R x x' -> P i x -> P' i x') ->
    (forall x, fresh l x -> P' (length l) x) ->
    all_calls P' l'.
  Proof.
    destruct t as [|i|]; cbn [calls_at].
    - intros -> H Ho _ _ j y Hy. apply Ho; [discriminate|exact (H j y Hy)].
    - intros (x & x' & Hi & Hr & ->) H Ho Hm _. apply (all_calls_upd P P' l i x x' H Hi); [|exact (Hm i x x' eq_refl Hi Hr)].
      intros j y N. apply Ho. congruence.
    - intros (x & Hx & ->) H Ho _ Hf. apply (all_calls_snoc P P' l x H); [|auto]. intros j y. apply Ho. discriminate.
  Qed.

  Definition count (P : A -> bool) (l : list A) : nat := length (filter P l).

  Lemma count_snoc P l x : count P (l ++ [x]) = count P l + b2n (P x).
  Proof. unfold count. rewrite filter_app, app_length. cbn. destruct (P x); reflexivity. Qed.

  Lemma count_upd P l : forall i x x', nth_error l i = Some x ->
    count P (upd l i x') + b2n (P x) = count P l + b2n (P x').
  Proof.
    unfold count. induction l as [|y l IH]; intros [|i] x x' H; cbn in H; try discriminate.
    - injection H as ->. cbn. destruct (P x), (P x'); cbn; lia.
    - cbn. specialize (IH i x x' H). destruct (P y); cbn; lia.
  Qed.

  Lemma count_at P d t l l' :
    calls_at t l l' -> (forall x x', R x x' -> b2n (P x') = b2n (P x) + d) ->
    (forall x, fresh l x -> P x = false) ->
    count P l' = count P l + match t with TCall _ => d | _ => 0 end.
  Proof.
    destruct t as [|i|]; cbn [calls_at]; intros H HR HF.
    - rewrite H. apply plus_n_O.
    - destruct H as (x & x' & Hi & Hr & ->). pose proof (count_upd P l i x x' Hi). specialize (HR x x' Hr). lia.
    - destruct H as (x & Hx & ->). rewrite count_snoc, (HF x Hx). reflexivity.
  Qed.

  Lemma count_none P l : count P l = 0 -> forall i x, nth_error l i = Some x -> P x = false.
  Proof.
    unfold count. induction l as [|y l IH]; intros E [|i] x H; cbn in *; try discriminate.
    - injection H as ->. destruct (P x); [discriminate|reflexivity].
    - destruct (P y); [discriminate|eauto].
  Qed.

  Lemma count_some P l i x : nth_error l i = Some x -> P x = true -> 0 < count P l.
  Proof.
    intros H Hp. destruct (count P l) eqn:E; [|lia]. rewrite (count_none P l E i x H) in Hp. discriminate.
  Qed.

  Lemma count_in P l x : In x l -> P x = true -> 0 < count P l.
  Proof. intro H. apply In_nth_error in H. destruct H as [i H]. exact (count_some P l i x H). Qed.

  Lemma count_never P l : (forall x, P x = false) -> count P l = 0.
  Proof. intro N. unfold count. induction l as [|x l IH]; cbn; [reflexivity|]. rewrite (N x). exact IH. Qed.

  Lemma count_one P l : count P l = 1 ->
    exists i x, nth_error l i = Some x /\ P x = true /\ forall j y, nth_error l j = Some y -> P y = true -> j = i.
  Proof.
    unfold count. induction l as [|y l IH]; cbn; [discriminate|]. destruct (P y) eqn:Ey; cbn; intro E.
    - exists 0, y. repeat split; auto. intros [|j] z Hz Pz; [reflexivity|]. cbn in Hz.
      injection E as E. rewrite (count_none P l E j z Hz) in Pz. discriminate.
    - destruct (IH E) as (i & x & Hi & Px & U). exists (S i), x. repeat split; auto.
      intros [|j] z Hz Pz; cbn in Hz; [congruence|]. f_equal. eauto.
  Qed.
End Calls.

Section CallsLts.
  Variables (state label A : Type) (step : state -> label -> option state) (calls : state -> list A).
  Variable target_of : label -> target.
  Variable R : label -> A -> A -> Prop.
  Variable fresh : state -> label -> list A -> A -> Prop.
  Hypothesis shape : forall s l s',
    step s l = Some s' -> calls_at (R l) (fresh s l) (target_of l) (calls s) (calls s').

  (* what every move of record j keeps, every run keeps: "a call that has
     returned keeps its outcome" is this, for the core system and for MUC *)
  Theorem call_stable_run (P : A -> Prop) j :
    (forall l x x', target_of l = TCall j -> R l x x' -> P x -> P x') ->
    forall tr s s', run step s tr = Some s' ->
    (exists x, nth_error (calls s) j = Some x /\ P x) -> exists x', nth_error (calls s') j = Some x' /\ P x'.
  Proof.
    intros HP tr s s' Hr H0. revert s' Hr. apply invariant_run; [exact H0|].
    intros s1 l s2 (x & Hx & Px) E.
    destruct (calls_fwd _ _ _ _ _ j x (shape _ _ _ E) Hx) as (x' & Hx' & [->|[T M]]); eauto.
  Qed.
End CallsLts.
Arguments call_stable_run {state label A step calls target_of R fresh} shape P j _ tr s s'.
