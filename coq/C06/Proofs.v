(* C06/Proofs.v — the invariant [Inv] of the correlated-wait transition system
   (C06/Model.v), and what follows from it: the serve goroutine always has a
   way on in the repaired code, and stalls for good in the pinned code. *)
From Coq Require Import List Arith NArith Bool Lia.
Import ListNotations.
From XV Require Import lib.Lts C06.Model C06.Calls.
From XV Require lib.Heap.

(* [step_cases H], for H : step s l = Some s': split on everything the step
   function inspects, innermost test first, and drop the cases in which the
   label is not enabled *)
Ltac step_cases H := repeat (match type of H with
  | context [match (match ?x with _ => _ end) with _ => _ end] => destruct x eqn:?
  | context [match ?x with _ => _ end] => destruct x eqn:?
  end; cbv beta iota in H; try discriminate).

Lemma nth_len_none {A} (l : list A) : nth_error l (length l) = None.
Proof. apply nth_error_None. lia. Qed.

Lemma in_snoc {A} (l : list A) x y : In y (l ++ [x]) <-> In y l \/ x = y.
Proof. rewrite in_app_iff. cbn. tauto. Qed.

Lemma nodup_map_inj {A} (f : A -> nat) (l : list A) a b :
  NoDup (map f l) -> In a l -> In b l -> f a = f b -> a = b.
Proof.
  induction l as [|x l IH]; cbn; [tauto|]. intros N Ha Hb E. inversion N as [|? ? Hx N']; subst.
  destruct Ha as [->|Ha], Hb as [->|Hb]; auto.
  - exfalso. apply Hx. rewrite E. apply in_map. exact Hb.
  - exfalso. apply Hx. rewrite <- E. apply in_map. exact Ha.
Qed.

Lemma in_remove_id id p k v : In (k, v) (remove_id id p) -> In (k, v) p /\ k <> id.
Proof.
  induction p as [|[k' v'] p IH]; cbn; [tauto|].
  destruct (N.eqb k' id) eqn:E.
  - intro H. destruct (IH H). auto.
  - intros [H|H].
    + injection H as -> ->. apply N.eqb_neq in E. auto.
    + destruct (IH H). auto.
Qed.

Lemma lookup_in id p v : lookup id p = Some v -> In (id, v) p.
Proof.
  induction p as [|[k' v'] p IH]; cbn; [discriminate|].
  destruct (N.eqb k' id) eqn:E.
  - intro H. injection H as ->. apply N.eqb_eq in E. subst. auto.
  - auto.
Qed.

Lemma in_insert id n p k v : In (k, v) (insert id n p) -> (k = id /\ v = n) \/ In (k, v) p.
Proof.
  unfold insert. intros [H|H].
  - injection H as -> ->. auto.
  - right. apply in_remove_id in H. tauto.
Qed.

Lemma lookup_remove_id id p : lookup id (remove_id id p) = None.
Proof.
  induction p as [|[k v] p IH]; cbn; [reflexivity|].
  destruct (N.eqb k id) eqn:E; [exact IH|]. cbn. rewrite E. exact IH.
Qed.

Lemma name_eqb_eq a b : name_eqb a b = true <-> a = b.
Proof.
  destruct a as [a1 a2], b as [b1 b2]. unfold name_eqb. cbn.
  rewrite andb_true_iff, !N.eqb_eq. split; [intros [-> ->]; reflexivity|intro H; injection H; auto].
Qed.

Lemma name_match_local e n : name_match e n = true -> n_local e = n_local n.
Proof.
  unfold name_match. rewrite orb_true_iff, !name_eqb_eq. intros [->| ->]; reflexivity.
Qed.

(* [done]: the arrival numbers that have met their fate, in the order in which
   they met it, [cur]: the one being processed.  The serve goroutine settles
   one element before it reads the next, so [done] is 0, 1, 2, ... up to the
   current element: every number below [arrived] is accounted for exactly once. *)
Definition ledger (done : list nat) (arrived : nat) (cur : option nat) : Prop :=
  match cur with
  | Some q => done = seq 0 q /\ S q = arrived
  | None => done = seq 0 arrived
  end.
Arguments ledger : simpl never.

Lemma ledger_init : ledger [] 0 None.
Proof. reflexivity. Qed.

Lemma ledger_arrive d a : ledger d a None -> ledger d (S a) (Some a).
Proof. intros ->. split; reflexivity. Qed.

Lemma ledger_settle d a q : ledger d a (Some q) -> ledger (d ++ [q]) a None.
Proof. intros [-> <-]. symmetry. apply (seq_S q 0). Qed.

Lemma ledger_seq d a c : ledger d a c -> exists n, n <= a /\ d = seq 0 n.
Proof. destruct c as [q|]; [intros [-> <-]; exists q|intros ->; exists a]; auto. Qed.

Lemma ledger_unique {A} (f : A -> nat) l a c x y :
  ledger (map f l) a c -> In x l -> In y l -> f x = f y -> x = y.
Proof.
  intro L. destruct (ledger_seq _ _ _ L) as (n & _ & E). apply nodup_map_inj. rewrite E. apply seq_NoDup.
Qed.

Lemma ledger_bound {A} (f : A -> nat) l a c x : ledger (map f l) a c -> In x l -> f x < a.
Proof.
  intros L Hx. destruct (ledger_seq _ _ _ L) as (n & Hn & E). apply (in_map f) in Hx. rewrite E, in_seq in Hx. lia.
Qed.

Lemma ledger_complete {A} (f : A -> nat) l a :
  ledger (map f l) a None -> forall q, q < a -> exists x, In x l /\ f x = q.
Proof.
  unfold ledger. intros E q Hq. assert (Hin : In q (map f l)) by (rewrite E, in_seq; lia).
  apply in_map_iff in Hin. destruct Hin as (x & A1 & A2). eauto.
Qed.

(* the response a call has received, and the one it still has to close *)
Definition got (p : rpc) : option stanza :=
  match p with RGot st | RRet (OReply st) _ => Some st | _ => None end.
Definition holding (p : rpc) : option stanza :=
  match p with RGot st | RRet (OReply st) false => Some st | _ => None end.
Definition ctx_path (p : rpc) : bool :=
  match p with RCtx | RRet OCtxErr _ => true | _ => false end.

Definition has (p : rpc) (st : stanza) : Prop := p = RGot st \/ exists c, p = RRet (OReply st) c.

Lemma has_got p st : has p st <-> got p = Some st.
Proof.
  split; [intros [->|[c ->]]; reflexivity|].
  destruct p as [| |st'| | |[st'| |] c]; try discriminate; intro H; injection H as ->; [left|right; exists c]; reflexivity.
Qed.

Lemma has_fun p st st' : has p st -> has p st' -> st = st'.
Proof. rewrite !has_got. congruence. Qed.

Lemma ctx_done_canc fx r : r_canc r = true -> ctx_done fx r = true.
Proof. unfold ctx_done. intros ->. reflexivity. Qed.

Lemma ctx_done_ret r : is_ret (r_pc r) = true -> ctx_done true r = true.
Proof. unfold ctx_done. intros ->. apply orb_true_r. Qed.

Lemma ctx_done_pinned r : ctx_done false r = r_canc r.
Proof. apply orb_false_r. Qed.

Lemma ctx_done_mono fx r r' :
  (r_canc r = true -> r_canc r' = true) -> (is_ret (r_pc r) = true -> is_ret (r_pc r') = true) ->
  ctx_done fx r = true -> ctx_done fx r' = true.
Proof.
  unfold ctx_done. intros C R H. apply orb_true_iff in H. destruct H as [H|H].
  - rewrite (C H). reflexivity.
  - apply andb_true_iff in H. destruct H as [-> H]. rewrite (R H). apply orb_true_r.
Qed.

Definition cur_stanza (p : spc) : option stanza :=
  match p with
  | SRead st | SLooked st _ | SOffer st _ | SHandler st => Some st
  | _ => None
  end.

Definition seqs (s : state) : list nat := map ev_seq (hist s).

Lemma seqs_app s e : map ev_seq (hist s ++ [e]) = seqs s ++ [ev_seq e].
Proof. unfold seqs. rewrite map_app. reflexivity. Qed.

Definition serve_ok (rs : list req) (p : spc) : Prop :=
  match p with
  | SLooked st (Some i) => s_resp st = true /\ exists r, nth_error rs i = Some r /\ r_id r = s_id st
  | SOffer st i =>
      s_resp st = true /\
      exists r, nth_error rs i = Some r /\ r_id r = s_id st /\ name_match (r_name r) (s_name st) = true
  | SAwait st i => exists r, nth_error rs i = Some r /\ got (r_pc r) = Some st
  | SPanic => False
  | _ => True
  end.

(* what the serve goroutine and the history say of the record of call i: a
   response that is still open is the one serve awaits; a response received is
   the call's own and its hand-off is in the history; the context path was
   taken only after cancellation *)
Definition req_ok (p : spc) (h : list event) (i : nat) (r : req) : Prop :=
  (forall st, holding (r_pc r) = Some st -> p = SAwait st i) /\
  (forall st, got (r_pc r) = Some st ->
     s_id st = r_id r /\ name_match (r_name r) (s_name st) = true /\ s_resp st = true /\
     In (EDeliver (s_seq st) i) h) /\
  (ctx_path (r_pc r) = true -> r_canc r = true).

Record Inv (fx : bool) (s : state) : Prop := {
  inv_pend : forall id i, In (id, i) (pend s) ->
    exists r, nth_error (reqs s) i = Some r /\ r_id r = id /\ is_ret (r_pc r) = false;
  inv_serve : serve_ok (reqs s) (serve s);
  inv_wf : forall st, cur_stanza (serve s) = Some st -> n_local (s_name st) <> 0%N;
  inv_req : all_calls (req_ok (serve s) (hist s)) (reqs s);
  inv_ledger : ledger (seqs s) (arrived s) (option_map s_seq (cur_stanza (serve s)));
  inv_deliv : forall q i, In (EDeliver q i) (hist s) ->
    exists r, nth_error (reqs s) i = Some r /\ exists st, s_seq st = q /\ got (r_pc r) = Some st;
  inv_drop : forall q i, In (EDrop q i) (hist s) ->
    exists r, nth_error (reqs s) i = Some r /\ ctx_done fx r = true
}.

Lemma Inv_init fx : Inv fx init.
Proof.
  constructor; cbn; try (intros i r Hi; destruct (nth_nil i r Hi)); try contradiction;
    try discriminate; auto using ledger_init.
Qed.

Definition rtarget (l : label) : target :=
  match l with
  | LStart _ _ => TNew
  | LSendOk i | LSendFail i | LRecv i | LCtxDone i | LDereg i | LClose i | LCancel i => TCall i
  | _ => TNone
  end.

(* what the step of a label does to the record of the call it names: the guard
   the step function tests, and the new record *)
Inductive rmove (r : req) : label -> req -> Prop :=
| rm_sent i (E : r_pc r = RReg) : rmove r (LSendOk i) (set_pc r RSelect)
| rm_sendfail i (E : r_pc r = RReg) : rmove r (LSendFail i) (set_pc r RSendErr)
| rm_recv i st (E : r_pc r = RSelect) : rmove r (LRecv i) (set_pc r (RGot st))
| rm_ctx i (E : r_pc r = RSelect) (Ec : r_canc r = true) : rmove r (LCtxDone i) (set_pc r RCtx)
| rm_ret_reply i st (E : r_pc r = RGot st) : rmove r (LDereg i) (set_pc r (RRet (OReply st) false))
| rm_ret_ctx i (E : r_pc r = RCtx) : rmove r (LDereg i) (set_pc r (RRet OCtxErr false))
| rm_ret_send i (E : r_pc r = RSendErr) : rmove r (LDereg i) (set_pc r (RRet OSendErr false))
| rm_close i st (E : r_pc r = RRet (OReply st) false) : rmove r (LClose i) (set_pc r (RRet (OReply st) true))
| rm_cancel i : rmove r (LCancel i) (mkreq (r_id r) (r_name r) true (r_pc r)).

Definition req_fresh (l : label) (calls : list req) (r : req) : Prop :=
  match l with LStart id nm => r = mkreq id nm false RReg | _ => False end.

Lemma req_step_inv s i f s' :
  req_step s i f = Some s' ->
  exists r r', nth_error (reqs s) i = Some r /\ f r = Some r' /\ s' = set_reqs s (upd (reqs s) i r').
Proof.
  unfold req_step. destruct (nth_error (reqs s) i) as [r|]; [|discriminate].
  destruct (f r) as [r'|] eqn:Hf; [|discriminate]. intro H. injection H as <-. eauto.
Qed.

(* one step, read once: the list of calls, the table, and that the steps of a
   call leave the serve goroutine, the arrival count and the history alone *)
Record step_spec (s : state) (l : label) (s' : state) : Prop := {
  sp_reqs : calls_at (fun r r' => rmove r l r') (req_fresh l) (rtarget l) (reqs s) (reqs s');
  sp_pend : match l with
            | LStart id _ => pend s' = insert id (length (reqs s)) (pend s)
            | LDereg i => forall r, nth_error (reqs s) i = Some r -> pend s' = remove_id (r_id r) (pend s)
            | _ => pend s' = pend s
            end;
  sp_serve : match l with
             | LStart _ _ | LSendOk _ | LSendFail _ | LCtxDone _ | LDereg _ | LClose _ | LCancel _ =>
                 serve s' = serve s /\ arrived s' = arrived s /\ hist s' = hist s
             | _ => True
             end
}.

Theorem step_sound fx s l s' : step fx s l = Some s' -> step_spec s l s'.
Proof.
  intro H. destruct l; cbn [step] in H; unfold req_step in H; step_cases H; injection H as <-;
    (constructor; cbn [rtarget calls_at reqs pend serve arrived hist set_reqs set_serve add_hist];
     [ (* the calls: untouched, one moved, one started *)
       first [reflexivity
             |do 2 eexists; split; [eassumption|split; [|reflexivity]]; constructor; assumption
             |eexists; split; reflexivity]
     | first [reflexivity|congruence]
     | auto ]).
Qed.

Lemma step_reqs fx s l s' :
  step fx s l = Some s' -> calls_at (fun r r' => rmove r l r') (req_fresh l) (rtarget l) (reqs s) (reqs s').
Proof. intro H. exact (sp_reqs _ _ _ (step_sound fx s l s' H)). Qed.

(* what call i may do to its own record without disturbing anybody else *)
Definition ok_upd (r r' : req) : Prop :=
  r_id r' = r_id r /\ r_name r' = r_name r /\
  (r_canc r = true -> r_canc r' = true) /\ (is_ret (r_pc r) = true -> is_ret (r_pc r') = true) /\
  got (r_pc r') = got (r_pc r) /\
  (forall st, holding (r_pc r') = Some st -> holding (r_pc r) = Some st) /\
  (ctx_path (r_pc r') = true -> ctx_path (r_pc r) = true \/ r_canc r' = true).

Lemma Inv_req_update fx s i r r' s' :
  Inv fx s -> nth_error (reqs s) i = Some r -> ok_upd r r' ->
  reqs s' = upd (reqs s) i r' -> incl (pend s') (pend s) ->
  (forall id, In (id, i) (pend s') -> is_ret (r_pc r') = false) ->
  serve s' = serve s /\ arrived s' = arrived s /\ hist s' = hist s ->
  Inv fx s'.
Proof.
  intros [Ip Is Iw Ir Il Idl Idr] Hi (Hid & Hnm & Hcanc & Hret & Hgot & Hhold & Hctx) Er Hsub Hlive (Es & Ea & Eh).
  constructor; unfold seqs; rewrite ?Er, ?Es, ?Ea, ?Eh; auto.
  - intros id j Hin. eapply nth_upd_ex; [exact Hi| |exact (Ip id j (Hsub _ Hin))].
    intros -> [A _]. split; [congruence|eauto].
  - unfold serve_ok in *. destruct (serve s) as [|st|st [j|]|st j|st j|st|st|]; auto.
    + destruct Is as [Hr Is]. split; [exact Hr|]. eapply nth_upd_ex; [exact Hi| |exact Is]. congruence.
    + destruct Is as [Hr Is]. split; [exact Hr|]. eapply nth_upd_ex; [exact Hi| |exact Is].
      intros _ [A B]. split; congruence.
    + eapply nth_upd_ex; [exact Hi| |exact Is]. congruence.
  - apply (all_calls_upd _ _ _ i r r' Ir Hi); [auto|]. unfold req_ok. rewrite Hgot, Hid, Hnm. intros (A & B & C).
    split; [auto|split; [auto|]]. intro P. destruct (Hctx P); auto.
  - intros q j Hin. eapply nth_upd_ex; [exact Hi| |exact (Idl q j Hin)]. intros _ [st A]. exists st. congruence.
  - intros q j Hin. eapply nth_upd_ex; [exact Hi| |exact (Idr q j Hin)]. intros _. apply ctx_done_mono; assumption.
Qed.

Lemma rmove_ok r l r' : rmove r l r' -> (forall i, l <> LRecv i) -> ok_upd r r'.
Proof.
  intros M N. unfold ok_upd. destruct M; try destruct (N i eq_refl); cbn; try rewrite E;
    repeat split; intros; auto; discriminate.
Qed.

Lemma rmove_live r l r' : rmove r l r' -> (forall i, l <> LDereg i) -> is_ret (r_pc r') = is_ret (r_pc r).
Proof.
  intros M N. destruct M; try destruct (N i eq_refl); cbn; try rewrite E; reflexivity.
Qed.

(* the steps of a call other than the hand-off *)
Lemma Inv_call_step fx s l s' :
  Inv fx s -> step fx s l = Some s' ->
  match l with LSendOk _ | LSendFail _ | LCancel _ | LCtxDone _ | LClose _ | LDereg _ => True | _ => False end ->
  Inv fx s'.
Proof.
  intros I H Hl. destruct (step_sound fx s l s' H) as [Mc Ep Es].
  destruct l; try contradiction; destruct Mc as (r & r' & Hi & M & Er);
    (apply (Inv_req_update fx s _ r r' s' I Hi (rmove_ok r _ r' M ltac:(discriminate)) Er); [| |exact Es]);
    try (rewrite Ep; apply incl_refl);
    try (intros id Hin; rewrite Ep in Hin; rewrite (rmove_live r _ r' M) by discriminate;
         destruct (inv_pend _ _ I id _ Hin) as (x & Hx & _ & Hl'); congruence).
  (* LDereg: the entry goes with the call *)
  - rewrite (Ep r Hi). intros [id j] Hin. apply in_remove_id in Hin. exact (proj1 Hin).
  - intros id Hin. rewrite (Ep r Hi) in Hin. apply in_remove_id in Hin. destruct Hin as [Hin Hne].
    destruct (inv_pend _ _ I id i Hin) as (x & Hx & Hxid & _). congruence.
Qed.

Lemma Inv_start_step fx s id nm s' : Inv fx s -> step fx s (LStart id nm) = Some s' -> Inv fx s'.
Proof.
  intros [Ip Is Iw Ir Il Idl Idr] H. cbn [step] in H. injection H as <-.
  constructor; cbn [reqs pend serve arrived hist]; auto.
  - intros k j Hin. apply in_insert in Hin. destruct Hin as [[-> ->]|Hin]; [|apply nth_app_ex; eauto].
    eexists. split; [apply nth_app_new|auto].
  - unfold serve_ok in *. destruct (serve s) as [|st|st [j|]|st j|st j|st|st|]; auto.
    + destruct Is as [Hr Is]. split; [exact Hr|apply nth_app_ex; exact Is].
    + destruct Is as [Hr Is]. split; [exact Hr|apply nth_app_ex; exact Is].
    + apply nth_app_ex. exact Is.
  - apply (all_calls_snoc _ _ _ _ Ir); [auto|]. repeat split; discriminate.
  - intros q j Hq. apply nth_app_ex. eauto.
  - intros q j Hq. apply nth_app_ex. eauto.
Qed.

Definition push {A} (h : list A) (o : option A) : list A :=
  match o with Some e => h ++ [e] | None => h end.

(* The serve goroutine moves to [p], possibly having read one more element,
   possibly recording the fate [o] of the element it leaves. *)
Lemma Inv_serve_update fx s p a o :
  Inv fx s -> serve_ok (reqs s) p ->
  (forall st, cur_stanza p = Some st -> n_local (s_name st) <> 0%N) ->
  (forall i r st, nth_error (reqs s) i = Some r -> holding (r_pc r) = Some st ->
                  serve s = SAwait st i -> p = SAwait st i) ->
  ledger (map ev_seq (push (hist s) o)) a (option_map s_seq (cur_stanza p)) ->
  match o with
  | None | Some (EHandle _) => True
  | Some (EDrop _ i) => exists r, nth_error (reqs s) i = Some r /\ ctx_done fx r = true
  | Some (EDeliver _ _) => False
  end ->
  Inv fx (mkstate (reqs s) (pend s) p a (push (hist s) o)).
Proof.
  intros [Ip Is Iw Ir Il Idl Idr] Hs Hw Hh Hl He.
  assert (Hold : forall e, In e (hist s) -> In e (push (hist s) o))
    by (destruct o; cbn; intros; [apply in_or_app|]; auto).
  constructor; cbn [reqs pend serve arrived hist]; auto.
  - intros i r Hi. destruct (Ir i r Hi) as (A & B & C). split; [eauto|split; [|exact C]].
    intros st Hg. destruct (B st Hg) as (B1 & B2 & B3 & B4). auto.
  - intros q i H. destruct o as [e|]; cbn in H; [|eauto].
    apply in_snoc in H. destruct H as [H| ->]; [eauto|destruct He].
  - intros q i H. destruct o as [e|]; cbn in H; [|eauto].
    apply in_snoc in H. destruct H as [H| ->]; [eauto|exact He].
Qed.

Lemma name_zero_empty nm : name_eqb zero_name (empty_space nm) = true -> n_local nm = 0%N.
Proof. intro H. apply name_eqb_eq in H. unfold zero_name, empty_space in H. injection H as H. auto. Qed.

Lemma Inv_serve_step fx s l s' :
  wf_label l = true -> Inv fx s -> step fx s l = Some s' ->
  match l with
  | LArrive _ _ _ | LLookup | LDecide | LOfferCtx | LAwaitDone | LDrain | LHandler => True
  | _ => False
  end ->
  Inv fx s'.
Proof.
  intros W I H Hl.
  pose proof (inv_serve _ _ I) as Is. pose proof (inv_wf _ _ I) as Iw. pose proof (inv_ledger _ _ I) as Il.
  destruct l; try contradiction; cbn [step] in H;
    destruct (serve s) as [|st|st e|st i|st i|st|st|] eqn:Es; try discriminate; cbn in Is, Iw, Il.
  - (* LArrive *) injection H as <-. apply (Inv_serve_update fx s _ _ None I); cbn; auto; try congruence.
    + intros st E. injection E as <-. cbn in *. apply negb_true_iff, N.eqb_neq in W. exact W.
    + apply ledger_arrive. exact Il.
  - (* LLookup *) destruct (s_resp st) eqn:Er; injection H as <-; apply (Inv_serve_update fx s _ _ None I); cbn; auto;
      try congruence.
    destruct (lookup (s_id st) (pend s)) as [i|] eqn:El; [|exact Logic.I].
    apply lookup_in in El. destruct (inv_pend _ _ I _ _ El) as (r & Hr & Hid & _). eauto.
  - (* LDecide *) destruct e as [i|].
    + destruct Is as [Hresp (r & Hr & Hid)]. rewrite Hr in H.
      destruct (name_match (r_name r) (s_name st)) eqn:En; injection H as <-;
        apply (Inv_serve_update fx s _ _ None I); cbn; eauto 8; congruence.
    + destruct (name_eqb zero_name (empty_space (s_name st))) eqn:En.
      * apply name_zero_empty in En. destruct (Iw st eq_refl En).
      * injection H as <-. apply (Inv_serve_update fx s _ _ None I); cbn; auto; congruence.
  - (* LOfferCtx *) destruct (nth_error (reqs s) i) as [r|] eqn:Hi; [|discriminate].
    destruct (ctx_done fx r) eqn:Hd; [|discriminate]. injection H as <-.
    apply (Inv_serve_update fx s _ _ (Some (EDrop (s_seq st) i)) I); cbn; eauto; try congruence.
    rewrite seqs_app. apply ledger_settle. exact Il.
  - (* LAwaitDone *) destruct (nth_error (reqs s) i) as [r|] eqn:Hi; [|discriminate].
    destruct (r_pc r) as [| | | | |[st1| |] [|]] eqn:Ep; try discriminate. injection H as <-.
    apply (Inv_serve_update fx s _ _ None I); cbn; auto; try discriminate.
    intros j x st0 Hj Hh E. rewrite Es in E. injection E as <- <-.
    rewrite Hi in Hj. injection Hj as <-. rewrite Ep in Hh. discriminate.
  - (* LDrain *) injection H as <-. apply (Inv_serve_update fx s _ _ None I); cbn; auto; congruence.
  - (* LHandler *) injection H as <-. apply (Inv_serve_update fx s _ _ (Some (EHandle (s_seq st))) I); cbn; auto;
      try congruence.
    rewrite seqs_app. apply ledger_settle. exact Il.
Qed.

Lemma Inv_recv_step fx s i s' : Inv fx s -> step fx s (LRecv i) = Some s' -> Inv fx s'.
Proof.
  intros I H. cbn [step] in H. destruct (serve s) as [| | |st j| | | |] eqn:Es; try discriminate.
  destruct (Nat.eqb i j) eqn:Eij; [|discriminate]. apply Nat.eqb_eq in Eij. subst j.
  destruct (nth_error (reqs s) i) as [r|] eqn:Hi; [|discriminate].
  destruct (r_pc r) eqn:Ep; try discriminate. injection H as <-.
  destruct I as [Ip Is Iw Ir Il Idl Idr]. rewrite Es in Is, Il, Ir. cbn in Is, Il.
  destruct Is as [Hresp (r0 & Hr0 & Hid & Hnm)]. rewrite Hi in Hr0. injection Hr0 as <-.
  constructor; cbn [reqs pend serve arrived hist cur_stanza option_map].
  - intros id j Hin. eapply nth_upd_ex; [exact Hi| |exact (Ip id j Hin)]. intros _ [A _]. split; [exact A|reflexivity].
  - exists (set_pc r (RGot st)). split; [eapply Heap.nth_error_set_nth_same; eauto|reflexivity].
  - discriminate.
  - apply (all_calls_upd _ _ _ i r _ Ir Hi); unfold req_ok; cbn.
    + (* nobody else holds a response while serve offers *)
      intros j y _ (A & B & C). split; [|split; [|exact C]].
      * intros st0 Hh. discriminate (A st0 Hh).
      * intros st0 Hg. rewrite in_snoc. destruct (B st0 Hg) as (B1 & B2 & B3 & B4). auto.
    + intros _. split; [|split; [|discriminate]]; intros st0 E; injection E as <-; rewrite ?in_snoc; auto.
  - unfold seqs. cbn [hist]. rewrite seqs_app. apply ledger_settle. exact Il.
  - intros q j Hq. apply in_snoc in Hq. destruct Hq as [Hq|Hq].
    + eapply nth_upd_ex; [exact Hi| |exact (Idl q j Hq)]. intros _ [st0 [_ A]]. rewrite Ep in A. discriminate.
    + injection Hq as <- <-. exists (set_pc r (RGot st)). split; [eapply Heap.nth_error_set_nth_same; eauto|]. exists st. auto.
  - intros q j Hq. apply in_snoc in Hq. destruct Hq as [Hq|Hq]; [|discriminate].
    eapply nth_upd_ex; [exact Hi| |exact (Idr q j Hq)]. intros _. apply ctx_done_mono; cbn; [auto|rewrite Ep; discriminate].
Qed.

Theorem Inv_step fx s l s' :
  wf_label l = true -> Inv fx s -> step fx s l = Some s' -> Inv fx s'.
Proof.
  intros W I H. destruct l.
  (* LSendOk, LSendFail, LCtxDone, LDereg, LClose, LCancel; then LArrive ... LHandler *)
  2-3,5-8: exact (Inv_call_step fx s _ s' I H Logic.I).
  3-9: exact (Inv_serve_step fx s _ s' W I H Logic.I).
  - (* LStart *) exact (Inv_start_step fx s id nm s' I H).
  - (* LRecv *) exact (Inv_recv_step fx s i s' I H).
Qed.

Theorem Inv_run fx tr s :
  forallb wf_label tr = true -> run (step fx) init tr = Some s -> Inv fx s.
Proof.
  intro W. apply (invariant_run_guarded _ _ (step fx) (fun l => wf_label l = true) (Inv fx) (Inv_step fx)).
  - apply forallb_forall. exact W.
  - apply Inv_init.
Qed.

Inductive pc_next : rpc -> rpc -> Prop :=
| pn_send : pc_next RReg RSelect
| pn_sendfail : pc_next RReg RSendErr
| pn_recv st : pc_next RSelect (RGot st)
| pn_ctx : pc_next RSelect RCtx
| pn_ret_reply st : pc_next (RGot st) (RRet (OReply st) false)
| pn_ret_ctx : pc_next RCtx (RRet OCtxErr false)
| pn_ret_send : pc_next RSendErr (RRet OSendErr false)
| pn_close st : pc_next (RRet (OReply st) false) (RRet (OReply st) true).

Definition req_succ (r r' : req) : Prop :=
  r_id r' = r_id r /\ r_name r' = r_name r /\ (r_canc r = true -> r_canc r' = true) /\
  (r_pc r' = r_pc r \/ pc_next (r_pc r) (r_pc r')).

Lemma rmove_succ r l r' : rmove r l r' -> req_succ r r' /\ ((forall i, l <> LCancel i) -> r_canc r' = r_canc r).
Proof.
  intro M. unfold req_succ. destruct M; cbn; try rewrite E; repeat split; auto using pc_next.
  intro N. destruct (N i eq_refl).
Qed.

Lemma step_call fx s l s' j r :
  step fx s l = Some s' -> nth_error (reqs s) j = Some r ->
  exists r', nth_error (reqs s') j = Some r' /\ req_succ r r' /\ (l <> LCancel j -> r_canc r' = r_canc r).
Proof.
  intros H Hj. destruct (calls_fwd _ _ _ _ _ j r (step_reqs fx s l s' H) Hj) as (r' & Hj' & M).
  exists r'. split; [exact Hj'|]. destruct M as [->|[T M]]; [unfold req_succ; auto 6|].
  destruct (rmove_succ r l r' M) as [S C]. split; [exact S|]. intro N. apply C. intros i ->. injection T as ->. exact (N eq_refl).
Qed.

Lemma returned_succ r r' o c :
  req_succ r r' -> r_pc r = RRet o c ->
  exists c', r_pc r' = RRet o c' /\ (c = true -> c' = true).
Proof.
  intros (_ & _ & _ & [E|N]) Hp.
  - exists c. rewrite E. auto.
  - rewrite Hp in N. inversion N; subst. exists true. auto.
Qed.

Definition no_waiter (s : state) (st : stanza) : Prop :=
  s_resp st = false \/
  (lookup (s_id st) (pend s) = None /\ n_local (s_name st) <> 0%N) \/
  (exists i r, lookup (s_id st) (pend s) = Some i /\ nth_error (reqs s) i = Some r /\
               name_match (r_name r) (s_name st) = false).

Definition handler_path (st : stanza) : list label :=
  if s_resp st then [LLookup; LDecide; LHandler] else [LLookup; LHandler].

Definition enabled (fx : bool) (s : state) (l : label) : Prop := step fx s l <> None.

(* The clause for an offer to a call that has returned is guarded by [fx = true]:
   at [fx = false] it says nothing, so [serve_waits false] holds in every
   reachable state too, the stalled one included. *)
Definition serve_waits (fx : bool) (s : state) : Prop :=
  match serve s with
  | SIdle => True
  | SRead _ => enabled fx s LLookup
  | SLooked _ _ => enabled fx s LDecide
  | SDrain _ => enabled fx s LDrain
  | SHandler _ => enabled fx s LHandler
  | SOffer st i =>
      exists r, nth_error (reqs s) i = Some r /\
      match r_pc r with
      | RSelect => enabled fx s (LRecv i)
      | RReg => enabled fx s (LSendOk i) /\ enabled fx s (LSendFail i)
      | RSendErr => enabled fx s (LDereg i)
      | RCtx => enabled fx s LOfferCtx
      | RRet _ _ => fx = true -> enabled fx s LOfferCtx
      | RGot _ => False
      end
  | SAwait st i =>
      exists r, nth_error (reqs s) i = Some r /\
      match r_pc r with
      | RGot st' => st' = st /\ enabled fx s (LDereg i)
      | RRet (OReply st') false => st' = st /\ enabled fx s (LClose i)
      | RRet (OReply st') true => st' = st /\ enabled fx s LAwaitDone
      | _ => False
      end
  | SPanic => False
  end.

Lemma serve_waits_inv fx s : Inv fx s -> serve_waits fx s.
Proof.
  intro I. unfold serve_waits, enabled. pose proof (inv_serve _ _ I) as Is. unfold serve_ok in Is.
  destruct (serve s) as [|st|st e|st i|st i|st|st|] eqn:Es; auto; cbn [step]; rewrite ?Es; try discriminate.
  - destruct (s_resp st); discriminate.
  - destruct e as [i|].
    + destruct Is as [_ [r [Hr _]]]. rewrite Hr. destruct (name_match _ _); discriminate.
    + destruct (name_eqb _ _); discriminate.
  - destruct Is as [_ [r [Hr _]]]. exists r. split; [exact Hr|].
    destruct (inv_req _ _ I i r Hr) as (Ih & _ & Ic). rewrite Es in Ih.
    destruct (r_pc r) as [| |st'| | |o c] eqn:Ep.
    + unfold req_step. rewrite Hr, Ep. split; discriminate.
    + rewrite Nat.eqb_refl, Hr, Ep. discriminate.
    + discriminate (Ih st' eq_refl).
    + rewrite Hr, ctx_done_canc; [discriminate|]. exact (Ic eq_refl).
    + rewrite Hr, Ep. discriminate.
    + intros ->. rewrite Hr, ctx_done_ret; [discriminate|]. rewrite Ep. reflexivity.
  - destruct Is as [r [Hr Hg]]. exists r. split; [exact Hr|].
    destruct (r_pc r) as [| |st'| | |[st'| |] c] eqn:Ep; try discriminate; injection Hg as ->.
    + split; [reflexivity|]. rewrite Hr, Ep. discriminate.
    + destruct c; (split; [reflexivity|]).
      * rewrite Hr, Ep. discriminate.
      * unfold req_step. rewrite Hr, Ep. discriminate.
Qed.

Definition stalled (s : state) (st : stanza) (i : nat) : Prop :=
  serve s = SOffer st i /\
  exists r o c, nth_error (reqs s) i = Some r /\ r_pc r = RRet o c /\ r_canc r = false.

Lemma stalled_step s l s' st i :
  l <> LCancel i -> stalled s st i -> step false s l = Some s' -> stalled s' st i.
Proof.
  intros Hl [Es (r & o & c & Hi & Hp & Hc)] H. split.
  - destruct l; try (rewrite (proj1 (sp_serve _ _ _ (step_sound false s _ s' H))); exact Es);
      cbn [step] in H; rewrite Es in H; try discriminate.
    + destruct (Nat.eqb i0 i) eqn:E; [|discriminate]. apply Nat.eqb_eq in E. subst i0.
      rewrite Hi, Hp in H. discriminate.
    + rewrite Hi, ctx_done_pinned, Hc in H. discriminate.
  - destruct (step_call false s l s' i r H Hi) as (r' & Hi' & S & C).
    destruct (returned_succ _ _ _ _ S Hp) as (c' & Hp' & _).
    exists r', o, c'. rewrite (C Hl). auto.
Qed.

Lemma stalled_run s st i tr s' :
  stalled s st i -> ~ In (LCancel i) tr -> run (step false) s tr = Some s' -> stalled s' st i.
Proof.
  intros St Hn.
  apply (invariant_run_guarded _ _ (step false) (fun l => l <> LCancel i) (fun s => stalled s st i)
           (fun s l s' => stalled_step s l s' st i) tr s s'); [|exact St].
  intros l Hl ->. exact (Hn Hl).
Qed.

Definition iq : name := mkname 1 1.
(* a reply is looked up and offered while its call is between registration
   and a failing SendElement; the call then returns without taking it *)
Definition stall_trace : list label :=
  [LStart 7 iq; LArrive 7 iq true; LLookup; LDecide; LSendFail 0; LDereg 0].

(* [stall_trace] on the repaired code: the serve goroutine is released. *)
Lemma fixed_no_stall :
  exists s, run (step true) init (stall_trace ++ [LOfferCtx; LDrain]) = Some s /\ serve s = SIdle.
Proof. eexists. split; [vm_compute; reflexivity|reflexivity]. Qed.
