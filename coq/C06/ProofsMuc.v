(* C06/ProofsMuc.v — lemmas about the MUC join/leave transition system of
   C06/ModelExt.v (muc/muc.go HandlePresence, muc/room.go JoinPresence /
   LeavePresence; [muc_step true] is the code, [muc_step false] the pinned
   design with an unbuffered depart channel). *)
From Coq Require Import List Arith NArith Bool Lia.
Import ListNotations.
From XV Require Import lib.Lts C06.Model C06.ModelExt C06.Calls C06.Proofs.

Definition mtarget (l : muclabel) : target :=
  match l with
  | MStartJoin | MStartLeave => TNew
  | MEnter i | MCancel i | MCtx i | MErrReply i | MErrRecv i | MJoinRecv i | MDepartTo i | MDepartRecv i => TCall i
  | _ => TNone
  end.

(* what the step of a label does to the record of the call it names: the guard
   the step function tests, and the new record *)
Inductive mmove (c : mcall) : muclabel -> mcall -> Prop :=
| mm_enter i (E : m_pc c = MSpawned) : mmove c (MEnter i) (set_mpc c MWait)
| mm_cancel i : mmove c (MCancel i) (mkmcall (m_kind c) true (m_pc c) (m_err c) (m_pre c))
| mm_ctx i (E : m_pc c = MWait) (Ec : m_canc c = true) : mmove c (MCtx i) (set_mpc c (MRet MCtxErr))
| mm_offer i (Eo : is_mret (m_pc c) || m_err c = false) :
    mmove c (MErrReply i) (mkmcall (m_kind c) (m_canc c) (m_pc c) true (m_pre c))
| mm_err i (E : m_pc c = MWait) (Ee : m_err c = true) : mmove c (MErrRecv i) (set_mpc c (MRet MErr))
| mm_joined i (E : m_pc c = MWait) : mmove c (MJoinRecv i) (set_mpc c (MRet MJoined))
| mm_to i (E : waiting_leave c = true) : mmove c (MDepartTo i) (set_mpc c (MRet MLeft))
| mm_recv i (E : waiting_leave c = true) : mmove c (MDepartRecv i) (set_mpc c (MRet MLeft)).

(* the join attempt is the first call; a Leave call records whether the room is still there *)
Definition mfresh (s : mucstate) (l : muclabel) (calls : list mcall) (c : mcall) : Prop :=
  match l with
  | MStartJoin => calls = [] /\ c = mkmcall MJoin false MSpawned false true
  | MStartLeave => calls <> [] /\ c = mkmcall MLeave false MSpawned false (negb (mu_gone s))
  | _ => False
  end.

Lemma mfresh_new s l calls c : mfresh s l calls c -> m_pc c = MSpawned /\ (m_kind c = MJoin <-> calls = []).
Proof.
  destruct l; try contradiction; intros [E ->]; (split; [reflexivity|]); cbn; split; intro; congruence.
Qed.

Lemma waiting_leave_pc c : waiting_leave c = true -> m_kind c = MLeave /\ m_pc c = MWait.
Proof. unfold waiting_leave. destruct (m_kind c); [discriminate|]. destruct (m_pc c); try discriminate. auto. Qed.

Lemma mmove_same c l c' : mmove c l c' -> m_kind c' = m_kind c /\ m_pre c' = m_pre c.
Proof. intros []; split; reflexivity. Qed.

Lemma mmove_ret c l c' o : mmove c l c' -> m_pc c = MRet o -> m_pc c' = MRet o.
Proof. intros [] Hp; cbn; try congruence; destruct (waiting_leave_pc c); congruence. Qed.

Definition has_left (c : mcall) : bool := match m_pc c with MRet MLeft => true | _ => false end.

Lemma has_left_pc c : has_left c = true <-> m_pc c = MRet MLeft.
Proof. unfold has_left. destruct (m_pc c) as [| |[]]; split; congruence. Qed.

(* only the hand-off of the departure notification makes a call leave *)
Definition departs (l : muclabel) : nat := match l with MDepartTo _ | MDepartRecv _ => 1 | _ => 0 end.

Lemma mmove_left c l c' : mmove c l c' -> b2n (has_left c') = b2n (has_left c) + departs l.
Proof.
  intros []; unfold has_left; cbn; try (apply waiting_leave_pc in E; destruct E as [_ E]);
    rewrite ?E, ?Nat.add_0_r; reflexivity.
Qed.

Section Fx.
Variable fx : bool.

Definition left_count (s : mucstate) : nat := count has_left (mu_calls s).

(* the handler is between the deletion of the room's entry and the depart send *)
Definition busy (h : mhpc) : bool := match h with MHUnavail => true | _ => false end.

Lemma busy_unavail h : busy h = true <-> h = MHUnavail.
Proof. destruct h; split; (reflexivity || discriminate). Qed.

(* one step, read once.  What it does to the list of calls; the room's entry,
   the depart buffer, the counters and the handler's place in the departure as
   functions of the label; where a buffered or taken join context can come
   from; what the label has tested *)
Record muc_spec (s : mucstate) (l : muclabel) (s' : mucstate) : Prop := {
  ms_calls : calls_at (fun c c' => mmove c l c') (mfresh s l) (mtarget l) (mu_calls s) (mu_calls s');
  ms_gone : mu_gone s' = match l with MUnavailArrive => true | _ => mu_gone s end;
  ms_dtok : mu_dtok s' = match l with
                         | MDepartKept => true
                         | MDepartTo _ | MDepartRecv _ | MStartLeave => false
                         | _ => mu_dtok s
                         end;
  ms_drained : mu_drained s' = match l with MStartLeave => b2n (mu_dtok s) + mu_drained s | _ => mu_drained s end;
  ms_lost : mu_lost s' = match l with MDepartLost => S (mu_lost s) | _ => mu_lost s end;
  ms_busy : busy (mu_h s') = match l with
                             | MUnavailArrive => true
                             | MDepartTo _ | MDepartKept | MDepartLost => false
                             | _ => busy (mu_h s)
                             end;
  ms_idle : mu_h s = MHIdle -> mu_gone s = true -> mu_h s' = MHIdle;
  ms_buf : forall j, mu_joinbuf s' = Some j -> mu_joinbuf s = Some j \/
     exists c, nth_error (mu_calls s') j = Some c /\ m_kind c = MJoin;
  ms_taken : forall j, mu_h s' = MHTaken j -> mu_h s = MHTaken j \/ mu_joinbuf s = Some j;
  ms_tested : match l with
              | MJoinRecv j => mu_h s = MHTaken j
              | MUnavailArrive => mu_h s = MHIdle /\ mu_gone s = false
              | MDepartTo _ => mu_h s = MHUnavail /\ mu_dtok s = false
              | MDepartKept => mu_h s = MHUnavail /\ mu_dtok s = false /\ fx = true
              | MDepartLost => mu_h s = MHUnavail /\ (fx = true -> mu_dtok s = true)
              | MDepartRecv _ => mu_dtok s = true
              | _ => True
              end
}.

Theorem muc_step_sound s l s' : muc_step fx s l = Some s' -> muc_spec s l s'.
Proof.
  intro H. destruct l; cbn [muc_step] in H; unfold mcall_step in H; step_cases H; injection H as <-;
    repeat match goal with
    | E : _ && _ = true |- _ => apply andb_prop in E; destruct E
    | E : negb _ = true |- _ => apply negb_true_iff in E
    | E : Nat.eqb _ _ = true |- _ => apply Nat.eqb_eq in E; subst
    end;
    (* per leaf: the fields of the state written, with what the step found when it tested the old one *)
    (constructor;
     cbn [mtarget calls_at mu_calls mu_gone mu_dtok mu_drained mu_lost mu_h mu_joinbuf muc_set_h muc_set_calls];
     repeat match goal with E : ?x = _ |- context [?x] => rewrite E end;
     [ (* the calls: untouched, one moved, one started *)
       first [reflexivity
             |do 2 eexists; split; [reflexivity|split; [constructor; assumption|reflexivity]]
             |eexists; split; [split; [congruence|reflexivity]|reflexivity]]
     | reflexivity | reflexivity | reflexivity | reflexivity | reflexivity
     | intros; congruence
     | (* the join buffer is filled by the join call only *)
       intros k E; first [discriminate|left; exact E|injection E as <-; right; eexists; split; reflexivity]
     | intros k E; first [discriminate|left; exact E|right; congruence]
     | repeat split; intros; auto; congruence ]).
Qed.

Lemma muc_calls s l s' :
  muc_step fx s l = Some s' ->
  calls_at (fun c c' => mmove c l c') (mfresh s l) (mtarget l) (mu_calls s) (mu_calls s').
Proof. intro H. exact (ms_calls _ _ _ (muc_step_sound s l s' H)). Qed.

Lemma muc_step_succ s l s' i c :
  muc_step fx s l = Some s' -> nth_error (mu_calls s) i = Some c ->
  exists c', nth_error (mu_calls s') i = Some c' /\ (c' = c \/ mtarget l = TCall i /\ mmove c l c').
Proof. intro H. exact (calls_fwd _ _ _ _ _ i c (muc_calls s l s' H)). Qed.

Lemma muc_step_kept s l s' i c :
  muc_step fx s l = Some s' -> nth_error (mu_calls s) i = Some c ->
  exists c', nth_error (mu_calls s') i = Some c' /\ m_kind c' = m_kind c /\ m_pre c' = m_pre c.
Proof.
  intros H Hi. destruct (muc_step_succ s l s' i c H Hi) as (c' & Hc & [->|[_ M]]); eauto using mmove_same.
Qed.

Lemma left_count_step s l s' : muc_step fx s l = Some s' -> left_count s' = left_count s + departs l.
Proof.
  intro H. unfold left_count.
  rewrite (count_at _ _ has_left (departs l) _ _ _ (muc_calls s l s' H)).
  - destruct l; reflexivity.
  - intros x x'. apply mmove_left.
  - intros x Hx. unfold has_left. rewrite (proj1 (mfresh_new _ _ _ _ Hx)). reflexivity.
Qed.

Lemma muc_step_frame s l s' :
  muc_step fx s l = Some s' ->
  (mu_gone s = true -> mu_gone s' = true) /\
  (mu_h s' = MHUnavail -> mu_h s = MHUnavail \/ mu_gone s' = true) /\
  (mu_dtok s' = true -> mu_dtok s = true \/ fx = true /\ mu_h s = MHUnavail).
Proof.
  intro H. destruct (muc_step_sound s l s' H) as [_ Eg Et _ _ Eb _ _ _ Gd].
  repeat split; [rewrite Eg|intro Hu; rewrite Hu in Eb; rewrite Eg|rewrite Et]; destruct l; auto; try discriminate;
    first [left; apply busy_unavail; symmetry; exact Eb|right; tauto].
Qed.

Definition mout_ok (c : mcall) : Prop :=
  match m_pc c with
  | MRet MCtxErr => m_canc c = true
  | MRet MErr => m_err c = true
  | MRet MJoined => m_kind c = MJoin
  | MRet MLeft => m_kind c = MLeave
  | _ => True
  end.

Lemma mout_ok_move c l c' :
  mmove c l c' -> mout_ok c -> (forall j, l = MJoinRecv j -> m_kind c = MJoin) -> mout_ok c'.
Proof.
  intros M O J. unfold mout_ok in *. destruct M; cbn; eauto;
    try (destruct (m_pc c) as [| |[]]; auto; fail); apply waiting_leave_pc in E; apply E.
Qed.

Definition noleft (s : mucstate) : Prop :=
  forall i c, nth_error (mu_calls s) i = Some c -> m_pc c <> MRet MLeft.

(* the room's unavailable presence has been handled completely *)
Definition settled (s : mucstate) : Prop := mu_gone s = true /\ mu_h s <> MHUnavail.

(* a Leave call that started after the departure was handled *)
Definition late_leave (s : mucstate) : Prop :=
  exists j c, nth_error (mu_calls s) j = Some c /\ m_kind c = MLeave /\ m_pre c = false.

Lemma late_leave_step s l s' : muc_step fx s l = Some s' -> late_leave s -> late_leave s'.
Proof.
  intros H (j & c & Hj & K & P). destruct (muc_step_kept s l s' j c H Hj) as (c' & Hc & K' & P').
  exists j, c'. repeat split; congruence.
Qed.

Definition settledb (s : mucstate) : bool := mu_gone s && negb (busy (mu_h s)).

Lemma settledb_settled s : settledb s = true <-> settled s.
Proof.
  unfold settledb, settled. rewrite andb_true_iff, negb_true_iff. destruct (mu_h s); cbn; split; intros [A B]; split; auto; congruence.
Qed.

(* where the departure notification can be: buffered, with the Leave call it
   brought back, discarded as stale by a starting Leave call, dropped *)
Definition tokens (s : mucstate) : nat := b2n (mu_dtok s) + left_count s + mu_drained s + mu_lost s.

(* [mi_tokens]: the notification is conserved.  There is none until the room's
   unavailable presence has been handled and exactly one from then on, in one
   of the four places; in the code it is never dropped ([mi_lost]). *)
Record MucInv (s : mucstate) : Prop := {
  mi_kind : all_calls (fun i c => m_kind c = MJoin <-> i = 0) (mu_calls s);
  mi_buf : forall j, mu_joinbuf s = Some j -> exists c, nth_error (mu_calls s) j = Some c /\ m_kind c = MJoin;
  mi_taken : forall j, mu_h s = MHTaken j -> exists c, nth_error (mu_calls s) j = Some c /\ m_kind c = MJoin;
  mi_unavail : mu_h s = MHUnavail -> mu_gone s = true;
  mi_fx : mu_dtok s = true -> fx = true;
  mi_out : all_calls (fun _ c => mout_ok c) (mu_calls s);
  mi_tokens : tokens s = b2n (settledb s);
  mi_lost : fx = true -> mu_lost s = 0;
  mi_late : 0 < mu_drained s -> late_leave s
}.

Lemma MucInv_init : MucInv muc_init.
Proof.
  constructor; cbn; try discriminate; try reflexivity; try (intros i c H; destruct (nth_nil _ _ H)). intro H. inversion H.
Qed.

Theorem MucInv_step s l s' : MucInv s -> muc_step fx s l = Some s' -> MucInv s'.
Proof.
  intros [Ik Ib It Iu Ifx Io T Lo La] H.
  destruct (muc_step_sound s l s' H) as [Mc Eg Et Ed El Eb _ Jb Jt Gd].
  destruct (muc_step_frame s l s' H) as (G & Fu & Ft).
  assert (Kept : forall j, (exists c, nth_error (mu_calls s) j = Some c /\ m_kind c = MJoin) ->
                  exists c', nth_error (mu_calls s') j = Some c' /\ m_kind c' = MJoin).
  { intros j (c & Hc & K). destruct (muc_step_kept s l s' j c H Hc) as (c' & Hc' & K' & _).
    exists c'. split; [exact Hc'|congruence]. }
  unfold tokens, settledb in T.
  constructor.
  - apply (all_calls_at _ _ _ _ _ _ _ (muc_calls s l s' H) Ik); [auto| |].
    + intros i c c' _ _ M. rewrite (proj1 (mmove_same _ _ _ M)). auto.
    + intros c N. rewrite (proj2 (mfresh_new _ _ _ _ N)). destruct (mu_calls s); split; (reflexivity || discriminate).
  - intros j Hj. destruct (Jb j Hj) as [A|A]; auto.
  - intros j Hj. destruct (Jt j Hj) as [A|A]; auto.
  - intro Hu. destruct (Fu Hu) as [A|A]; auto.
  - intro Ht. destruct (Ft Ht) as [A|[A _]]; auto.
  - apply (all_calls_at _ _ _ _ _ _ _ (muc_calls s l s' H) Io); [auto| |].
    + (* the join hand-off goes to the call whose context the handler took from the buffer *)
      intros i c c' Tg Hc0 M O. apply (mout_ok_move c l c' M O). intros j ->. injection Tg as ->.
      destruct (It i Gd) as (c0 & A & B). congruence.
    + intros c N. unfold mout_ok. rewrite (proj1 (mfresh_new _ _ _ _ N)). exact Logic.I.
  - unfold tokens, settledb. rewrite Eg, Et, Ed, El, Eb, (left_count_step s l s' H).
    destruct l; cbn [departs]; try (rewrite Nat.add_0_r; exact T).
    + (* MStartLeave: a buffered notification becomes a discarded one *)
      rewrite <- T. destruct (mu_dtok s); cbn; lia.
    + (* MUnavailArrive: the room goes, the handler is busy with it *)
      destruct Gd as [Hh Hg]. rewrite Hg in T. rewrite andb_false_r. cbn in T |- *. lia.
    + (* MDepartTo, MDepartKept, MDepartLost: the handler has deleted the room; the notification
         comes into being with the call, in the buffer, dropped *)
      destruct Gd as [Hh Hd]. rewrite Hh, Hd, andb_false_r in T. rewrite (Iu Hh). cbn in T |- *. lia.
    + destruct Gd as (Hh & Hd & _). rewrite Hh, Hd, andb_false_r in T. rewrite (Iu Hh). cbn in T |- *. lia.
    + destruct Gd as [Hh _]. rewrite Hh, andb_false_r in T. rewrite (Iu Hh). cbn in T |- *. lia.
    + (* MDepartRecv: from the buffer to the call *)
      rewrite <- T, Gd. cbn. lia.
  - intro Ef. rewrite El. destruct l; auto.
    (* MDepartLost is not enabled: the buffer is empty while the presence is being handled *)
    destruct Gd as [Hh Hd]. rewrite Hh, (Hd Ef), andb_false_r in T. discriminate.
  - rewrite Ed. destruct l; try (intro D; apply (late_leave_step s _ s' H), La, D).
    (* MStartLeave discards a buffered notification: the room is gone, the call is a late one *)
    destruct (mu_dtok s) eqn:Dt; [intros _|intro D; apply (late_leave_step s _ s' H), La, D].
    assert (Hg : mu_gone s = true) by (destruct (mu_gone s); [reflexivity|cbn in T; lia]).
    destruct (muc_calls s _ s' H) as (x & [_ ->] & Ec).
    exists (length (mu_calls s)). eexists. rewrite Ec. split; [apply nth_app_new|]. rewrite Hg. auto.
Qed.

Lemma left_gone s i c : MucInv s -> nth_error (mu_calls s) i = Some c -> m_pc c = MRet MLeft -> mu_gone s = true.
Proof.
  intros I Hi Hp. pose proof (mi_tokens _ I) as T. apply has_left_pc in Hp.
  pose proof (count_some has_left _ i c Hi Hp). unfold tokens, left_count, settledb in T.
  destruct (mu_gone s); [reflexivity|]. cbn in T. lia.
Qed.

Theorem MucInv_run tr s : run (muc_step fx) muc_init tr = Some s -> MucInv s.
Proof.
  apply (invariant_run _ _ (muc_step fx) MucInv muc_init MucInv_init).
  intros s0 l s1 I H. exact (MucInv_step s0 l s1 I H).
Qed.

Definition muc_enabled (s : mucstate) (l : muclabel) : Prop := muc_step fx s l <> None.

Definition muc_handler_waits (s : mucstate) : Prop :=
  match mu_h s with
  | MHIdle => True
  | MHAvail => muc_enabled s MTake
  | MHTaken j =>
      exists c, nth_error (mu_calls s) j = Some c /\
      match m_pc c with
      | MSpawned => if m_canc c then muc_enabled s MSkip else muc_enabled s (MEnter j)
      | MWait => muc_enabled s (MJoinRecv j)
      | MRet _ => muc_enabled s MSkip
      end
  | MHUnavail => muc_enabled s MDepartLost \/ muc_enabled s MDepartKept \/ exists l, muc_enabled s (MDepartTo l)
  end.

Definition leave_stuck (s : mucstate) (i : nat) : Prop :=
  mu_h s = MHIdle /\ mu_gone s = true /\ mu_dtok s = false /\
  exists c, nth_error (mu_calls s) i = Some c /\ m_kind c = MLeave /\ m_pc c = MWait /\
            m_canc c = false /\ m_err c = false.

Lemma leave_stuck_step s l s' i :
  l <> MCancel i /\ l <> MErrReply i -> leave_stuck s i -> muc_step fx s l = Some s' -> leave_stuck s' i.
Proof.
  intros [N1 N2] (Eh & Eg & Et & c & Hi & Ek & Ep & Ec & Ee) H.
  destruct (muc_step_sound s l s' H) as [_ _ _ _ _ _ Fi _ _ Gd].
  destruct (muc_step_frame s l s' H) as (G & _ & Ft).
  assert (C : mu_dtok s' = false) by (destruct (mu_dtok s'); [destruct (Ft eq_refl) as [X|[_ X]]; congruence|reflexivity]).
  repeat split; auto.
  destruct (muc_step_succ s l s' i c H Hi) as (c' & Hi' & [->|[Tg M]]); [eauto 8|exfalso].
  (* the handler is idle, nothing is buffered, the call is neither cancelled nor refused *)
  destruct M; injection Tg as ->; cbv iota in Gd; try congruence.
  destruct Gd. congruence.
Qed.

Lemma leave_stuck_run s i tr s' :
  leave_stuck s i -> ~ In (MCancel i) tr -> ~ In (MErrReply i) tr ->
  run (muc_step fx) s tr = Some s' -> leave_stuck s' i.
Proof.
  intros St N1 N2.
  apply (invariant_run_guarded _ _ (muc_step fx) (fun l => l <> MCancel i /\ l <> MErrReply i)
           (fun s => leave_stuck s i) (fun s l s' => leave_stuck_step s l s' i) tr s s'); [|exact St].
  intros l Hl. split; intros ->; auto.
Qed.

End Fx.

Definition lost_depart_trace : list muclabel :=
  [MStartJoin; MEnter 0; MAvailArrive; MTake; MJoinRecv 0; MStartLeave; MUnavailArrive; MDepartLost; MEnter 1].

(* [lost_depart_trace] is not a schedule of the code: there the notification is kept, and then taken *)
Lemma muc_depart_kept_then_taken :
  exists s c, run (muc_step true) muc_init
    [MStartJoin; MEnter 0; MAvailArrive; MTake; MJoinRecv 0; MStartLeave; MUnavailArrive; MDepartKept; MEnter 1; MDepartRecv 1] = Some s /\
    nth_error (mu_calls s) 1 = Some c /\ m_pc c = MRet MLeft /\
    run (muc_step true) muc_init lost_depart_trace = None.
Proof. eexists. eexists. split; [vm_compute; reflexivity|]. repeat split. Qed.

(* the notification is taken away from a waiting call only by a second,
   overlapping Leave call that starts after the departure was handled *)
Definition drained_trace : list muclabel :=
  [MStartJoin; MEnter 0; MAvailArrive; MTake; MJoinRecv 0; MStartLeave; MUnavailArrive; MDepartKept;
   MStartLeave; MEnter 1; MEnter 2].
