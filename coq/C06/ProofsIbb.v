(* C06/ProofsIbb.v — lemmas about the in-band bytestream reader transition
   systems of C06/ModelExt.v: [ibbf_step], the code (ibb/conn.go Read / Close /
   closeRead / closeNoNotify, ibb/ibb.go handlePayload after the repairs), and
   [ibb_step], the pinned design, for the witnesses of what was repaired. *)
From Coq Require Import List Arith Lia.
Import ListNotations.
From XV Require Import lib.Lts C06.ModelExt C06.Proofs.

(* [fin]: one goal per clause, closed if it holds outright *)
Ltac fin := repeat match goal with |- _ /\ _ => split end; intros;
  try assumption; try reflexivity; try discriminate; try congruence; auto.

Definition ibbf_enabled (s : ibbfstate) (l : ibbflabel) : Prop := ibbf_step s l <> None.

Fixpoint delivered_bytes (o : list rdout) : nat :=
  match o with
  | [] => 0
  | RdData n :: rest => n + delivered_bytes rest
  | RdEOF :: rest => delivered_bytes rest
  end.

Fixpoint accepted_bytes (tr : list ibbflabel) : nat :=
  match tr with
  | [] => 0
  | FData _ n :: rest => n + accepted_bytes rest
  | _ :: rest => accepted_bytes rest
  end.

Lemma delivered_app a b : delivered_bytes (a ++ b) = delivered_bytes a + delivered_bytes b.
Proof. induction a as [|x a IH]; cbn; [reflexivity|]. destruct x; rewrite IH; lia. Qed.

Lemma accepted_app a b : accepted_bytes (a ++ b) = accepted_bytes a + accepted_bytes b.
Proof. induction a as [|x a IH]; cbn; [reflexivity|]. destruct x; rewrite ?IH; lia. Qed.

(* bytes of a packet whose handler holds the lock and has not appended yet *)
Definition pending_bytes (s : ibbfstate) : nat := match fb_h s with FHLocked _ n => n | _ => 0 end.

(* [fi_data] is the no-lost-wake-up argument: a reader that has seen, or is
   waiting on, an empty buffer finds a token as soon as bytes are there and the
   handler has left its critical section.  It survives FWait because the
   reader takes the token only to re-test, FCheck because the handler is then
   not idle, and FNotify because that step wakes the reader or leaves the token.
   [fi_locked]: both closes need the lock the handler holds. *)
Record FInv (s : ibbfstate) : Prop := {
  fi_locked : fb_h s <> FHIdle -> fb_closed s = false;
  fi_waiting : fb_rd s = FWaiting -> fb_closed s = false /\ fb_tok s = false;
  fi_data : (fb_rd s = FChecked \/ fb_rd s = FWaiting) -> 0 < fb_buf s -> fb_h s = FHIdle -> fb_tok s = true;
  fi_woken : fb_rd s = FWoken false -> fb_closed s = true;
  fi_eof : In RdEOF (fb_outs s) -> fb_closed s = true;
  fi_refused : fb_refused s = 0;
  fi_panic : fb_h s <> FHPanic
}.

Lemma FInv_init : FInv ibbf_init.
Proof. constructor; cbn; try discriminate; try tauto; intros; try lia. Qed.

(* [finx]: give the clauses of the invariant their premises, split what comes
   out, read the tests on the buffer as facts about it, and close as [fin] does *)
Ltac finx := repeat match goal with
  | H : ?P, F : ?P -> _ |- _ => specialize (F H)
  | H : _ /\ _ |- _ => destruct H
  | H : _ \/ _ |- _ => destruct H
  | H : In RdEOF (_ ++ [_]) |- _ => apply in_snoc in H
  | H : (_ =? 0) = true |- _ => apply Nat.eqb_eq in H
  | H : (_ =? 0) = false |- _ => apply Nat.eqb_neq in H
  end; try discriminate; try congruence; try lia; auto.

(* [simp_fb]: the fields of the state a step has written *)
Ltac simp_fb := unfold rd_take, fb_set_rd, close_read;
  cbn [fb_h fb_closed fb_rd fb_tok fb_buf fb_outs fb_refused].

(* both kinds of close are closeRead *)
Lemma FInv_close s : FInv s -> fb_h s = FHIdle -> FInv (close_read s).
Proof.
  intros [Il Iw Id Iwk Ie Ir Ip] Eh. constructor; simp_fb; rewrite ?Eh; fin;
    try (destruct (fb_rd s) eqn:Er; finx; fail).
  all: try (destruct (fb_rd s) eqn:Er; finx; apply Id; auto).
Qed.

Lemma FInv_step s l s' : FInv s -> ibbf_step s l = Some s' -> FInv s'.
Proof.
  intros I H. destruct l; cbn [ibbf_step] in H.
  (* FCloseRemote, FCloseLocal *)
  7-8: (destruct (fb_h s) eqn:Eh; try discriminate; destruct (fb_closed s) eqn:Ec; try discriminate;
        injection H as <-; apply FInv_close; assumption).
  all: destruct I as [Il Iw Id Iwk Ie Ir Ip].
  - (* FRead *) destruct (fb_rd s) eqn:Er; try discriminate. destruct cap; try discriminate.
    destruct (fb_h s) eqn:Eh; try discriminate.
    destruct (Nat.eqb (fb_buf s) 0) eqn:E0; injection H as <-; constructor; simp_fb; rewrite ?Eh; fin; finx.
  - (* FWait *) destruct (fb_rd s) eqn:Er; try discriminate.
    destruct (fb_tok s) eqn:Et; [|destruct (fb_closed s) eqn:Ec]; injection H as <-; constructor;
      simp_fb; rewrite ?Et, ?Ec; fin; finx.
  - (* FWake *) destruct (fb_rd s) eqn:Er; try discriminate. destruct cap; try discriminate.
    destruct (fb_h s) eqn:Eh; try discriminate.
    destruct (Nat.eqb (fb_buf s) 0) eqn:E0; [destruct open|]; injection H as <-; constructor;
      simp_fb; rewrite ?Eh; fin; finx.
  - (* FData *) destruct (fb_h s) eqn:Eh; try discriminate. destruct (fb_closed s) eqn:Ec; try discriminate.
    injection H as <-. constructor; simp_fb; rewrite ?Ec; fin; finx.
    all: try (apply Iw; auto).
  - (* FCheck *) destruct (fb_h s) eqn:Eh; try discriminate.
    assert (Ec : fb_closed s = false) by (apply Il; discriminate). rewrite Ec in H.
    injection H as <-. constructor; simp_fb; fin; finx.
    all: try (apply Iw; auto).
  - (* FNotify *) destruct (fb_h s) eqn:Eh; try discriminate.
    assert (Ec : fb_closed s = false) by (apply Il; discriminate). rewrite Ec in H.
    destruct (fb_rd s) eqn:Er; injection H as <-; constructor; simp_fb; rewrite ?Er; fin; finx.
Qed.

Theorem FInv_run tr s : run ibbf_step ibbf_init tr = Some s -> FInv s.
Proof.
  apply (invariant_run _ _ ibbf_step FInv ibbf_init FInv_init).
  intros s0 l s1 I H. exact (FInv_step s0 l s1 I H).
Qed.

(* no lost wake-up: a reader is never left blocked while bytes are buffered
   and the handler is outside its critical section *)
Definition f_no_lost_wakeup (s : ibbfstate) : Prop :=
  fb_rd s = FWaiting -> fb_h s = FHIdle -> fb_buf s = 0.

Lemma ibbf_never_refused_under_lock_run tr s : run ibbf_step ibbf_init tr = Some s -> fb_refused s = 0.
Proof. intro R. apply (fi_refused _ (FInv_run tr s R)). Qed.

(* the premise of the byte balance is [fi_locked]: a packet is refused, and its
   bytes dropped, only on a closed stream, and the lock keeps the stream open *)
Lemma ibbf_io_step s l s' :
  ibbf_step s l = Some s' ->
  exists more, fb_outs s' = fb_outs s ++ more /\ length more <= 1 /\
    ((fb_h s <> FHIdle -> fb_closed s = false) ->
     delivered_bytes more + fb_buf s' + pending_bytes s' = fb_buf s + pending_bytes s + accepted_bytes [l]).
Proof.
  intro H.
  destruct l; cbn [ibbf_step] in H; step_cases H; injection H as <-;
    unfold pending_bytes, rd_take, fb_set_rd, close_read; cbn [fb_outs fb_buf fb_h accepted_bytes];
    try match goal with E : fb_h s = _ |- _ => rewrite E end;
    (* the results: none, or the one the step wrote *)
    (first [exists []; split; [symmetry; apply app_nil_r|] | eexists; split; [reflexivity|]]);
    (split; [cbn; auto|]); intro Lk; cbn [delivered_bytes];
    try discriminate (Lk ltac:(discriminate));
    try match goal with
        | E : (_ =? 0) = true |- _ => apply Nat.eqb_eq in E
        | E : (_ =? 0) = false |- _ => apply Nat.eqb_neq in E
        end; lia.
Qed.

(* the schedules that broke the pinned design, on the code *)
Lemma ibbf_window_schedule :
  exists s, run ibbf_step ibbf_init [FRead 4; FData CIq 3; FCheck; FNotify; FWait; FWake 4] = Some s /\
            fb_outs s = [RdData 3] /\ fb_rd s = FNone.
Proof. eexists. split; [vm_compute; reflexivity|]. split; reflexivity. Qed.

Lemma ibbf_empty_packet_schedule :
  exists s, run ibbf_step ibbf_init [FRead 4; FWait; FData CMsg 0; FCheck; FNotify; FWake 4; FWait] = Some s /\
            fb_outs s = [] /\ fb_rd s = FWaiting.
Proof. eexists. split; [vm_compute; reflexivity|]. split; reflexivity. Qed.

Lemma ibbf_data_after_close_schedule :
  exists s, run ibbf_step ibbf_init [FCloseLocal] = Some s /\ ibbf_step s (FData CIq 3) = None.
Proof. eexists. split; [vm_compute; reflexivity|reflexivity]. Qed.

(* data appended while the reader is blocked: the code notifies and wakes it, on either carrier *)
Lemma ibbf_msg_carrier_wakes c :
  exists s, run ibbf_step ibbf_init [FRead 4; FWait; FData c 3; FCheck; FNotify; FWake 4] = Some s /\
    fb_outs s = [RdData 3].
Proof. destruct c; eexists; (split; [vm_compute; reflexivity|reflexivity]). Qed.

Definition ibb_enabled (s : ibbstate) (l : ibblabel) : Prop := ibb_step s l <> None.

Definition lost_wakeup_trace : list ibblabel := [IRead 4; IData 3; INotify; IWait].
