(* C06/ProofsRx.v — lemmas about the receipts transition system (ModelExt.v). *)
From Coq Require Import List Arith NArith Bool Lia.
Import ListNotations.
From XV Require Import lib.Lts C06.Model C06.ModelExt C06.Calls C06.Proofs.
From XV Require lib.Heap.

Definition rx_seqs (s : rxstate) : list nat := map rx_seq (rx_hist s).

Lemma rx_seqs_app s e : map rx_seq (rx_hist s ++ [e]) = rx_seqs s ++ [rx_seq e].
Proof. unfold rx_seqs. rewrite map_app. reflexivity. Qed.

Definition rx_cur (h : hpc) : option nat :=
  match h with HRead _ q | HNotify _ _ q | HUnh _ q => Some q | _ => None end.

Definition xctx_path (p : xpc) : bool := match p with XCtxP | XRet XCtxErr => true | _ => false end.

(* a token on sender i's channel was put there by the handler, after it took
   the entry, and the history says so.  A sender returns nil only with it, the
   context error only when cancelled. *)
Definition snd_ok (hist : list rxev) (i : nat) (x : snd) : Prop :=
  (x_tok x = true -> x_taken x = true /\ exists q, In (RNotified q (x_id x) i) hist) /\
  (x_pc x = XRet XOk -> x_tok x = true) /\
  (xctx_path (x_pc x) = true -> x_canc x = true).

Record RxInv (s : rxstate) : Prop := {
  rxi_tab : forall id i, In (id, i) (rx_tab s) ->
    exists x, nth_error (rx_snd s) i = Some x /\ x_id x = id /\ x_taken x = false;
  rxi_snd : all_calls (snd_ok (rx_hist s)) (rx_snd s);
  rxi_h : match rx_h s with
    | HNotify i id q => exists x, nth_error (rx_snd s) i = Some x /\ x_id x = id /\
                                  x_taken x = true /\ x_tok x = false
    | HPanic => False
    | _ => True
    end;
  rxi_ledger : ledger (rx_seqs s) (rx_arrived s) (rx_cur (rx_h s));
  rxi_notif : forall q id i, In (RNotified q id i) (rx_hist s) ->
    exists x, nth_error (rx_snd s) i = Some x /\ x_id x = id /\ x_tok x = true;
  rxi_one : forall q q' id id' i, In (RNotified q id i) (rx_hist s) ->
    In (RNotified q' id' i) (rx_hist s) -> q = q'
}.

Lemma RxInv_init : RxInv rx_init.
Proof.
  constructor; cbn; try (intros i x Hi; destruct (nth_nil _ _ Hi)); try contradiction; auto using ledger_init.
Qed.

Lemma RxInv_snd_update s i x x' tab' :
  RxInv s -> nth_error (rx_snd s) i = Some x ->
  x_id x' = x_id x -> x_taken x' = x_taken x -> x_tok x' = x_tok x ->
  (x_pc x' = XRet XOk -> x_tok x = true) ->
  (xctx_path (x_pc x') = true -> x_canc x' = true) ->
  incl tab' (rx_tab s) ->
  RxInv (mkrx (upd (rx_snd s) i x') tab' (rx_h s) (rx_arrived s) (rx_hist s)).
Proof.
  intros [It Is Ih Il In1 In3] Hi Hid Htk Hto Hok Hctx Hsub.
  constructor; cbn [rx_snd rx_tab rx_h rx_arrived rx_hist]; auto.
  - intros id j Hin. eapply nth_upd_ex; [exact Hi| |exact (It id j (Hsub _ Hin))].
    intros _ [A B]. split; congruence.
  - apply (all_calls_upd _ _ _ i x x' Is Hi); [auto|]. unfold snd_ok. rewrite Htk, Hto, Hid. intros [A _]. auto.
  - destruct (rx_h s) as [| |j id q| |]; auto.
    eapply nth_upd_ex; [exact Hi| |exact Ih]. intros _ (A & B & C). repeat split; congruence.
  - intros q id j Hin. eapply nth_upd_ex; [exact Hi| |exact (In1 q id j Hin)].
    intros _ [A B]. split; congruence.
Qed.

Lemma RxInv_snd_step s l s' :
  RxInv s -> rx_step true s l = Some s' ->
  match l with XSendOk _ | XSendFail _ | XCancel _ | XCtxDone _ | XRecv _ | XDereg _ => True | _ => False end ->
  RxInv s'.
Proof.
  intros I H Hl. destruct l; try contradiction; cbn [rx_step] in H; unfold snd_step in H;
    destruct (nth_error (rx_snd s) i) as [x|] eqn:Hi; try discriminate;
    destruct (rxi_snd _ I i x Hi) as (_ & So & Sc).
  - (* XSendOk *) destruct (x_pc x) eqn:E; try discriminate. injection H as <-.
    apply (RxInv_snd_update s i x _ _ I Hi); cbn; auto using incl_refl; discriminate.
  - (* XSendFail *) destruct (x_pc x) eqn:E; try discriminate. injection H as <-.
    apply (RxInv_snd_update s i x _ _ I Hi); cbn; auto using incl_refl; discriminate.
  - (* XRecv *) destruct (x_pc x) eqn:E; try discriminate. cbn in H.
    destruct (x_tok x) eqn:Et; try discriminate. injection H as <-.
    apply (RxInv_snd_update s i x _ _ I Hi); cbn; auto using incl_refl; discriminate.
  - (* XCtxDone *) destruct (x_pc x) eqn:E; try discriminate.
    destruct (x_canc x) eqn:Ec; try discriminate. injection H as <-.
    apply (RxInv_snd_update s i x _ _ I Hi); cbn; auto using incl_refl; discriminate.
  - (* XDereg *) destruct (x_pc x) eqn:E; try discriminate; injection H as <-;
      apply (RxInv_snd_update s i x _ _ I Hi); cbn; auto; try discriminate;
      intros [id j] Hin; apply in_remove_id in Hin; exact (proj1 Hin).
  - (* XCancel *) injection H as <-.
    apply (RxInv_snd_update s i x _ _ I Hi); cbn; auto using incl_refl.
Qed.

Lemma RxInv_h_update s h a o :
  RxInv s ->
  match h with HNotify _ _ _ | HPanic => False | _ => True end ->
  ledger (map rx_seq (push (rx_hist s) o)) a (rx_cur h) ->
  match o with Some (RNotified _ _ _) => False | _ => True end ->
  RxInv (mkrx (rx_snd s) (rx_tab s) h a (push (rx_hist s) o)).
Proof.
  intros [It Is Ih Il In1 In3] Hh Hl Ho.
  assert (Hev : forall q id i, In (RNotified q id i) (push (rx_hist s) o) <-> In (RNotified q id i) (rx_hist s)).
  { intros q id i. destruct o as [[]|]; cbn; rewrite ?in_snoc; try tauto.
    split; [intros [A|A]; [exact A|discriminate]|auto]. }
  constructor; cbn [rx_snd rx_tab rx_h rx_arrived rx_hist]; auto.
  - intros i x Hi. destruct (Is i x Hi) as (A & B). split; [|exact B].
    intro T. destruct (A T) as (A1 & q & A2). split; [exact A1|]. exists q. apply Hev. exact A2.
  - destruct h; first [exact I|destruct Hh].
  - intros q id i Hin. apply Hev in Hin. eauto.
  - intros q q' id id' i A B. apply Hev in A, B. eauto.
Qed.

(* the handler's steps that leave the senders alone: XLookup only when it finds
   no entry (the other case is [RxInv_lookup_step]) *)
Lemma RxInv_h_step s l s' :
  RxInv s -> rx_step true s l = Some s' ->
  match l with XArrive _ | XLookup | XUnhandled => True | _ => False end ->
  (l = XLookup -> exists id q, rx_h s = HRead id q /\ lookup id (rx_tab s) = None) ->
  RxInv s'.
Proof.
  intros I H Hl Hn. pose proof (rxi_ledger _ I) as Il.
  destruct l; try contradiction; cbn [rx_step] in H.
  - (* XArrive *) destruct (rx_h s) eqn:Eh; try discriminate. injection H as <-.
    apply (RxInv_h_update s _ _ None I); cbn; auto. apply ledger_arrive. exact Il.
  - (* XLookup *) destruct (Hn eq_refl) as (id & q & Eh & El). rewrite Eh, El in H. injection H as <-.
    rewrite Eh in Il. apply (RxInv_h_update s _ _ None I); cbn; auto.
  - (* XUnhandled *) destruct (rx_h s) as [| | |id q|] eqn:Eh; try discriminate. injection H as <-.
    apply (RxInv_h_update s _ _ (Some (RUnhandled q id)) I); cbn; auto.
    rewrite rx_seqs_app. apply ledger_settle. exact Il.
Qed.

Lemma RxInv_start_step s id s' : RxInv s -> rx_step true s (XStart id) = Some s' -> RxInv s'.
Proof.
  intros [It Is Ih Il In1 In3] H. cbn [rx_step] in H. injection H as <-.
  constructor; cbn [rx_snd rx_tab rx_h rx_arrived rx_hist]; auto.
  - intros k j Hin. apply in_insert in Hin. destruct Hin as [[-> ->]|Hin]; [|apply nth_app_ex; eauto].
    eexists. split; [apply nth_app_new|auto].
  - apply (all_calls_snoc _ _ _ _ Is); [auto|]. repeat split; discriminate.
  - destruct (rx_h s) as [| |j k q| |]; auto. apply nth_app_ex. exact Ih.
  - intros q k j Hin. apply nth_app_ex. eauto.
Qed.

Lemma RxInv_lookup_step s s' : RxInv s -> rx_step true s XLookup = Some s' -> RxInv s'.
Proof.
  intros I H. destruct (rx_h s) as [|id q| | |] eqn:Eh; try (cbn [rx_step] in H; rewrite Eh in H; discriminate).
  destruct (lookup id (rx_tab s)) as [i|] eqn:El;
    [|apply (RxInv_h_step s XLookup s' I H Logic.I); eauto].
  cbn [rx_step] in H. rewrite Eh, El in H.
  destruct (nth_error (rx_snd s) i) as [x|] eqn:Hi; [|discriminate]. injection H as <-.
  apply lookup_in in El. destruct (rxi_tab _ I id i El) as (x0 & Hx0 & Hid & Htk).
  rewrite Hi in Hx0. injection Hx0 as <-.
  destruct I as [It Is Ih Il In1 In3]. rewrite Eh in Il.
  (* its channel is empty: a token comes only after the entry was taken *)
  assert (Hto : x_tok x = false).
  { destruct (Is i x Hi) as [A _]. destruct (x_tok x); [destruct (A eq_refl); congruence|reflexivity]. }
  constructor; cbn [rx_snd rx_tab rx_h rx_arrived rx_hist rx_cur]; auto.
  - intros k j Hin. apply in_remove_id in Hin. destruct Hin as [Hin Hne].
    eapply nth_upd_ex; [exact Hi| |exact (It k j Hin)]. intros _ [A _]. congruence.
  - apply (all_calls_upd _ _ _ i x _ Is Hi); unfold snd_ok; cbn [x_taken x_tok x_pc x_canc x_id].
    + auto.
    + rewrite Hto. intros [_ B]. split; [discriminate|exact B].
  - eexists. split; [eapply Heap.nth_error_set_nth_same; eauto|auto].
  - intros q0 k j Hin. eapply nth_upd_ex; [exact Hi| |exact (In1 q0 k j Hin)]. intros _ A. exact A.
Qed.

Lemma RxInv_notify_step s s' : RxInv s -> rx_step true s XNotify = Some s' -> RxInv s'.
Proof.
  intros I H. cbn [rx_step] in H. destruct (rx_h s) as [| |i id q| |] eqn:Eh; try discriminate.
  destruct (nth_error (rx_snd s) i) as [x|] eqn:Hi; [|discriminate].
  destruct (x_tok x) eqn:Hto; [discriminate|]. injection H as <-.
  assert (Hnoev : forall q0 k, ~ In (RNotified q0 k i) (rx_hist s)).
  { intros q0 k Hin. destruct (rxi_notif _ I q0 k i Hin) as [y [Hy [_ B]]]. congruence. }
  destruct I as [It Is Ih Il In1 In3]. rewrite Eh in Ih, Il.
  destruct Ih as (x0 & Hx0 & Hid & Htk & _). rewrite Hi in Hx0. injection Hx0 as <-.
  constructor; cbn [rx_snd rx_tab rx_h rx_arrived rx_hist rx_cur]; auto.
  - intros k j Hin. eapply nth_upd_ex; [exact Hi| |exact (It k j Hin)]. intros _ A. exact A.
  - apply (all_calls_upd _ _ _ i x _ Is Hi); unfold snd_ok; cbn [x_taken x_tok x_pc x_canc x_id].
    + intros j y _ (A & B). split; [|exact B]. intro T. destruct (A T) as (A1 & q0 & A2).
      split; [exact A1|]. exists q0. apply in_snoc. auto.
    + intros (_ & _ & C). repeat split; auto. exists q. apply in_snoc. rewrite Hid. auto.
  - unfold rx_seqs. cbn [rx_hist]. rewrite rx_seqs_app. apply ledger_settle. exact Il.
  - intros q0 k j Hin. apply in_snoc in Hin. destruct Hin as [Hin|Hin].
    + eapply nth_upd_ex; [exact Hi| |exact (In1 q0 k j Hin)]. intros _ [A _]. auto.
    + injection Hin as <- <- <-. eexists. split; [eapply Heap.nth_error_set_nth_same; eauto|auto].
  - intros q1 q2 k1 k2 j A B. apply in_snoc in A, B. destruct A as [A|A], B as [B|B].
    + eauto.
    + injection B as <- <- <-. destruct (Hnoev _ _ A).
    + injection A as <- <- <-. destruct (Hnoev _ _ B).
    + congruence.
Qed.

Theorem RxInv_step s l s' : RxInv s -> rx_step true s l = Some s' -> RxInv s'.
Proof.
  intros I H. destruct l.
  (* the steps of one sender: XSendOk ... XCancel *)
  2-7: exact (RxInv_snd_step s _ s' I H Logic.I).
  - (* XStart *) exact (RxInv_start_step s id s' I H).
  - (* XArrive *) apply (RxInv_h_step s _ s' I H Logic.I). discriminate.
  - (* XLookup *) exact (RxInv_lookup_step s s' I H).
  - (* XNotify *) exact (RxInv_notify_step s s' I H).
  - (* XUnhandled *) apply (RxInv_h_step s _ s' I H Logic.I). discriminate.
Qed.

Theorem RxInv_run tr s : run (rx_step true) rx_init tr = Some s -> RxInv s.
Proof. exact (invariant_run _ _ (rx_step true) RxInv rx_init RxInv_init RxInv_step tr s). Qed.

Lemma rx_ret_stable fx s l s' j x o :
  rx_step fx s l = Some s' -> nth_error (rx_snd s) j = Some x -> x_pc x = XRet o ->
  exists x', nth_error (rx_snd s') j = Some x' /\ x_pc x' = XRet o /\ x_id x' = x_id x.
Proof.
  intros H Hj Hp.
  assert (Old : exists a, nth_error (rx_snd s) j = Some a /\ x_pc a = XRet o /\ x_id a = x_id x) by eauto.
  assert (Upd : forall i y y', nth_error (rx_snd s) i = Some y -> x_id y' = x_id y ->
            (forall o', x_pc y = XRet o' -> x_pc y' = XRet o') ->
            exists a, nth_error (upd (rx_snd s) i y') j = Some a /\ x_pc a = XRet o /\ x_id a = x_id x).
  { intros i y y' Hi Hid Hpc. eapply nth_upd_ex; [exact Hi| |exact Old]. intros _ [A B]. split; [auto|congruence]. }
  destruct l; cbn [rx_step] in H; unfold snd_step in H; step_cases H; injection H as <-;
    cbn [rx_snd rx_set_snd]; try exact Old; try (apply nth_app_ex; exact Old);
    (eapply Upd; [eassumption|reflexivity|cbn; congruence]).
Qed.

Definition rx_enabled (s : rxstate) (l : rxlabel) : Prop := rx_step true s l <> None.

Lemma rx_outcome_run tr s i x o :
  run (rx_step true) rx_init tr = Some s -> nth_error (rx_snd s) i = Some x -> x_pc x = XRet o ->
  match o with
  | XOk => exists q, In (RNotified q (x_id x) i) (rx_hist s)
  | XCtxErr => x_canc x = true
  | XSendErr => True
  end.
Proof.
  intros R Hi Hp. destruct (rxi_snd _ (RxInv_run tr s R) i x Hi) as (A & B & C). destruct o; auto.
  - exact (proj2 (A (B Hp))).
  - apply C. rewrite Hp. reflexivity.
Qed.

Lemma rx_handler_progress_run tr s :
  run (rx_step true) rx_init tr = Some s ->
  match rx_h s with
  | HIdle => True
  | HRead _ _ => rx_enabled s XLookup
  | HNotify _ _ _ => rx_enabled s XNotify
  | HUnh _ _ => rx_enabled s XUnhandled
  | HPanic => False
  end.
Proof.
  intro R. pose proof (RxInv_run tr s R) as I. pose proof (rxi_h _ I) as Ih.
  unfold rx_enabled. destruct (rx_h s) as [|id q|i id q|id q|] eqn:Eh; auto; cbn [rx_step]; rewrite Eh.
  - destruct (lookup id (rx_tab s)) as [i|] eqn:El; [|discriminate].
    apply lookup_in in El. destruct (rxi_tab _ I id i El) as [x [Hx _]]. rewrite Hx. discriminate.
  - destruct Ih as [x [Hx [_ [_ Ht]]]]. rewrite Hx, Ht. discriminate.
  - discriminate.
Qed.

(* the schedules of C06_receipts_no_panic_pinned_refuted and
   C06_receipts_handler_progress_pinned_refuted (PropertiesExt.v), on the code:
   the late send finds room in the channel, the receipt finds no entry *)
Lemma rx_fixed_same_schedules :
  (exists s, run (rx_step true) rx_init
               [XStart 1; XSendOk 0; XArrive 1; XLookup; XCancel 0; XCtxDone 0; XDereg 0; XNotify] = Some s /\
             rx_h s = HIdle) /\
  (exists s, run (rx_step true) rx_init
               [XStart 1; XSendFail 0; XDereg 0; XArrive 1; XLookup; XUnhandled] = Some s /\
             rx_h s = HIdle).
Proof. split; eexists; (split; [vm_compute; reflexivity|reflexivity]). Qed.
