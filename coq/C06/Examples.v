(* C06/Examples.v — non-vacuity: concrete, non-trivial instances of the
   hypotheses of theorems of Properties.v / PropertiesExt.v / PropertiesLife.v
   (the comments say of which), and a few worked schedules. *)
From Coq Require Import List Arith NArith Bool.
Import ListNotations.
From XV Require Import lib.Lts C06.Model C06.ModelExt C06.ModelLife C06.Proofs C06.ProofsMuc C06.ProofsLife.

Definition msg : name := mkname 0 2.

(* a full round trip: registered, sent, reply looked up, offered, received,
   returned, closed, serve released; then a duplicate reply goes to the handler *)
Definition round_trip : list label :=
  [LStart 7 iq; LSendOk 0; LArrive 7 iq true; LLookup; LDecide; LRecv 0; LDereg 0; LClose 0;
   LAwaitDone; LDrain; LArrive 7 iq true; LLookup; LDecide; LHandler].

Example ex_round_trip_wf : forallb wf_label round_trip = true.
Proof. reflexivity. Qed.

Example ex_round_trip :
  exists s, run (step true) init round_trip = Some s /\
    map req_code (reqs s) = [CReply 0 true] /\ handled s = [1] /\ pend s = [] /\ serve s = SIdle /\
    hist s = [EDeliver 0 0; EHandle 1].
Proof. eexists. split; [vm_compute; reflexivity|]. repeat split. Qed.

(* the same on the pinned code (the two differ only in [ctx_done]) *)
Example ex_round_trip_pinned : exists s, run (step false) init round_trip = Some s /\ serve s = SIdle.
Proof. eexists. split; [vm_compute; reflexivity|reflexivity]. Qed.

(* hypotheses of C06_outcome_is_own_reply_or_ctx_error with a context error:
   cancelled while the reply is offered; the reply is drained *)
Example ex_ctx_error :
  exists s r, run (step true) init
      [LStart 7 iq; LSendOk 0; LArrive 7 iq true; LLookup; LDecide; LCancel 0; LCtxDone 0; LOfferCtx; LDereg 0; LDrain] = Some s /\
    nth_error (reqs s) 0 = Some r /\ r_pc r = RRet OCtxErr false /\ r_canc r = true /\
    hist s = [EDrop 0 0] /\ serve s = SIdle.
Proof. eexists. eexists. split; [vm_compute; reflexivity|]. repeat split. Qed.

(* hypotheses of C06_unmatched_goes_to_handler: the three kinds of "nobody waits" *)
Example ex_no_waiter_not_reply :
  exists s st, run (step true) init [LArrive 7 iq false] = Some s /\ serve s = SRead st /\ no_waiter s st.
Proof. eexists. eexists. split; [vm_compute; reflexivity|]. split; [reflexivity|]. left. reflexivity. Qed.

Example ex_no_waiter_unknown_id :
  exists s st, run (step true) init [LStart 7 iq; LArrive 8 iq true] = Some s /\ serve s = SRead st /\ no_waiter s st.
Proof.
  eexists. eexists. split; [vm_compute; reflexivity|]. split; [reflexivity|].
  right. left. split; [reflexivity|discriminate].
Qed.

Example ex_no_waiter_wrong_kind :
  exists s st, run (step true) init [LStart 7 iq; LArrive 7 (mkname 1 2) true] = Some s /\ serve s = SRead st /\ no_waiter s st.
Proof.
  eexists. eexists. split; [vm_compute; reflexivity|]. split; [reflexivity|].
  right. right. exists 0. eexists. split; [reflexivity|]. split; [reflexivity|reflexivity].
Qed.

(* hypotheses of C06_close_releases_serve / C06_return_releases_serve / C06_send_then_receive *)
Example ex_close_enabled :
  exists s s1, run (step true) init [LStart 7 iq; LSendOk 0; LArrive 7 iq true; LLookup; LDecide; LRecv 0; LDereg 0] = Some s /\
    step true s (LClose 0) = Some s1.
Proof. eexists. eexists. split; vm_compute; reflexivity. Qed.

Example ex_return_releases :
  exists s s1 st, run (step true) init [LStart 7 iq; LArrive 7 iq true; LLookup; LDecide; LSendFail 0] = Some s /\
    serve s = SOffer st 0 /\ step true s (LDereg 0) = Some s1.
Proof. eexists. eexists. eexists. split; [vm_compute; reflexivity|]. split; vm_compute; reflexivity. Qed.

Example ex_send_then_receive :
  exists s s1 st, run (step true) init [LStart 7 iq; LArrive 7 iq true; LLookup; LDecide] = Some s /\
    serve s = SOffer st 0 /\ step true s (LSendOk 0) = Some s1.
Proof. eexists. eexists. eexists. split; [vm_compute; reflexivity|]. split; vm_compute; reflexivity. Qed.

(* two calls with one id: the later registration owns the entry; the entry is
   by id, so the first return removes it *)
Example ex_same_id :
  exists s, run (step true) init
      [LStart 7 iq; LStart 7 iq; LSendOk 0; LSendOk 1; LArrive 7 iq true; LLookup; LDecide; LRecv 1; LDereg 1] = Some s /\
    map req_code (reqs s) = [CNone; CReply 0 false] /\ pend s = [].
Proof. eexists. split; [vm_compute; reflexivity|]. split; reflexivity. Qed.

(* the empty name space registered by EncodeIQ matches the peer's jabber:client reply *)
Example ex_empty_space_matches : name_match (mkname 0 1) (mkname 1 1) = true /\ name_match (mkname 2 1) (mkname 1 1) = false.
Proof. split; reflexivity. Qed.

(* case checkers accept what the model does and reject a wrong observation *)
Example ex_case_ok :
  case_ok (mkcase true round_trip [CReply 0 true] [1] 0 0) = true /\
  case_ok (mkcase true round_trip [CReply 0 true] [] 0 0) = false /\
  case_ok (mkcase true (round_trip ++ [LRecv 0]) [CReply 0 true] [1] 0 0) = false.
Proof. repeat split; vm_compute; reflexivity. Qed.

Example ex_rx_round_trip :
  exists s, run (rx_step true) rx_init
      [XStart 1; XSendOk 0; XArrive 1; XLookup; XNotify; XRecv 0; XArrive 1; XLookup; XUnhandled] = Some s /\
    map snd_code (rx_snd s) = [XCOk] /\ rx_unhandled s = 1 /\ rx_h s = HIdle /\
    rx_hist s = [RNotified 0 1 0; RUnhandled 1 1].
Proof. eexists. split; [vm_compute; reflexivity|]. repeat split. Qed.

(* the receipt arrives before the sender reaches its select: the handler does not wait *)
Example ex_rx_early_receipt :
  exists s, run (rx_step true) rx_init [XStart 1; XArrive 1; XLookup; XNotify; XSendOk 0; XRecv 0] = Some s /\
    map snd_code (rx_snd s) = [XCOk] /\ rx_h s = HIdle.
Proof. eexists. split; [vm_compute; reflexivity|]. split; reflexivity. Qed.

Example ex_rx_handler_at_notify :
  exists s, run (rx_step true) rx_init [XStart 1; XSendOk 0; XArrive 1; XLookup] = Some s /\ rx_h s = HNotify 0 1 0.
Proof. eexists. split; [vm_compute; reflexivity|reflexivity]. Qed.

Example ex_rx_case_ok :
  rx_case_ok (mkrxcase [XStart 1; XSendOk 0; XArrive 1; XLookup; XNotify; XRecv 0] [XCOk] 0 0) = true /\
  rx_case_ok (mkrxcase [XStart 1; XSendOk 0; XArrive 1; XLookup; XNotify; XRecv 0] [XCCtx] 0 0) = false.
Proof. split; vm_compute; reflexivity. Qed.

Example ex_muc_join_leave :
  exists s, run (muc_step true) muc_init
      [MStartJoin; MEnter 0; MAvailArrive; MTake; MJoinRecv 0; MAvailArrive; MTake;
       MStartLeave; MEnter 1; MUnavailArrive; MDepartTo 1] = Some s /\
    map mcall_code (mu_calls s) = [MCJoined; MCLeft] /\ mu_user s = 1 /\ settled s /\ mu_h s = MHIdle.
Proof. eexists. split; [vm_compute; reflexivity|]. repeat split. discriminate. Qed.

(* hypotheses of C06_muc_single_leave: the departure is handled before the
   Leave call reaches its select; the notification waits for it, then it is taken *)
Example ex_muc_kept :
  exists s c, run (muc_step true) muc_init
      [MStartJoin; MEnter 0; MAvailArrive; MTake; MJoinRecv 0; MStartLeave; MUnavailArrive; MDepartKept; MEnter 1] = Some s /\
    settled s /\ length (mu_calls s) = 2 /\ nth_error (mu_calls s) 1 = Some c /\ m_pre c = true /\
    mu_dtok s = true /\ waiting_leave c = true.
Proof. eexists. eexists. split; [vm_compute; reflexivity|]. repeat split. discriminate. Qed.

(* a cancelled join attempt is skipped by the handler; the presence goes to the user handler *)
Example ex_muc_skip :
  exists s, run (muc_step true) muc_init [MStartJoin; MAvailArrive; MTake; MCancel 0; MSkip; MTake; MEnter 0; MCtx 0] = Some s /\
    map mcall_code (mu_calls s) = [MCCtx] /\ mu_user s = 1 /\ mu_h s = MHIdle.
Proof. eexists. split; [vm_compute; reflexivity|]. repeat split. Qed.

Example ex_muc_case_ok :
  muc_case_ok (mkmuccase drained_trace [MCJoined; MCNone; MCNone] 0 0) = true /\
  muc_case_ok (mkmuccase lost_depart_trace [MCJoined; MCNone] 0 0) = false.
Proof. split; vm_compute; reflexivity. Qed.

(* EOF after the peer's close, data first *)
Example ex_ibb_eof_after_close :
  exists s, run ibbf_step ibbf_init
      [FRead 4; FWait; FData CIq 3; FCheck; FNotify; FWake 4; FRead 4; FWait; FCloseRemote; FWake 4] = Some s /\
    fb_outs s = [RdData 3; RdEOF] /\ fb_closed s = true.
Proof. eexists. split; [vm_compute; reflexivity|]. split; reflexivity. Qed.

(* buffered data is still delivered after a close, then EOF *)
Example ex_ibb_drain_after_close :
  exists s, run ibbf_step ibbf_init
      [FData CIq 5; FCheck; FNotify; FCloseLocal; FRead 4; FRead 4; FRead 4; FWait; FWake 4; FWait; FWake 4] = Some s /\
    fb_outs s = [RdData 4; RdData 1; RdEOF].
Proof. eexists. split; [vm_compute; reflexivity|]. reflexivity. Qed.

(* hypotheses of C06_ibb_waiting_reader_is_woken *)
Example ex_ibb_waiting :
  exists s s1 s2, run ibbf_step ibbf_init [FRead 4; FWait] = Some s /\ fb_rd s = FWaiting /\ fb_h s = FHIdle /\
    ibbf_step s (FData CIq 2) = Some s1 /\ ibbf_step s1 FCheck = Some s2.
Proof. eexists. eexists. eexists. split; [vm_compute; reflexivity|]. repeat split. Qed.

(* a stale token: the reader wakes, finds nothing and waits again *)
Example ex_ibb_stale_token :
  exists s, run ibbf_step ibbf_init [FData CIq 2; FCheck; FNotify; FRead 4; FRead 4; FWait; FWake 4; FWait] = Some s /\
    fb_outs s = [RdData 2] /\ fb_rd s = FWaiting /\ fb_tok s = false.
Proof. eexists. split; [vm_compute; reflexivity|]. repeat split. Qed.

Example ex_ibb_case_ok :
  ibbf_case_ok (mkibbfcase [FRead 4; FData CIq 3; FCheck; FNotify; FWait] [] 3 3) = true /\
  ibbf_case_ok (mkibbfcase [FRead 4; FData CIq 3; FCheck; FNotify; FWait] [] 2 3) = false.
Proof. split; vm_compute; reflexivity. Qed.

(* IterIQ, reply ill-formed while it is being parsed: the failing Token closes
   through the guard, the deferred Close does nothing more *)
Example ex_life_iter_parse_error :
  exists s, run (rl_step (cfg_iter TCGuarded false)) rl_init (iter_parse_prog [RTokOk; RTokErr] true) = Some s /\
    rl_panic s = false /\ rl_released s = 1 /\ rl_once s = true.
Proof. eexists. split; [vm_compute; reflexivity|]. repeat split. Qed.

(* the caller iterates, hits the error, reads past it and closes twice *)
Example ex_life_iter_caller :
  exists s, run (rl_step (cfg_iter TCGuarded false)) rl_init [RTokOk; RTokOk; RTokErr; RTokErr; RClose; RClose] = Some s /\
    rl_panic s = false /\ rl_released s = 1.
Proof. eexists. split; [vm_compute; reflexivity|]. split; reflexivity. Qed.

(* hypothesis of C06_unmarshal_closes_once: reads only, some failing *)
Example ex_life_unmarshal :
  forallb (fun l => negb (is_close l)) [RTokOk; RTokErr] = true /\
  exists s, run (rl_step (cfg_raw false)) rl_init (unmarshal_prog [RTokOk; RTokErr]) = Some s /\ rl_released s = 1.
Proof. split; [reflexivity|]. eexists. split; [vm_compute; reflexivity|reflexivity]. Qed.

(* hypothesis of C06_raw_response_partial / _one_close *)
Example ex_life_raw_one_close : count_close [RTokOk; RTokErr; RTokErr; RClose] = 1.
Proof. reflexivity. Qed.

(* no token is read from a released response *)
Example ex_life_no_read_after_close :
  exists s, run (rl_step (cfg_raw false)) rl_init [RClose] = Some s /\ rl_step (cfg_raw false) s RTokOk = None.
Proof. eexists. split; [vm_compute; reflexivity|reflexivity]. Qed.

Example ex_life_case_ok :
  rl_case_ok (mkrlcase (cfg_iter TCGuarded false) [RTokErr; RClose] false 1) = true /\
  rl_case_ok (mkrlcase (cfg_iter TCDirect false) [RTokErr; RClose] false 1) = false /\
  rl_case_ok (mkrlcase (cfg_raw false) [RTokOk; RClose; RClose] true 1) = true /\
  rl_case_ok (mkrlcase (cfg_raw true) [RTokOk; RClose; RClose] false 1) = true.
Proof. repeat split; vm_compute; reflexivity. Qed.

(* hypotheses of C06_ibb_overtaken_writer_is_aborted / C06_ibb_close_completes *)
Example ex_iw_overtake :
  exists s, run (iw_step false false) iw_init [WStart; WSend; VCloseArrive] = Some s /\
    iw_v s = VClose /\ writer_holds s = true /\ iw_broken s = false.
Proof. eexists. split; [vm_compute; reflexivity|]. repeat split. Qed.

(* close on an idle stream goes through the flush; a later write fails at once *)
Example ex_iw_idle_close :
  exists s, run (iw_step false false) iw_init [VCloseArrive; VTry; VFlushDone; WStart] = Some s /\
    iw_closed s = true /\ iw_w s = WRet false /\ iw_v s = VIdle.
Proof. eexists. split; [vm_compute; reflexivity|]. repeat split. Qed.

(* the close after a refused packet is answered *)
Example ex_iw_close_after_refused_packet :
  iw_case_ok (mkiwcase [WStart; WSend; WAck false; VCloseArrive; VTry; VFlushDone] 4 0 true) = true.
Proof. vm_compute. reflexivity. Qed.

Example ex_iw_case_ok :
  iw_case_ok (mkiwcase (overtake_trace ++ [WAck true]) 3 0 true) = true /\
  iw_case_ok (mkiwcase overtake_trace 2 3 false) = false.
Proof. split; vm_compute; reflexivity. Qed.
