(* C06/PropertiesExt.v — the property theorems of C06 for the extension helpers
   that block on a correlated reply, and nothing else.

   Receipts (receipts/receipts.go: [rx_step true]; pinned design: [rx_step
   false]), MUC join/leave (muc/muc.go, muc/room.go: [muc_step true]; pinned
   design: [muc_step false]) and the in-band bytestream reader (ibb/conn.go,
   ibb/ibb.go: [ibbf_step]; pinned design: [ibb_step]).  The
   theorems quantify over every label sequence of the transition systems of
   C06/ModelExt.v: any number of senders / Leave calls / Read calls, any order
   and content of the peer's elements, any placement of cancellation. *)
From Coq Require Import List Arith NArith Bool Lia.
Import ListNotations.
From XV Require Import lib.Lts C06.ModelExt C06.ProofsRx C06.ProofsMuc C06.ProofsIbb.

(* A sender that has returned keeps its outcome, whatever happens later. *)
Theorem C06_receipts_at_most_one_outcome : forall fx tr s s' j x o,
  run (rx_step fx) s tr = Some s' -> nth_error (rx_snd s) j = Some x -> x_pc x = XRet o ->
  exists x', nth_error (rx_snd s') j = Some x' /\ x_pc x' = XRet o /\ x_id x' = x_id x.
Proof.
  intros fx tr s s' j x o R Hj Hp. revert s' R. refine (invariant_run _ _ (rx_step fx) _ s _ _ tr).
  - eauto.
  - intros s1 l s2 (x1 & H1 & P1 & I1) E. destruct (rx_ret_stable fx s1 l s2 j x1 o E H1 P1) as (x2 & A & B & C).
    exists x2. repeat split; congruence.
Qed.
Print Assumptions C06_receipts_at_most_one_outcome.

(* The outcome is legitimate: success only after a receipt for the sender's own
   id was matched to this sender; the context error only after cancellation. *)
Theorem C06_receipts_outcome_is_own_receipt_or_ctx_error : forall tr s i x o,
  run (rx_step true) rx_init tr = Some s -> nth_error (rx_snd s) i = Some x -> x_pc x = XRet o ->
  match o with
  | XOk => exists q, In (RNotified q (x_id x) i) (rx_hist s)
  | XCtxErr => x_canc x = true
  | XSendErr => True
  end.
Proof. exact rx_outcome_run. Qed.
Print Assumptions C06_receipts_outcome_is_own_receipt_or_ctx_error.

(* Every receipt has exactly one fate (matched to one sender, or passed to
   Unhandled); a sender is matched with at most one receipt, and a matched
   receipt carries that sender's id. *)
Theorem C06_receipts_receipt_reaches_at_most_one : forall tr s,
  run (rx_step true) rx_init tr = Some s ->
  (forall e e', In e (rx_hist s) -> In e' (rx_hist s) -> rx_seq e = rx_seq e' -> e = e') /\
  (rx_h s = HIdle -> forall q, q < rx_arrived s -> exists e, In e (rx_hist s) /\ rx_seq e = q) /\
  (forall q id i, In (RNotified q id i) (rx_hist s) ->
     exists x, nth_error (rx_snd s) i = Some x /\ x_id x = id /\ x_tok x = true) /\
  (forall q q' id id' i, In (RNotified q id i) (rx_hist s) -> In (RNotified q' id' i) (rx_hist s) -> q = q').
Proof.
  intros tr s R. pose proof (RxInv_run tr s R) as Iv. pose proof (rxi_ledger _ Iv) as L. repeat split.
  - intros e e'. exact (Proofs.ledger_unique rx_seq (rx_hist s) _ _ e e' L).
  - intros Eh. rewrite Eh in L. exact (Proofs.ledger_complete rx_seq (rx_hist s) _ L).
  - exact (rxi_notif _ Iv).
  - exact (rxi_one _ Iv).
Qed.
Print Assumptions C06_receipts_receipt_reaches_at_most_one.

(* No panic and no stall of the handler (and with it the serve loop): in every
   reachable state the handler is idle or its next step is enabled, whatever
   the senders do or have done. *)
Theorem C06_receipts_handler_progress : forall tr s,
  run (rx_step true) rx_init tr = Some s ->
  match rx_h s with
  | HIdle => True
  | HRead _ _ => rx_enabled s XLookup
  | HNotify _ _ _ => rx_enabled s XNotify
  | HUnh _ _ => rx_enabled s XUnhandled
  | HPanic => False
  end.
Proof. exact rx_handler_progress_run. Qed.
Print Assumptions C06_receipts_handler_progress.

(* A sender never gets stuck on its own. *)
Theorem C06_receipts_sender_progress : forall s i x,
  nth_error (rx_snd s) i = Some x ->
  match x_pc x with
  | XReg => rx_enabled s (XSendOk i) /\ rx_enabled s (XSendFail i)
  | XWait => (x_canc x = true -> rx_enabled s (XCtxDone i)) /\ (x_tok x = true -> rx_enabled s (XRecv i))
  | XCtxP | XSendErrP => rx_enabled s (XDereg i)
  | XRet _ => True
  end.
Proof.
  intros s i x Hi. unfold rx_enabled. destruct (x_pc x) eqn:Ep; cbn [rx_step]; unfold snd_step; rewrite ?Hi, ?Ep;
    try discriminate; auto.
  - split; discriminate.
  - split; intros ->; cbn; discriminate.
Qed.
Print Assumptions C06_receipts_sender_progress.

(* The pinned code: a cancellation between the handler's lookup and its send
   is a send on a closed channel ... *)
Theorem C06_receipts_no_panic_pinned_refuted :
  exists s, run (rx_step false) rx_init
              [XStart 1; XSendOk 0; XArrive 1; XLookup; XCancel 0; XCtxDone 0; XDereg 0; XNotify] = Some s /\
            rx_h s = HPanic.
Proof. eexists. split; [vm_compute; reflexivity|reflexivity]. Qed.
Print Assumptions C06_receipts_no_panic_pinned_refuted.

(* ... and a sender whose SendElement failed leaves its entry behind: the
   handler then blocks for good on a channel nobody will ever receive from. *)
Theorem C06_receipts_handler_progress_pinned_refuted :
  exists s x, run (rx_step false) rx_init [XStart 1; XSendFail 0; XDereg 0; XArrive 1; XLookup] = Some s /\
    rx_h s = HNotify 0 1 0 /\ nth_error (rx_snd s) 0 = Some x /\ x_pc x = XRet XSendErr /\
    rx_step false s XNotify = None /\
    forall tr s', run (rx_step false) s tr = Some s' ->
      exists x', nth_error (rx_snd s') 0 = Some x' /\ x_pc x' = XRet XSendErr.
Proof.
  eexists. eexists. split; [vm_compute; reflexivity|]. repeat split.
  intros tr s' R.
  destruct (C06_receipts_at_most_one_outcome false tr _ s' 0 _ XSendErr R eq_refl eq_refl) as [x' [A [B _]]]. eauto.
Qed.
Print Assumptions C06_receipts_handler_progress_pinned_refuted.

Theorem C06_muc_at_most_one_outcome : forall fx tr s s' i c o,
  run (muc_step fx) s tr = Some s' -> nth_error (mu_calls s) i = Some c -> m_pc c = MRet o ->
  exists c', nth_error (mu_calls s') i = Some c' /\ m_pc c' = MRet o /\ m_kind c' = m_kind c.
Proof.
  intros fx tr s s' i c o R Hi Hp.
  apply (Calls.call_stable_run (muc_calls fx) (fun c' => m_pc c' = MRet o /\ m_kind c' = m_kind c) i)
    with (tr := tr) (s := s); [|exact R|eauto].
  intros l x x' _ M [P K]. split; [exact (mmove_ret _ _ _ _ M P)|]. rewrite (proj1 (mmove_same _ _ _ M)). exact K.
Qed.
Print Assumptions C06_muc_at_most_one_outcome.

(* joined: only the join attempt; left: only a Leave call and only after the
   room's unavailable presence was handled; a stanza error only when an error
   reply was handed to the call; the context error only after cancellation *)
Theorem C06_muc_outcome_is_own_presence_or_ctx_error : forall fx tr s i c o,
  run (muc_step fx) muc_init tr = Some s -> nth_error (mu_calls s) i = Some c -> m_pc c = MRet o ->
  match o with
  | MCtxErr => m_canc c = true
  | MErr => m_err c = true
  | MJoined => m_kind c = MJoin /\ i = 0
  | MLeft => m_kind c = MLeave /\ mu_gone s = true
  end.
Proof.
  intros fx tr s i c o R Hi Hp. pose proof (MucInv_run fx tr s R) as Iv.
  pose proof (mi_out _ _ Iv i c Hi) as O. unfold mout_ok in O. rewrite Hp in O.
  destruct o; auto; (split; [exact O|]).
  - apply (mi_kind _ _ Iv i c Hi). exact O.
  - exact (left_gone fx s i c Iv Hi Hp).
Qed.
Print Assumptions C06_muc_outcome_is_own_presence_or_ctx_error.

(* The presence handler never stalls the serve loop for good: it is idle, can
   step, or waits for the join call, which can step (enter its select, after
   which the hand-off is enabled) or whose context is done (skip). *)
Theorem C06_muc_handler_progress : forall fx tr s,
  run (muc_step fx) muc_init tr = Some s -> muc_handler_waits fx s.
Proof.
  intros fx tr s R. pose proof (MucInv_run fx tr s R) as Iv. unfold muc_handler_waits, muc_enabled.
  destruct (mu_h s) as [| |j|] eqn:Eh; auto; cbn [muc_step]; rewrite ?Eh.
  - destruct (mu_joinbuf s); discriminate.
  - destruct (mi_taken _ _ Iv j Eh) as (c & Hc & _). exists c. split; [exact Hc|].
    destruct (m_pc c) eqn:Ep; [destruct (m_canc c) eqn:Ec|..]; cbn [muc_step]; unfold mcall_step, mctx_done;
      rewrite ?Eh, ?Nat.eqb_refl, Hc, ?Ec, ?Ep; cbn; rewrite ?orb_true_r; discriminate.
  - destruct (mu_dtok s) eqn:Et.
    + left. rewrite (mi_fx _ _ Iv Et). discriminate.
    + destruct (existsb waiting_leave (mu_calls s)) eqn:Ex.
      * right. right. apply existsb_exists in Ex. destruct Ex as [x [Hin Hw]].
        apply In_nth_error in Hin. destruct Hin as [l Hl]. exists l.
        cbn [muc_step]. rewrite ?Eh, Hl, Hw, ?Et. discriminate.
      * destruct fx; [right; left|left]; cbn; discriminate.
Qed.
Print Assumptions C06_muc_handler_progress.

Theorem C06_muc_call_progress : forall fx s i c,
  nth_error (mu_calls s) i = Some c ->
  match m_pc c with
  | MSpawned => muc_enabled fx s (MEnter i)
  | MWait => (m_canc c = true -> muc_enabled fx s (MCtx i)) /\ (m_err c = true -> muc_enabled fx s (MErrRecv i))
  | MRet _ => True
  end.
Proof.
  intros fx s i c Hi. unfold muc_enabled. destruct (m_pc c) eqn:Ep; auto; cbn [muc_step]; unfold mcall_step; rewrite Hi, Ep.
  - discriminate.
  - split; intros ->; discriminate.
Qed.
Print Assumptions C06_muc_call_progress.

(* The departure notification is never dropped by the code ... *)
Theorem C06_muc_depart_never_dropped : forall tr s,
  run (muc_step true) muc_init tr = Some s -> mu_lost s = 0.
Proof. intros tr s R. exact (mi_lost _ _ (MucInv_run true tr s R) eq_refl). Qed.
Print Assumptions C06_muc_depart_never_dropped.

(* ... and it is in exactly one place: once the room's unavailable presence
   has been handled, the notification is buffered (and nobody has left yet), or
   exactly one Leave call has returned with it, or a Leave call that started
   after the departure discarded it as stale.  For any number of Leave calls. *)
Theorem C06_muc_leave : forall tr s,
  run (muc_step true) muc_init tr = Some s -> settled s ->
  (mu_dtok s = true /\ noleft s) \/
  (exists l c, nth_error (mu_calls s) l = Some c /\ m_pc c = MRet MLeft /\ m_kind c = MLeave /\
               forall j c', nth_error (mu_calls s) j = Some c' -> m_pc c' = MRet MLeft -> j = l) \/
  (mu_drained s = 1 /\ late_leave s).
Proof.
  intros tr s R St. destruct (MucInv_run true tr s R) as [_ _ _ _ _ Io T Lo La].
  apply settledb_settled in St. unfold tokens in T. rewrite St, (Lo eq_refl), Nat.add_0_r in T. cbn in T.
  (* the one notification is buffered, with one call, or discarded *)
  destruct (left_count s) as [|[|n]] eqn:E; unfold left_count in E.
  - assert (N : noleft s).
    { intros i c Hc Hp. apply has_left_pc in Hp. rewrite (Calls.count_none _ _ E i c Hc) in Hp. discriminate. }
    destruct (mu_dtok s); [left; auto|right; right]. cbn in T. split; [lia|apply La; lia].
  - right. left. destruct (Calls.count_one _ _ E) as (l & c & Hl & Pl & U). apply has_left_pc in Pl. exists l, c.
    split; [exact Hl|]. split; [exact Pl|]. split.
    + pose proof (Io l c Hl) as O. unfold mout_ok in O. rewrite Pl in O. exact O.
    + intros j c' Hj Pj. apply (U j c' Hj). apply has_left_pc. exact Pj.
  - destruct (mu_dtok s); cbn in T; lia.
Qed.
Print Assumptions C06_muc_leave.

(* A buffered notification can be taken by any Leave call in its select. *)
Theorem C06_muc_leave_take_enabled : forall s l c,
  nth_error (mu_calls s) l = Some c -> waiting_leave c = true -> mu_dtok s = true ->
  muc_step true s (MDepartRecv l) <> None.
Proof. intros s l c Hl Hw Ht. cbn [muc_step]. rewrite Hl, Hw, Ht. discriminate. Qed.
Print Assumptions C06_muc_leave_take_enabled.

(* The claim of the property for one Leave call at a time: a Leave call that
   was in progress when the room's unavailable presence was handled has
   returned, or the notification waits for it. *)
Theorem C06_muc_single_leave : forall tr s c,
  run (muc_step true) muc_init tr = Some s -> settled s ->
  length (mu_calls s) = 2 -> nth_error (mu_calls s) 1 = Some c -> m_pre c = true ->
  m_pc c = MRet MLeft \/ mu_dtok s = true.
Proof.
  intros tr s c R St Len Hc Hp. pose proof (MucInv_run true tr s R) as Iv.
  assert (One : forall j c', nth_error (mu_calls s) j = Some c' -> m_kind c' = MLeave -> j = 1).
  { intros [|[|j]] c' Hj Hk; [|reflexivity|].
    - rewrite (proj2 (mi_kind _ _ Iv 0 c' Hj) eq_refl) in Hk. discriminate.
    - assert (nth_error (mu_calls s) (S (S j)) = None) by (apply nth_error_None; rewrite Len; apply le_n_S, le_n_S, Nat.le_0_l). congruence. }
  destruct (C06_muc_leave tr s R St) as [[A _]|[(l & c' & Hl & Hpc & Hk & _)|[_ (j & c2 & Hj & Hk & Hpre)]]].
  - right. exact A.
  - left. rewrite (One l c' Hl Hk) in Hl. congruence.
  - rewrite (One j c2 Hj Hk) in Hj. congruence.
Qed.
Print Assumptions C06_muc_single_leave.

(* The third case of C06_muc_leave is real: with two overlapping Leave calls,
   the second one, starting after the departure was handled, discards the
   notification the first one has not taken yet; then only their own contexts
   or error replies end the two calls. *)
Theorem C06_muc_leave_drained_by_later_leave :
  exists s, run (muc_step true) muc_init drained_trace = Some s /\ leave_stuck s 1 /\ leave_stuck s 2 /\
    mu_drained s = 1 /\
    forall tr s', ~ In (MCancel 1) tr -> ~ In (MErrReply 1) tr -> run (muc_step true) s tr = Some s' ->
      exists c, nth_error (mu_calls s') 1 = Some c /\ m_pc c = MWait.
Proof.
  eexists. split; [vm_compute; reflexivity|].
  eenough (St : forall i, i = 1 \/ i = 2 -> leave_stuck _ i).
  { split; [apply St; auto|]. split; [apply St; auto|]. split; [reflexivity|]. intros tr s' N1 N2 R.
    destruct (leave_stuck_run true _ 1 tr s' (St 1 (or_introl eq_refl)) N1 N2 R) as (_ & _ & _ & c & Hc & _ & Hp & _). eauto. }
  intros i [->| ->]; repeat split; eexists; (split; [reflexivity|]); repeat split.
Qed.
Print Assumptions C06_muc_leave_drained_by_later_leave.

(* The pinned design (unbuffered depart channel) dropped the notification when
   the caller had not reached its select; the same schedule is not a schedule
   of the code, where the notification is kept and then taken. *)
Theorem C06_muc_leave_pinned_refuted :
  exists s, run (muc_step false) muc_init lost_depart_trace = Some s /\ leave_stuck s 1 /\ mu_lost s = 1 /\
    forall tr s', ~ In (MCancel 1) tr -> ~ In (MErrReply 1) tr -> run (muc_step false) s tr = Some s' ->
      exists c, nth_error (mu_calls s') 1 = Some c /\ m_pc c = MWait.
Proof.
  eexists. split; [vm_compute; reflexivity|].
  eenough (St : leave_stuck _ 1).
  { split; [exact St|]. split; [reflexivity|]. intros tr s' N1 N2 R.
    destruct (leave_stuck_run false _ 1 tr s' St N1 N2 R) as (_ & _ & _ & c & Hc & _ & Hp & _). eauto. }
  repeat split. eexists. split; [reflexivity|]. repeat split.
Qed.
Print Assumptions C06_muc_leave_pinned_refuted.

(* one outcome per Read: results are only appended *)
Theorem C06_ibb_read_at_most_one_outcome : forall tr s s',
  run ibbf_step s tr = Some s' -> exists more, fb_outs s' = fb_outs s ++ more.
Proof.
  intros tr s. refine (invariant_run _ _ ibbf_step _ s _ _ tr).
  - exists []. symmetry. apply app_nil_r.
  - intros s1 l s2 [m1 E1] H. destruct (ibbf_io_step s1 l s2 H) as (m2 & E2 & _).
    exists (m1 ++ m2). rewrite E2, E1, app_assoc. reflexivity.
Qed.
Print Assumptions C06_ibb_read_at_most_one_outcome.

(* bytes are neither lost nor invented: delivered + buffered (+ the packet
   being appended) = accepted *)
Theorem C06_ibb_read_conservation : forall tr s,
  run ibbf_step ibbf_init tr = Some s ->
  delivered_bytes (fb_outs s) + fb_buf s + pending_bytes s = accepted_bytes tr.
Proof.
  refine (invariant_hist _ _ ibbf_step _ ibbf_init eq_refl _).
  intros h s1 l s2 R1 IH H. destruct (ibbf_io_step s1 l s2 H) as (more & E & _ & B).
  rewrite accepted_app, <- IH, E, delivered_app. specialize (B (fi_locked _ (FInv_run h s1 R1))). lia.
Qed.
Print Assumptions C06_ibb_read_conservation.

(* no permanent stall of a Read while bytes are buffered: on every schedule,
   empty packets, stale tokens and the check-to-wait window included *)
Theorem C06_ibb_read_progress : forall tr s,
  run ibbf_step ibbf_init tr = Some s -> f_no_lost_wakeup s.
Proof.
  intros tr s R Ew Eh. pose proof (FInv_run tr s R) as Iv.
  destruct (fb_buf s) eqn:Eb; [reflexivity|].
  assert (fb_tok s = true) by (apply (fi_data _ Iv); auto; rewrite Eb; apply Nat.lt_0_succ).
  destruct (fi_waiting _ Iv Ew). congruence.
Qed.
Print Assumptions C06_ibb_read_progress.

(* ... and a blocked reader is woken by the next accepted packet *)
Theorem C06_ibb_waiting_reader_is_woken : forall tr s c n s1 s2,
  run ibbf_step ibbf_init tr = Some s -> fb_rd s = FWaiting -> fb_h s = FHIdle ->
  ibbf_step s (FData c n) = Some s1 -> ibbf_step s1 FCheck = Some s2 ->
  exists s3, ibbf_step s2 FNotify = Some s3 /\ fb_rd s3 = FWoken true.
Proof.
  intros tr s c n s1 s2 R Ew Eh H1 H2. destruct (fi_waiting _ (FInv_run tr s R) Ew) as [Ec Et].
  cbn [ibbf_step] in H1. rewrite Eh, Ec in H1. injection H1 as <-.
  cbn in H2. injection H2 as <-. cbn. rewrite Ew. eauto.
Qed.
Print Assumptions C06_ibb_waiting_reader_is_woken.

(* What the table lemma [ibb_payload_always_notifies] excludes: message-carried
   data appended without the notification leaves a blocked reader blocked. *)
Theorem C06_ibb_msg_data_without_notify_refuted :
  exists s, run ibbf_step_msg_silent ibbf_init [FRead 4; FWait; FData CMsg 3; FCheck] = Some s /\
    fb_rd s = FWaiting /\ fb_h s = FHIdle /\ fb_buf s = 3 /\ fb_closed s = false /\
    ~ f_no_lost_wakeup s.
Proof.
  eexists. split; [vm_compute; reflexivity|]. repeat split. intro H. specialize (H eq_refl eq_refl). discriminate.
Qed.
Print Assumptions C06_ibb_msg_data_without_notify_refuted.

(* io.EOF only on a closed stream *)
Theorem C06_ibb_read_eof : forall tr s,
  run ibbf_step ibbf_init tr = Some s -> In RdEOF (fb_outs s) -> fb_closed s = true.
Proof. intros tr s R. apply (fi_eof _ (FInv_run tr s R)). Qed.
Print Assumptions C06_ibb_read_eof.

(* no panic of the serve goroutine: the handler never sends on the closed
   channel (the close needs the lock the handler holds) *)
Theorem C06_ibb_no_panic : forall tr s,
  run ibbf_step ibbf_init tr = Some s -> fb_h s <> FHPanic.
Proof. intros tr s R. apply (fi_panic _ (FInv_run tr s R)). Qed.
Print Assumptions C06_ibb_no_panic.

(* the reader and the handler never get stuck on their own *)
Theorem C06_ibb_local_progress : forall s,
  (fb_rd s = FChecked -> ibbf_enabled s FWait) /\
  (forall o, fb_rd s = FWoken o -> fb_h s = FHIdle -> forall cap, ibbf_enabled s (FWake (S cap))) /\
  (forall c n, fb_h s = FHLocked c n -> ibbf_enabled s FCheck) /\
  (fb_h s = FHNotify -> ibbf_enabled s FNotify).
Proof.
  intro s. unfold ibbf_enabled. repeat split.
  - intros E. cbn [ibbf_step]. rewrite E. destruct (fb_tok s); [discriminate|]. destruct (fb_closed s); discriminate.
  - intros o E Eh cap. cbn [ibbf_step]. rewrite E, Eh.
    destruct (Nat.eqb (fb_buf s) 0); [destruct o|]; discriminate.
  - intros c n E. cbn [ibbf_step]. rewrite E. destruct (fb_closed s); discriminate.
  - intros E. cbn [ibbf_step]. rewrite E. destruct (fb_closed s); [discriminate|]. destruct (fb_rd s); discriminate.
Qed.
Print Assumptions C06_ibb_local_progress.

(* The pinned design (unbuffered readReady, one test in Read, local Close
   leaves the stream registered): the three defects that were repaired. *)
Theorem C06_ibb_read_progress_pinned_refuted :
  exists s, run ibb_step ibb_init lost_wakeup_trace = Some s /\
    ib_rd s = RdWaiting /\ ib_h s = IHIdle /\ ib_buf s = 3 /\ ib_closed s = false /\ ib_lost s = 1 /\
    forall l, ibb_enabled s l -> (exists n, l = IData n) \/ l = ICloseRemote \/ l = ICloseLocal.
Proof.
  eexists. split; [vm_compute; reflexivity|]. repeat split.
  intros l E. unfold ibb_enabled in E. destruct l; cbn in E; try congruence; eauto.
Qed.
Print Assumptions C06_ibb_read_progress_pinned_refuted.

Theorem C06_ibb_read_eof_pinned_refuted :
  exists s, run ibb_step ibb_init [IRead 4; IWait; IData 0; INotify; IWake 4] = Some s /\
            ib_outs s = [RdEOF] /\ ib_closed s = false.
Proof. eexists. split; [vm_compute; reflexivity|]. split; reflexivity. Qed.
Print Assumptions C06_ibb_read_eof_pinned_refuted.

Theorem C06_ibb_no_panic_pinned_refuted :
  exists s, run ibb_step ibb_init [ICloseLocal; IData 3; INotify] = Some s /\ ib_h s = IHPanic.
Proof. eexists. split; [vm_compute; reflexivity|reflexivity]. Qed.
Print Assumptions C06_ibb_no_panic_pinned_refuted.
