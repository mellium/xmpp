(* C06/PropertiesLife.v — property theorems of C06 about (1) the life of a
   response after the hand-off, (2) an in-band bytestream writer waiting for
   its acknowledgement while the peer's close request is handled, (3) the table
   of expected in-band sessions, (4) the id a blocking call registers, and
   (5) receipts behind the multiplexer.  Nothing else.

   (1) quantifies over every sequence of reader operations — reads that
   succeed, reads that fail at any position (truncated or ill-formed reply),
   explicit closes, in any order and number: a caller that reads everything,
   stops early, reads past an error, or closes twice.  (2) quantifies over
   every interleaving of writes, acknowledgements, write deadlines and a close
   request. *)
From Coq Require Import List Arith NArith Bool.
Import ListNotations.
From XV Require Import lib.Lts C06.ModelLife C06.ProofsLife.
From XV Require lib.Heap.

(* Whatever the library and the caller do with the reader: no close of a closed
   channel, the serve loop is released at most once, and it is released
   exactly once as soon as a read has failed or Close was called. *)
Theorem C06_response_closed_exactly_once : forall ridem tr s,
  run (rl_step (cfg_iter TCGuarded ridem)) rl_init tr = Some s ->
  rl_panic s = false /\ rl_released s <= 1 /\
  (In RTokErr tr \/ In RClose tr -> rl_released s = 1 /\ rl_uclosed s = true).
Proof. exact guarded_exactly_once. Qed.
Print Assumptions C06_response_closed_exactly_once.

(* iterIQ returning an error (reply ill-formed while it is being parsed, or an
   error reply): the response has been closed, once, when it returns. *)
Theorem C06_iter_error_path_closes_once : forall ridem reads s,
  run (rl_step (cfg_iter TCGuarded ridem)) rl_init (iter_parse_prog reads true) = Some s ->
  rl_panic s = false /\ rl_released s = 1.
Proof.
  intros ridem reads s R. destruct (guarded_exactly_once ridem _ s R) as (P & _ & C). split; [exact P|].
  apply C. right. unfold iter_parse_prog. apply in_or_app. right. left. reflexivity.
Qed.
Print Assumptions C06_iter_error_path_closes_once.

(* What the table lemma [errcloser_routes_through_guard] excludes: a failing
   Token that closes the embedded responder directly (second close by the
   deferred Close: panic), or that closes nothing (serve loop never released). *)
Theorem C06_response_direct_close_refuted :
  exists s, run (rl_step (cfg_iter TCDirect false)) rl_init [RTokErr; RClose] = Some s /\ rl_panic s = true.
Proof. eexists. split; [vm_compute; reflexivity|reflexivity]. Qed.
Print Assumptions C06_response_direct_close_refuted.

Theorem C06_response_no_close_on_error_refuted :
  exists s, run (rl_step (cfg_iter TCNone false)) rl_init [RTokOk; RTokErr] = Some s /\ rl_released s = 0.
Proof. eexists. split; [vm_compute; reflexivity|reflexivity]. Qed.
Print Assumptions C06_response_no_close_on_error_refuted.

(* UnmarshalIQ / UnmarshalIQElement: any reads, any failures, then the
   deferred Close: exactly one close, no panic. *)
Theorem C06_unmarshal_closes_once : forall ridem reads s,
  forallb (fun l => negb (is_close l)) reads = true ->
  run (rl_step (cfg_raw ridem)) rl_init (unmarshal_prog reads) = Some s ->
  rl_panic s = false /\ rl_released s = 1.
Proof.
  intros ridem reads s N R. apply (raw_one_close _ ridem s R). unfold unmarshal_prog.
  rewrite count_close_app, (no_close_count reads N). reflexivity.
Qed.
Print Assumptions C06_unmarshal_closes_once.

(* The responder returned to the caller: full statement (no panic, released
   at most once, whatever the caller does) ... *)
Definition C06_raw_response_statement (ridem : bool) : Prop :=
  forall tr s, run (rl_step (cfg_raw ridem)) rl_init tr = Some s -> rl_panic s = false /\ rl_released s <= 1.

(* ... holds for a responder whose Close tolerates a second call, *)
Theorem C06_raw_response_idempotent : C06_raw_response_statement true.
Proof.
  intros tr s R. rewrite (raw_count_run true tr s R). unfold rl_at. cbn [rl_panic rl_released rl_ridem cfg_raw].
  split; [apply andb_false_r|apply Nat.le_min_l].
Qed.
Print Assumptions C06_raw_response_idempotent.

(* ... is false of a responder that closes its channel unconditionally
   (iqResponder.Close without its sync.Once): a caller that closes twice panics, *)
Theorem C06_raw_response_refuted :
  exists s, run (rl_step (cfg_raw false)) rl_init [RTokOk; RClose; RClose] = Some s /\ rl_panic s = true.
Proof. eexists. split; [vm_compute; reflexivity|reflexivity]. Qed.
Print Assumptions C06_raw_response_refuted.

(* ... and holds for it when the caller closes at most once; exactly one
   Close releases the serve loop exactly once. *)
Theorem C06_raw_response_partial : forall tr s,
  run (rl_step (cfg_raw false)) rl_init tr = Some s -> count_close tr <= 1 -> rl_panic s = false.
Proof.
  intros tr s R C. rewrite (raw_count_run false tr s R).
  destruct (count_close tr) as [|[|n]]; [reflexivity|reflexivity|]. apply le_S_n in C. inversion C.
Qed.
Print Assumptions C06_raw_response_partial.

Theorem C06_raw_response_one_close : forall tr ridem s,
  run (rl_step (cfg_raw ridem)) rl_init tr = Some s -> count_close tr = 1 ->
  rl_panic s = false /\ rl_released s = 1.
Proof. exact raw_one_close. Qed.
Print Assumptions C06_raw_response_one_close.

(* The serve goroutine is never blocked on the write lock (by the shape of
   [iw_step false]: a lock attempt, never a wait; that closeNoNotify has this
   shape is the table lemma [ibb_serve_close_never_waits_for_writer]) ... *)
Theorem C06_ibb_close_never_blocks_serve : forall tr s,
  run (iw_step false false) iw_init tr = Some s -> iw_v s <> VBlocked.
Proof. intros tr s R. exact (proj1 (iw_serve_free_run tr s R)). Qed.
Print Assumptions C06_ibb_close_never_blocks_serve.

(* ... serve progress on every schedule: free, or its next step is enabled *)
Theorem C06_ibb_close_serve_progress : forall tr s,
  run (iw_step false false) iw_init tr = Some s -> iw_serve_waits false s.
Proof.
  intros tr s R. destruct (iw_serve_free_run tr s R) as [N1 N2]. unfold iw_serve_waits, iw_enabled.
  destruct (iw_v s) eqn:E; auto; cbn [iw_step]; rewrite ?E; try discriminate.
  destruct (writer_holds s); discriminate.
Qed.
Print Assumptions C06_ibb_close_serve_progress.

(* ... the close request is answered whatever the writer is doing or has suffered *)
Theorem C06_ibb_close_completes : forall s,
  iw_v s = VClose ->
  exists s1, iw_step false false s VTry = Some s1 /\
    (iw_v s1 = VIdle /\ iw_closed s1 = true \/
     exists s2, iw_step false false s1 VFlushDone = Some s2 /\ iw_v s2 = VIdle /\ iw_closed s2 = true).
Proof.
  intros s E. cbn [iw_step]. rewrite E. destruct (writer_holds s).
  - eexists. split; [reflexivity|]. left. split; reflexivity.
  - eexists. split; [reflexivity|]. right. cbn. eexists. split; [reflexivity|]. split; reflexivity.
Qed.
Print Assumptions C06_ibb_close_completes.

(* ... and Serve never ends in the close handler *)
Theorem C06_ibb_close_never_ends_serve : forall tr s,
  run (iw_step false false) iw_init tr = Some s -> iw_v s <> VEnded.
Proof. intros tr s R. exact (proj2 (iw_serve_free_run tr s R)). Qed.
Print Assumptions C06_ibb_close_never_ends_serve.

(* The pinned design let the stale error of a refused data packet escape from
   the close handler: Serve ended, the close request was not answered
   (repaired by 02a6c9c). *)
Theorem C06_ibb_close_stale_error_pinned_refuted :
  exists s, run (iw_step false true) iw_init [WStart; WSend; WAck false; VCloseArrive; VTry; VFlushDone] = Some s /\
    iw_v s = VEnded /\ iw_closed s = false.
Proof. eexists. split; [vm_compute; reflexivity|]. split; reflexivity. Qed.
Print Assumptions C06_ibb_close_stale_error_pinned_refuted.

(* The writer can always go on, or waits for a reply the free serve goroutine can deliver. *)
Theorem C06_ibb_writer_progress : forall b s, iw_writer_waits b s.
Proof.
  intros b s. unfold iw_writer_waits, iw_enabled. destruct (iw_w s) eqn:E; auto; cbn [iw_step]; rewrite E; try discriminate.
  intros ->. discriminate.
Qed.
Print Assumptions C06_ibb_writer_progress.

Theorem C06_ibb_overtaken_writer_is_aborted : forall s s1,
  iw_v s = VClose -> writer_holds s = true -> iw_step false false s VTry = Some s1 ->
  iw_aborted s1 = true /\ iw_w s1 = iw_w s.
Proof.
  intros s s1 E W H. cbn [iw_step] in H. rewrite E, W in H. injection H as <-. split; reflexivity.
Qed.
Print Assumptions C06_ibb_overtaken_writer_is_aborted.

(* What the table lemma [ibb_serve_close_never_waits_for_writer] excludes: a
   blocking Lock in the close path; when the close overtakes the
   acknowledgement only the writer's own deadline gets anybody out. *)
Theorem C06_ibb_blocking_close_refuted :
  exists s, run (iw_step true false) iw_init overtake_trace = Some s /\
    iw_w s = WWait /\ iw_v s = VBlocked /\
    forall l, iw_enabled true s l -> l = WDeadline.
Proof.
  eexists. split; [vm_compute; reflexivity|]. repeat split.
  intros l E. unfold iw_enabled in E. destruct l; cbn in E; try congruence; try (destruct ok; congruence).
Qed.
Print Assumptions C06_ibb_blocking_close_refuted.

(* For every history of Expect calls for one session — take-overs,
   cancellations, give-ups in any order — and open requests: the entry of an
   Expect call that is waiting with a live context is never removed by another
   call; it stays in the table until an open request takes it for that call. *)
Theorem C06_ibb_expect_entry_is_kept : forall tr s i,
  run (ex_step true) ex_init tr = Some s -> ex_live s i -> ex_tab s = Some i \/ ex_h s = OOffer i.
Proof. intros tr s i R (c & Hc & P & Q). exact (ExInv_run tr s R i c Hc P Q). Qed.
Print Assumptions C06_ibb_expect_entry_is_kept.

(* ... and an open request is delivered to it: the serve goroutine is not left
   waiting for an Accept call *)
Theorem C06_ibb_expect_open_is_delivered : forall tr s i,
  run (ex_step true) ex_init tr = Some s -> ex_live s i -> ex_h s = OIdle ->
  exists s1 s2, ex_step true s OArrive = Some s1 /\ ex_h s1 = OOffer i /\
                ex_step true s1 (ODeliver i) = Some s2 /\ ex_h s2 = OIdle /\
                exists c, nth_error (ex_calls s2) i = Some c /\ e_pc c = ERet EConn.
Proof.
  intros tr s i R L Eh. destruct (C06_ibb_expect_entry_is_kept tr s i R L) as [Et|Eo]; [|congruence].
  destruct L as (c & Hc & Hp & Hn).
  cbn [ex_step]. rewrite Eh, Et. eexists. eexists. split; [reflexivity|]. split; [reflexivity|].
  cbn. rewrite Nat.eqb_refl, Hc, Hp. split; [reflexivity|]. split; [reflexivity|].
  eexists. split; [eapply Heap.nth_error_set_nth_same; eauto|reflexivity].
Qed.
Print Assumptions C06_ibb_expect_open_is_delivered.

(* a call that gives up removes its own entry *)
Theorem C06_ibb_expect_cleanup_removes_own : forall s i c,
  nth_error (ex_calls s) i = Some c -> e_pc c = EGiveUp -> ex_tab s = Some i ->
  exists s', ex_step true s (ECleanup i) = Some s' /\ ex_tab s' = None.
Proof.
  intros s i c Hc Hp Et. cbn [ex_step]. rewrite Hc, Hp, Et, Nat.eqb_refl. eexists. split; reflexivity.
Qed.
Print Assumptions C06_ibb_expect_cleanup_removes_own.

(* What the table lemma [ibb_expect_removes_only_its_own_entry] excludes: a
   cleanup without the ownership test.  The cancelled first call removes the
   entry of the second one that took over; the open request finds nobody, the
   serve goroutine waits for an Accept call (and nothing else releases it)
   while the second Expect is still waiting. *)
Theorem C06_ibb_expect_no_owner_check_refuted :
  exists s, run (ex_step false) ex_init takeover_trace = Some s /\
    ex_live s 1 /\ ex_tab s = None /\ ex_h s = OAccept /\
    forall l s', ex_step false s l = Some s' -> l <> AAccept -> ex_h s' = OAccept.
Proof.
  eexists. split; [vm_compute; reflexivity|]. split; [eexists; repeat split|]. split; [reflexivity|].
  split; [reflexivity|]. intros l s' H N. eapply ex_accept_step; eauto. reflexivity.
Qed.
Print Assumptions C06_ibb_expect_no_owner_check_refuted.

(* For every start element — no id attribute, id="", a caller-chosen id, only a
   namespace-qualified id, in any attribute order — the key under which
   Send* registers the call equals the id the peer sees, and it is not
   empty: a reply that carries the id from the wire is looked up under the
   call's key. *)
Theorem C06_registered_id_is_wire_id : forall attrs fresh fresh2,
  fresh <> 0%N ->
  let (key, wire) := send_ids GenWhenEmpty attrs fresh fresh2 in key = wire /\ key <> 0%N.
Proof.
  intros attrs fresh fresh2 F. unfold send_ids, complete_id.
  assert (Ef : N.eqb fresh 0 = false) by (apply N.eqb_neq; exact F).
  destruct (find_id attrs 0) as [[k v]|] eqn:E.
  - destruct (N.eqb v 0) eqn:Ev.
    + pose proof (find_id_set attrs 0 k v fresh E) as S. rewrite Nat.sub_0_r in S.
      unfold encoder_id, wire_id. rewrite S, Ef, S. auto.
    + unfold encoder_id, wire_id. rewrite E, Ev, E. split; [reflexivity|]. intro X. rewrite X in Ev. discriminate.
  - pose proof (find_id_app_none attrs (mkattr 0 1 fresh) 0 E eq_refl) as S. cbn in S.
    unfold encoder_id, wire_id. rewrite S, Ef, S. auto.
Qed.
Print Assumptions C06_registered_id_is_wire_id.

Theorem C06_chosen_id_is_kept : forall attrs fresh fresh2 k v,
  find_id attrs 0 = Some (k, v) -> v <> 0%N -> send_ids GenWhenEmpty attrs fresh fresh2 = (v, v).
Proof.
  intros attrs fresh fresh2 k v E V. unfold send_ids, complete_id. rewrite E.
  destruct (N.eqb v 0) eqn:Ev; [apply N.eqb_eq in Ev; congruence|].
  unfold encoder_id, wire_id. rewrite E, Ev, E. reflexivity.
Qed.
Print Assumptions C06_chosen_id_is_kept.

(* What the table lemma [send_generates_id_whenever_empty] excludes. *)
Theorem C06_id_generated_only_when_absent_refuted :
  send_ids GenWhenAbsent (id_shape 1 0) 1000 2000 = (0%N, 2000%N).
Proof. vm_compute. reflexivity. Qed.
Print Assumptions C06_id_generated_only_when_absent_refuted.

From XV Require Import C06.ModelExt C06.ProofsRx.

(* With the handler registered for every message type (table lemma
   [receipts_registered_for_every_message_type]) no receipt is lost in the
   multiplexer, and every schedule of the routed system is a schedule of the
   receipts system, so the receipts theorems of PropertiesExt.v hold behind the
   multiplexer for every message type. *)
Theorem C06_receipts_routed_for_every_type : forall s ty id,
  rxr_step routes_all s (RUnrouted ty id) = None.
Proof. reflexivity. Qed.
Print Assumptions C06_receipts_routed_for_every_type.

Theorem C06_receipts_routed_refines : forall tr s s',
  run (rxr_step routes_all) s tr = Some s' -> run (rx_step true) s (rxr_project tr) = Some s'.
Proof. exact rxr_projects. Qed.
Print Assumptions C06_receipts_routed_refines.

Theorem C06_receipts_routed_outcome : forall tr s i x o,
  run (rxr_step routes_all) rx_init tr = Some s -> nth_error (rx_snd s) i = Some x -> x_pc x = XRet o ->
  match o with
  | XOk => exists q, In (RNotified q (x_id x) i) (rx_hist s)
  | XCtxErr => x_canc x = true
  | XSendErr => True
  end.
Proof. intros tr s i x o R. exact (rx_outcome_run _ s i x o (rxr_projects tr _ _ R)). Qed.
Print Assumptions C06_receipts_routed_outcome.

(* a receipt of any message type brings its sender back with nil *)
Theorem C06_receipts_receipt_of_any_type_returns : forall ty,
  exists s, run (rxr_step routes_all) rx_init
              [RL (XStart 1); RL (XSendOk 0); RArrive ty 1; RL XLookup; RL XNotify; RL (XRecv 0)] = Some s /\
            map snd_code (rx_snd s) = [XCOk].
Proof.
  intro ty. unfold rxr_step, routes_all. cbn [run]. eexists. split; [vm_compute; reflexivity|reflexivity].
Qed.
Print Assumptions C06_receipts_receipt_of_any_type_returns.

(* What the table lemma excludes: a registration without "headline". *)
Theorem C06_receipts_missing_type_refuted :
  exists s x, run (rxr_step routes_without_headline) rx_init
                [RL (XStart 1); RL (XSendOk 0); RUnrouted 3 1] = Some s /\
    nth_error (rx_snd s) 0 = Some x /\ x_pc x = XWait /\ x_tok x = false /\ rx_h s = HIdle /\ rx_hist s = [] /\
    rxr_step routes_without_headline s (RArrive 3 1) = None /\
    rxr_step routes_without_headline s (RL (XRecv 0)) = None /\
    rxr_step routes_without_headline s (RL (XCtxDone 0)) = None.
Proof. eexists. eexists. split; [vm_compute; reflexivity|]. repeat split. Qed.
Print Assumptions C06_receipts_missing_type_refuted.
