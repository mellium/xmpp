(* C06/ProofsLife.v — lemmas about the transition systems of C06/ModelLife.v. *)
From Coq Require Import List Arith NArith Bool Lia.
Import ListNotations.
From XV Require Import lib.Lts C06.Model C06.ModelLife C06.Calls C06.Proofs.
From XV Require lib.Heap.

(* what a reader operation does to the responder: nothing, Close through the
   once-guard of errCloser, iqResponder.Close itself *)
Inductive rlact := ANone | AGuard | ADirect.

Definition act (c : rlcfg) (l : rllabel) : rlact :=
  match l with
  | RTokOk => ANone
  | RTokErr => if rl_guard c
               then match rl_tokclose c with TCNone => ANone | TCGuarded => AGuard | TCDirect => ADirect end
               else ANone
  | RClose => if rl_guard c then AGuard else ADirect
  end.

Definition guarded (c : rlcfg) (l : rllabel) : bool := match act c l with AGuard => true | _ => false end.
Definition direct (c : rlcfg) (l : rllabel) : bool := match act c l with ADirect => true | _ => false end.

(* the state after g closes through the guard and d direct ones:
   iqResponder.Close has run d times, and once more if the guard has fired; its
   first run releases the serve loop, a second one is the panic unless tolerated *)
Definition rl_at (c : rlcfg) (g d : nat) : rlstate :=
  let n := d + Nat.min 1 g in
  mkrl (0 <? n) (0 <? g) ((1 <? n) && negb (rl_ridem c)) (Nat.min 1 n).

Lemma uclose_at c g d : rl_panic (rl_at c g d) = false -> uclose c (rl_at c g d) = rl_at c g (S d).
Proof.
  destruct c as [gd tc [|]], g as [|g], d as [|[|d]]; intro P; try discriminate P; reflexivity.
Qed.

Lemma gclose_at c g d : rl_panic (rl_at c g d) = false -> gclose c (rl_at c g d) = rl_at c (S g) d.
Proof.
  destruct c as [gd tc [|]], g as [|g], d as [|[|d]]; intro P; try discriminate P; reflexivity.
Qed.

(* the closed form, for every configuration and every sequence of reader
   operations; [rl_step] refuses every operation after a panic, so the two
   lemmas above are needed only where there has been none *)
Theorem rl_run_at c tr s :
  run (rl_step c) rl_init tr = Some s -> s = rl_at c (count (guarded c) tr) (count (direct c) tr).
Proof.
  revert tr s. refine (invariant_hist _ _ (rl_step c) _ rl_init eq_refl _).
  intros h s l s' _ -> H. rewrite !count_snoc. unfold rl_step in H. unfold guarded at 2, direct at 2.
  destruct (rl_panic (rl_at c _ _)) eqn:P; [discriminate|].
  destruct l; cbn [act]; [destruct (rl_uclosed _); [discriminate|]|..];
    destruct (rl_guard c); [| |destruct (rl_tokclose c)| | |]; injection H as <-; cbn [b2n];
    rewrite ?Nat.add_0_r, ?Nat.add_1_r; auto using uclose_at, gclose_at.
Qed.

(* every underlying close goes through the guard, which fires at the first
   failing Token or Close and never again *)
Lemma guarded_exactly_once ridem tr s :
  run (rl_step (cfg_iter TCGuarded ridem)) rl_init tr = Some s ->
  rl_panic s = false /\ rl_released s <= 1 /\
  (In RTokErr tr \/ In RClose tr -> rl_released s = 1 /\ rl_uclosed s = true).
Proof.
  intro R. rewrite (rl_run_at _ tr s R). rewrite (count_never (direct _)) by (intros []; reflexivity).
  set (g := count _ tr).
  assert (G : In RTokErr tr \/ In RClose tr -> 0 < g) by (intros [X|X]; exact (count_in _ tr _ X eq_refl)).
  destruct g as [|g]; cbn; [split; [reflexivity|]; split; [auto|]; intro X; apply G in X; inversion X|auto].
Qed.

Fixpoint count_close (tr : list rllabel) : nat :=
  match tr with
  | [] => 0
  | RClose :: r => S (count_close r)
  | _ :: r => count_close r
  end.

Lemma count_close_app a b : count_close (a ++ b) = count_close a + count_close b.
Proof. induction a as [|x a IH]; cbn; [reflexivity|]. destruct x; rewrite IH; reflexivity. Qed.

Lemma count_close_direct ridem tr : count (direct (cfg_raw ridem)) tr = count_close tr.
Proof. unfold count. induction tr as [|[] tr IH]; cbn; congruence. Qed.

(* the first Close of the caller closes the channel and releases the serve
   loop; a second one is a panic unless the responder tolerates it *)
Lemma raw_count_run ridem tr s :
  run (rl_step (cfg_raw ridem)) rl_init tr = Some s -> s = rl_at (cfg_raw ridem) 0 (count_close tr).
Proof.
  intro R. rewrite (rl_run_at _ tr s R), count_close_direct. rewrite (count_never (guarded _)) by (intros []; reflexivity).
  reflexivity.
Qed.

Lemma raw_one_close tr ridem s :
  run (rl_step (cfg_raw ridem)) rl_init tr = Some s -> count_close tr = 1 ->
  rl_panic s = false /\ rl_released s = 1.
Proof. intros R C. rewrite (raw_count_run ridem tr s R), C. split; reflexivity. Qed.

Lemma no_close_count reads : forallb (fun l => negb (is_close l)) reads = true -> count_close reads = 0.
Proof.
  induction reads as [|x r IH]; cbn; [reflexivity|]. intro H. apply andb_prop in H. destruct H as [A B].
  destruct x; try discriminate; auto.
Qed.

(* enabledness in the design without the escaping error ([escape = false]) *)
Definition iw_enabled (b : bool) (s : iwstate) (l : iwlabel) : Prop := iw_step b false s l <> None.

Lemma iw_serve_free_run tr s :
  run (iw_step false false) iw_init tr = Some s -> iw_v s <> VBlocked /\ iw_v s <> VEnded.
Proof.
  apply (invariant_run _ _ (iw_step false false) (fun s => iw_v s <> VBlocked /\ iw_v s <> VEnded) iw_init).
  - split; discriminate.
  - intros s0 l s1 [N1 N2] H. destruct l; cbn [iw_step] in H; step_cases H; injection H as <-; cbn;
      split; congruence.
Qed.

(* serve progress: in every reachable state the serve goroutine is free or its next step is enabled *)
Definition iw_serve_waits (b : bool) (s : iwstate) : Prop :=
  match iw_v s with
  | VIdle => True
  | VClose => iw_enabled b s VTry
  | VFlush => iw_enabled b s VFlushDone
  | VBlocked => False
  | VEnded => False
  end.

(* writer progress: it can always go on, or waits for a reply that the (free) serve goroutine can deliver *)
Definition iw_writer_waits (b : bool) (s : iwstate) : Prop :=
  match iw_w s with
  | WIdle => True
  | WHold => iw_enabled b s WSend
  | WWait => iw_v s = VIdle -> iw_enabled b s (WAck true)
  | WRet _ => iw_enabled b s WAgain
  end.

(* a refused data packet, then the peer's close, on the code: the request is answered *)
Lemma iw_stale_error_code :
  exists s, run (iw_step false false) iw_init [WStart; WSend; WAck false; VCloseArrive; VTry; VFlushDone] = Some s /\
    iw_v s = VIdle /\ iw_closed s = true /\ iw_broken s = true.
Proof. eexists. split; [vm_compute; reflexivity|]. repeat split. Qed.

(* a blocking Lock on the serve goroutine: close overtakes the acknowledgement
   and nothing but the writer's own deadline gets anybody out *)
Definition overtake_trace : list iwlabel := [WStart; WSend; VCloseArrive; VTry].

(* [overtake_trace] on the code: the close is answered at once, the writer gets its acknowledgement *)
Lemma iw_code_overtake :
  exists s, run (iw_step false false) iw_init (overtake_trace ++ [WAck true]) = Some s /\
    iw_w s = WRet true /\ iw_v s = VIdle /\ iw_closed s = true /\ iw_aborted s = true.
Proof. eexists. split; [vm_compute; reflexivity|]. repeat split. Qed.

Definition ex_live (s : exstate) (i : nat) : Prop :=
  exists c, nth_error (ex_calls s) i = Some c /\ e_pc c = EWait /\ e_canc c = false.

(* a call that is waiting with a live context has its entry in the table, or
   the handler has taken it for that call *)
Definition ex_ok (tab : option nat) (h : ohpc) (i : nat) (c : ecall) : Prop :=
  e_pc c = EWait -> e_canc c = false -> tab = Some i \/ h = OOffer i.

Lemma cancel_call_length l j : length (cancel_call l j) = length l.
Proof. unfold cancel_call. destruct (nth_error l j); [apply Heap.set_nth_length|reflexivity]. Qed.

Lemma all_calls_cancel (P P' : nat -> ecall -> Prop) l j :
  all_calls P l -> (forall i c, i <> j -> P i c -> P' i c) -> (forall c, P' j (mkecall true (e_pc c))) ->
  all_calls P' (cancel_call l j).
Proof.
  intros H Ho Hj. unfold cancel_call. destruct (nth_error l j) as [cj|] eqn:Ej.
  - apply (all_calls_upd _ _ _ j cj _ H Ej); auto.
  - intros i c Hc. apply Ho; [congruence|exact (H i c Hc)].
Qed.

Definition ExInv (s : exstate) : Prop := all_calls (ex_ok (ex_tab s) (ex_h s)) (ex_calls s).

Theorem ExInv_step s l s' : ExInv s -> ex_step true s l = Some s' -> ExInv s'.
Proof.
  unfold ExInv. intros I H. destruct l; cbn [ex_step] in H; unfold ecall_step in H.
  - (* EStart: the call whose entry is there is cancelled, the new call has the entry *)
    injection H as <-. cbn [ex_calls ex_tab ex_h].
    assert (C : all_calls (fun i c => e_pc c = EWait -> e_canc c = false -> ex_h s = OOffer i)
                  match ex_tab s with Some j => cancel_call (ex_calls s) j | None => ex_calls s end).
    { destruct (ex_tab s) as [j|].
      - apply (all_calls_cancel _ _ _ j I); [|discriminate]. intros i c N O P Q. destruct (O P Q); congruence.
      - intros i c Hc P Q. destruct (I i c Hc P Q); congruence. }
    apply (all_calls_snoc _ _ _ _ C); [intros j y O P Q; right; auto|].
    intros _ _. left. f_equal. destruct (ex_tab s); [symmetry; apply cancel_call_length|reflexivity].
  - (* ECancel *) step_cases H. injection H as <-. eapply all_calls_upd; [exact I|eassumption|auto|discriminate].
  - (* ECtx *) step_cases H. injection H as <-. eapply all_calls_upd; [exact I|eassumption|auto|discriminate].
  - (* ECleanup: only its own entry, and call i is not waiting any more *)
    destruct (nth_error (ex_calls s) i) as [x|] eqn:Hk; [|discriminate].
    destruct (e_pc x) eqn:Ex; try discriminate. injection H as <-.
    apply (all_calls_upd _ _ _ i x _ I Hk); [|discriminate].
    intros j y N O P Q. destruct (O P Q) as [E|E]; [left|right; exact E]. rewrite E.
    destruct (Nat.eqb j i) eqn:Ej; [apply Nat.eqb_eq in Ej; congruence|reflexivity].
  - (* OArrive *) destruct (ex_h s) eqn:Eh; try discriminate.
    destruct (ex_tab s) as [j|] eqn:Et; injection H as <-; cbn [ex_calls ex_tab ex_h]; intros i c Hc P Q;
      destruct (I i c Hc P Q) as [E|E]; try discriminate. injection E as ->. right. reflexivity.
  - (* ODeliver: call j has its connection *)
    destruct (ex_h s) as [|j'|] eqn:Eh; try discriminate. destruct (Nat.eqb j j') eqn:Ej; [|discriminate].
    apply Nat.eqb_eq in Ej. subst j'.
    destruct (nth_error (ex_calls s) j) as [x|] eqn:Hk; [|discriminate].
    destruct (e_pc x); try discriminate. injection H as <-.
    apply (all_calls_upd _ _ _ j x _ I Hk); [|discriminate].
    intros i y N O P Q. destruct (O P Q) as [E|E]; [left; exact E|congruence].
  - (* OGiveUp: call j is cancelled *)
    destruct (ex_h s) as [|j|] eqn:Eh; try discriminate.
    destruct (nth_error (ex_calls s) j) as [x|] eqn:Hk; [|discriminate].
    destruct (e_canc x) eqn:Ec; [|discriminate]. injection H as <-. cbn [ex_calls ex_tab ex_h].
    intros i c Hc P Q. destruct (I i c Hc P Q) as [E|E]; [left; exact E|]. injection E as <-. congruence.
  - (* AAccept *) destruct (ex_h s) eqn:Eh; try discriminate. injection H as <-. cbn [ex_calls ex_tab ex_h].
    intros i c Hc P Q. destruct (I i c Hc P Q) as [E|E]; [left; exact E|discriminate].
Qed.

Theorem ExInv_run tr s : run (ex_step true) ex_init tr = Some s -> ExInv s.
Proof.
  apply (invariant_run _ _ (ex_step true) ExInv ex_init); [|exact ExInv_step].
  intros i c H. destruct (nth_nil _ _ H).
Qed.

Lemma ex_accept_step own s l s' :
  ex_h s = OAccept -> ex_step own s l = Some s' -> l <> AAccept -> ex_h s' = OAccept.
Proof.
  intros Eh H N. destruct l; cbn [ex_step] in H; unfold ecall_step in H; rewrite ?Eh in H;
    step_cases H; try (injection H as <-; cbn; auto); congruence.
Qed.

Definition takeover_trace : list exlabel := [EStart; EStart; ECtx 0; ECleanup 0; OArrive].

(* [takeover_trace] on the code: the second Expect gets the stream *)
Lemma ex_takeover_code :
  exists s, run (ex_step true) ex_init (takeover_trace ++ [ODeliver 1]) = Some s /\
    map ecode (ex_calls s) = [2; 1] /\ ex_h s = OIdle.
Proof. eexists. split; [vm_compute; reflexivity|]. split; reflexivity. Qed.

Lemma find_id_bound attrs : forall k j v, find_id attrs k = Some (j, v) -> k <= j /\ j - k < length attrs.
Proof.
  induction attrs as [|a rest IH]; intros k j v H; cbn in H; [discriminate|].
  destruct (is_id a).
  - injection H as <- <-. cbn. lia.
  - destruct (IH _ _ _ H). cbn. lia.
Qed.

Lemma find_id_set attrs : forall k j v w,
  find_id attrs k = Some (j, v) -> find_id (set_val attrs (j - k) w) k = Some (j, w).
Proof.
  induction attrs as [|a rest IH]; intros k j v w H; cbn in H; [discriminate|].
  destruct (is_id a) eqn:E.
  - injection H as <- <-. rewrite Nat.sub_diag. cbn. unfold is_id in *. cbn. rewrite E. reflexivity.
  - destruct (find_id_bound _ _ _ _ H) as [A _].
    replace (j - k) with (S (j - S k)) by lia. cbn. rewrite E. apply (IH _ _ _ _ H).
Qed.

Lemma find_id_app_none attrs x : forall k,
  find_id attrs k = None -> is_id x = true -> find_id (attrs ++ [x]) k = Some (k + length attrs, a_val x).
Proof.
  induction attrs as [|a rest IH]; intros k H E; cbn.
  - rewrite E. rewrite Nat.add_0_r. reflexivity.
  - cbn in H. destruct (is_id a); [discriminate|]. rewrite (IH _ H E). f_equal. f_equal. lia.
Qed.

From XV Require Import C06.ModelExt C06.ProofsRx.

(* with every type routed, a schedule of the routed system is a schedule of the
   receipts system: everything proved about [rx_step true] carries over *)
Lemma rxr_projects tr : forall s s',
  run (rxr_step routes_all) s tr = Some s' -> run (rx_step true) s (rxr_project tr) = Some s'.
Proof.
  induction tr as [|l tr IH]; intros s s' R; cbn [run] in R; cbn [rxr_project].
  - exact R.
  - destruct (rxr_step routes_all s l) as [s1|] eqn:E; [|discriminate].
    destruct l as [l'|ty id|ty id]; cbn [rxr_step routes_all] in E.
    + destruct l'; try discriminate; cbn [run]; rewrite E; apply IH; exact R.
    + cbn [run]. rewrite E. apply IH. exact R.
    + discriminate.
Qed.

Lemma rxr_handler_progress_run tr s :
  run (rxr_step routes_all) rx_init tr = Some s ->
  match rx_h s with
  | HIdle => True
  | HRead _ _ => rx_enabled s XLookup
  | HNotify _ _ _ => rx_enabled s XNotify
  | HUnh _ _ => rx_enabled s XUnhandled
  | HPanic => False
  end.
Proof. intro R. exact (rx_handler_progress_run _ s (rxr_projects tr _ _ R)). Qed.
