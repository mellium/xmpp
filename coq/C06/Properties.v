(* C06/Properties.v — the property theorems of C06 and nothing else.
   "Every correlated wait ends exactly once with its own reply or its context error."

   Core mechanism (session.go sendResp / handleInputStream / iqResponder): the
   theorems quantify over every label sequence of the transition system of
   C06/Model.v — any number of calls, any ids and names (duplicates included),
   any arrival order and content of the peer's elements, any placement of
   cancellations, closes, send failures and select choices.  The only premise is
   [forallb wf_label tr = true]: the XML tokenizer never yields an element with an
   empty local name ([C06_precedence_hazard] shows what that premise excludes).
   [step true] is the repaired code, [step false] the pinned code. *)
From Coq Require Import List Arith NArith Bool.
Import ListNotations.
From XV Require Import lib.Lts C06.Model C06.Calls C06.Proofs.
From XV Require lib.Heap.

(* A call that has returned has exactly one outcome, and it is legitimate: a
   response carries the call's id, the call's element kind and type
   result/error; the context error is returned only after the caller's context
   was cancelled. *)
Theorem C06_outcome_is_own_reply_or_ctx_error : forall fx tr s i r o c,
  forallb wf_label tr = true -> run (step fx) init tr = Some s ->
  nth_error (reqs s) i = Some r -> r_pc r = RRet o c ->
  match o with
  | OReply st => s_id st = r_id r /\ n_local (s_name st) = n_local (r_name r) /\ s_resp st = true
  | OCtxErr => r_canc r = true
  | OSendErr => True
  end.
Proof.
  intros fx tr s i r o c W R Hi Hp. destruct (inv_req _ _ (Inv_run fx tr s W R) i r Hi) as (_ & Io & Ic).
  rewrite Hp in Io, Ic. destruct o as [st| |]; [|exact (Ic eq_refl)|exact I].
  destruct (Io st eq_refl) as (A & B & C & _).
  repeat split; auto. symmetry. apply name_match_local. exact B.
Qed.
Print Assumptions C06_outcome_is_own_reply_or_ctx_error.

(* At most one outcome: whatever happens after a call has returned — later,
   duplicate or unknown replies, cancellation, other calls with the same id —
   its recorded outcome stays the same (only "response closed" can turn true). *)
Theorem C06_at_most_one_outcome : forall fx tr s s' i r o c,
  run (step fx) s tr = Some s' ->
  nth_error (reqs s) i = Some r -> r_pc r = RRet o c ->
  exists r' c', nth_error (reqs s') i = Some r' /\ r_pc r' = RRet o c' /\
                r_id r' = r_id r /\ r_name r' = r_name r /\ (c = true -> c' = true).
Proof.
  intros fx tr s s' i r o c R Hi Hp.
  destruct (call_stable_run (step_reqs fx)
              (fun r' => exists c', r_pc r' = RRet o c' /\ r_id r' = r_id r /\ r_name r' = r_name r /\ (c = true -> c' = true))
              i) with (tr := tr) (s := s) (s' := s') as (r' & Hi' & c' & P'); [|exact R|eauto 8|eauto].
  intros l x x' _ M (c1 & P1 & A & B & C). apply rmove_succ in M. destruct M as [M _].
  destruct (returned_succ _ _ _ _ M P1) as (c2 & P2 & C2). destruct M as (S1 & S2 & _).
  exists c2. repeat split; auto; congruence.
Qed.
Print Assumptions C06_at_most_one_outcome.

(* The life of a call is a line: registered, sent, {received | context done |
   send failed}, deregistered-and-returned, closed.  Every step of the system
   leaves every call where it is or moves it one position along that line. *)
Theorem C06_call_life_is_linear : forall fx s l s' j r,
  step fx s l = Some s' -> nth_error (reqs s) j = Some r ->
  exists r', nth_error (reqs s') j = Some r' /\
    r_id r' = r_id r /\ r_name r' = r_name r /\ (r_canc r = true -> r_canc r' = true) /\
    (r_pc r' = r_pc r \/ pc_next (r_pc r) (r_pc r')).
Proof.
  intros fx s l s' j r H Hj. destruct (step_call fx s l s' j r H Hj) as (r' & A & B & _). exists r'. split; [exact A|exact B].
Qed.
Print Assumptions C06_call_life_is_linear.

(* Every arrived element has exactly one fate: handed to one call, passed to the
   handler, or drained because the registered call's context was done at the
   hand-off.  A hand-off is exactly what that call holds/returned, and an element
   is never handed to two calls. *)
Theorem C06_reply_reaches_at_most_one : forall fx tr s,
  forallb wf_label tr = true -> run (step fx) init tr = Some s ->
  (forall e e', In e (hist s) -> In e' (hist s) -> ev_seq e = ev_seq e' -> e = e') /\
  (forall e, In e (hist s) -> ev_seq e < arrived s) /\
  (serve s = SIdle -> forall q, q < arrived s -> exists e, In e (hist s) /\ ev_seq e = q) /\
  (forall q i, In (EDeliver q i) (hist s) ->
     exists r st, nth_error (reqs s) i = Some r /\ s_seq st = q /\ has (r_pc r) st) /\
  (forall i r st, nth_error (reqs s) i = Some r -> has (r_pc r) st ->
     In (EDeliver (s_seq st) i) (hist s)) /\
  (forall q i, In (EDrop q i) (hist s) ->
     exists r, nth_error (reqs s) i = Some r /\ ctx_done fx r = true).
Proof.
  intros fx tr s W R. pose proof (Inv_run fx tr s W R) as Iv. pose proof (inv_ledger _ _ Iv) as L.
  repeat split.
  - intros e e'. exact (ledger_unique ev_seq (hist s) _ _ e e' L).
  - intros e. exact (ledger_bound ev_seq (hist s) _ _ e L).
  - intros Es. rewrite Es in L. exact (ledger_complete ev_seq (hist s) _ L).
  - intros q i H. destruct (inv_deliv _ _ Iv q i H) as (r & Hr & st & Hq & Hg). exists r, st. rewrite has_got. auto.
  - intros i r st Hi Hh. apply (inv_req _ _ Iv i r Hi). apply has_got. exact Hh.
  - exact (inv_drop _ _ Iv).
Qed.
Print Assumptions C06_reply_reaches_at_most_one.

(* Elements nobody waits for — not a reply, unknown/late/duplicate id (no table
   entry), or an entry of a different element kind — go to the handler, once. *)
Theorem C06_unmatched_goes_to_handler : forall fx s st,
  serve s = SRead st -> no_waiter s st ->
  exists s', run (step fx) s (handler_path st) = Some s' /\ serve s' = SIdle /\
             hist s' = hist s ++ [EHandle (s_seq st)] /\ reqs s' = reqs s /\ pend s' = pend s.
Proof.
  intros fx s st Es H. unfold handler_path. destruct H as [H|[[H1 H2]|[i [r [H1 [H2 H3]]]]]].
  - rewrite H. cbn [run step]. rewrite Es, H. cbn. eauto 6.
  - destruct (s_resp st) eqn:Er; cbn [run step]; rewrite Es, Er; cbn; [|eauto 6].
    rewrite H1. destruct (n_local (s_name st)); [congruence|]. cbn. eauto 6.
  - destruct (s_resp st) eqn:Er; cbn [run step]; rewrite Es, Er; cbn; [|eauto 6].
    rewrite H1, H2, H3. cbn. eauto 6.
Qed.
Print Assumptions C06_unmatched_goes_to_handler.

(* Deregistration on return: every table entry belongs to a call that has not
   returned and that registered that id. *)
Theorem C06_deregistered_on_return : forall fx tr s id i,
  forallb wf_label tr = true -> run (step fx) init tr = Some s -> In (id, i) (pend s) ->
  exists r, nth_error (reqs s) i = Some r /\ r_id r = id /\ is_ret (r_pc r) = false.
Proof. intros fx tr s id i W R. apply (inv_pend _ _ (Inv_run fx tr s W R)). Qed.
Print Assumptions C06_deregistered_on_return.

(* No panic of the serve goroutine in the hand-off. *)
Theorem C06_no_panic : forall fx tr s,
  forallb wf_label tr = true -> run (step fx) init tr = Some s -> serve s <> SPanic.
Proof.
  intros fx tr s W R E. pose proof (inv_serve _ _ (Inv_run fx tr s W R)) as Is. rewrite E in Is. exact Is.
Qed.
Print Assumptions C06_no_panic.

(* No permanent stall (repaired code): in every reachable state the serve
   goroutine is idle (waiting for the peer), can take a step, or waits for a
   call that can itself take a step: a call that still has to send, a call
   that has to leave (after which serve is released: [C06_return_releases_serve]), or a call
   holding an unclosed response (the documented obligation of the caller). *)
Theorem C06_serve_progress : forall tr s,
  forallb wf_label tr = true -> run (step true) init tr = Some s -> serve_waits true s.
Proof. intros tr s W R. apply serve_waits_inv. exact (Inv_run true tr s W R). Qed.
Print Assumptions C06_serve_progress.

(* ... once the caller closes the response the serve loop continues. *)
Theorem C06_close_releases_serve : forall fx tr s i s1,
  forallb wf_label tr = true -> run (step fx) init tr = Some s ->
  step fx s (LClose i) = Some s1 ->
  (exists st, serve s = SAwait st i) /\ enabled fx s1 LAwaitDone.
Proof.
  intros fx tr s i s1 W R H. pose proof (Inv_run fx tr s W R) as Iv.
  cbn [step] in H. destruct (req_step_inv _ _ _ _ H) as (r & r' & Hi & Hf & ->). cbv beta in Hf.
  destruct (r_pc r) as [| | | | |[st| |] [|]] eqn:Ep; try discriminate. injection Hf as <-.
  assert (Es : serve s = SAwait st i) by (apply (inv_req _ _ Iv i r Hi); rewrite Ep; reflexivity).
  split; [eauto|]. unfold enabled. cbn [step set_reqs serve reqs]. rewrite Es, (Heap.nth_error_set_nth_same _ _ _ _ Hi). cbn. discriminate.
Qed.
Print Assumptions C06_close_releases_serve.

(* ... a call that leaves without a response releases a pending offer; a call
   that completes its send can take the offer. *)
Theorem C06_return_releases_serve : forall tr s i s1 st,
  forallb wf_label tr = true -> run (step true) init tr = Some s ->
  serve s = SOffer st i -> step true s (LDereg i) = Some s1 -> enabled true s1 LOfferCtx.
Proof.
  intros tr s i s1 st _ _ Es H. cbn [step] in H.
  destruct (nth_error (reqs s) i) as [r|] eqn:Hi; [|discriminate].
  destruct (r_pc r); try discriminate; injection H as <-; unfold enabled; cbn [step serve reqs];
    rewrite Es, (Heap.nth_error_set_nth_same _ _ _ _ Hi), ctx_done_ret by reflexivity; discriminate.
Qed.
Print Assumptions C06_return_releases_serve.

Theorem C06_send_then_receive : forall fx s i s1 st,
  serve s = SOffer st i -> step fx s (LSendOk i) = Some s1 -> enabled fx s1 (LRecv i).
Proof.
  intros fx s i s1 st Es H. cbn [step] in H. destruct (req_step_inv _ _ _ _ H) as (r & r' & Hi & Hf & ->).
  cbv beta in Hf. destruct (r_pc r); try discriminate. injection Hf as <-.
  unfold enabled. cbn [step set_reqs serve reqs]. rewrite Es, Nat.eqb_refl, (Heap.nth_error_set_nth_same _ _ _ _ Hi). cbn. discriminate.
Qed.
Print Assumptions C06_send_then_receive.

(* A call never gets stuck on its own: it is at its select (waiting for the
   reply or its context; cancelled => can leave) or has an enabled step. *)
Theorem C06_call_progress : forall fx s i r,
  nth_error (reqs s) i = Some r ->
  match r_pc r with
  | RReg => enabled fx s (LSendOk i) /\ enabled fx s (LSendFail i)
  | RSelect => r_canc r = true -> enabled fx s (LCtxDone i)
  | RGot _ | RCtx | RSendErr => enabled fx s (LDereg i)
  | RRet _ _ => True
  end.
Proof.
  intros fx s i r Hi. unfold enabled. destruct (r_pc r) eqn:Ep; cbn [step]; unfold req_step; rewrite ?Hi, ?Ep;
    try discriminate; auto.
  - split; discriminate.
  - intros ->. discriminate.
Qed.
Print Assumptions C06_call_progress.

(* The pinned code violates "no permanent stall": a reply that is looked up
   while the call is between registration and a failing SendElement leaves the
   serve goroutine offering to a call that has returned; unless that caller's
   context happens to be cancelled later, serve never moves again. *)
Theorem C06_serve_progress_pinned_refuted :
  exists s st, run (step false) init stall_trace = Some s /\ stalled s st 0 /\
    forall tr s', ~ In (LCancel 0) tr -> run (step false) s tr = Some s' ->
                  serve s' = SOffer st 0.
Proof.
  do 2 eexists. split; [vm_compute; reflexivity|].
  eenough (St : stalled _ _ 0) by (split; [exact St|intros tr s' Hn R; exact (proj1 (stalled_run _ _ _ tr s' St Hn R))]).
  split; [reflexivity|]. do 3 eexists. repeat split.
Qed.
Print Assumptions C06_serve_progress_pinned_refuted.

(* What the well-formedness premise excludes: the condition
   `ok && a == b || a == c` is true for a missing entry when the element's local
   name is empty, and the zero-value entry (nil channel, nil context) is used. *)
Theorem C06_precedence_hazard :
  exists s, run (step true) init [LArrive 5 (mkname 1 0) true; LLookup; LDecide] = Some s /\
            serve s = SPanic.
Proof. eexists. split; [vm_compute; reflexivity|reflexivity]. Qed.
Print Assumptions C06_precedence_hazard.
