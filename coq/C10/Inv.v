(* C10/Inv.v — the safety invariant of the closing model and its preservation
   by every step of every actor (all interleavings). *)
From XV Require Import lib.Bytes lib.Lts C10.Model C10.Step.

Definition holds (og : outg) (i : nat) : bool :=
  match o_lock og with Some j => Nat.eqb j i | None => false end.

Definition tag_last (w : list item) : Prop :=
  ~ In IClose w \/ exists pre, w = pre ++ [IClose] /\ ~ In IClose pre.

(* the bit is set exactly when the tag has been attempted or is still owed by
   the call that set the bit; there is never more than one attempt; the attempt
   put the tag on the wire, last, unless the connection refused it; the encoder
   buffer never holds a tag *)
Definition wire_ok (o : outg) : Prop :=
  (o_cl o = false -> ~ In IClose (o_wire o) /\ o_pend o = false /\ o_att o = 0) /\
  (o_cl o = true ->
     if o_pend o then ~ In IClose (o_wire o) /\ o_att o = 0
     else o_att o = 1 /\ tag_last (o_wire o) /\ (o_wfail o = false -> In IClose (o_wire o))) /\
  ~ In IClose (o_buf o).

(* actor i's remaining code respects the lock discipline, and if it has found
   the stream open it holds the lock and the stream is still open *)
Definition disc (i : nat) (a : actor) (og : outg) : Prop :=
  safe (holds og i) (a_chk a) (a_code a) = true /\
  (a_chk a = true -> holds og i = true /\ o_cl og = false).

Definition INV (s : state) : Prop := wire_ok (s_o s) /\ forall i, disc i (s_a s i) (s_o s).

(* what a step of actor i does to the lock and to the bit, as the others see
   it: whether they hold the lock is as before, and the bit changes only under
   the lock *)
Definition guar (i : nat) (og og' : outg) : Prop :=
  (forall j, j <> i -> holds og' j = holds og j) /\ (o_cl og' = o_cl og \/ holds og i = true).

Lemma safe_skip : forall k c c', safe true c k = true -> has_unlock k = true ->
  safe true c' (skip_to_unlock k) = true.
Proof.
  induction k as [|o k IH]; intros c c' Hs Hu; [discriminate Hu|].
  destruct o; cbn [safe has_unlock skip_to_unlock] in *;
    repeat (apply andb_prop in Hs; destruct Hs as [Hs ?]);
    try discriminate; try (eapply IH; eassumption); try assumption.
Qed.

Lemma safe_programs : forall k, safe false false (prog_of k) = true.
Proof.
  destruct k as [|n|n|n|n|n|m|j|evs| | |b|]; try reflexivity.
  - cbn [prog_of]. induction evs as [|e evs IH]; [reflexivity|exact IH].
Qed.

Lemma INV_init : forall ds ks, INV (init ds ks).
Proof.
  intros ds ks. split.
  - cbn. split; [intros _; split; [intros []|split; reflexivity]|]. split; [discriminate|intros []].
  - intro i. unfold disc, holds. cbn.
    destruct (nth_error ks i) as [k|]; cbn.
    + split; [apply safe_programs|discriminate].
    + split; [reflexivity|discriminate].
Qed.

Lemma unguarded_open s i o k : INV s -> a_code (s_a s i) = o :: k ->
  (exists it, o = OEmit it) \/ o = OFlush -> o_cl (s_o s) = false.
Proof.
  intros [_ Ha] Hc Ho. destruct (Ha i) as [Hsafe Hchk]. rewrite Hc in Hsafe.
  refine (proj2 (Hchk _)).
  destruct Ho as [[it ->]| ->]; cbn [safe] in Hsafe; rewrite !andb_true_iff in Hsafe; tauto.
Qed.

Lemma holds_other og i j : holds og i = true -> j <> i -> holds og j = false.
Proof.
  unfold holds. destruct (o_lock og) as [l|]; [|discriminate].
  intros H Hn. apply Nat.eqb_eq in H. subst l. apply Nat.eqb_neq. congruence.
Qed.

Lemma holds_setlock og l i : holds (o_setlock og l) i = match l with Some j => Nat.eqb j i | None => false end.
Proof. reflexivity. Qed.

(* the others are not disturbed: if the bit changed, i holds the lock, so j does
   not and has not found the stream open *)
Lemma disc_stable i j a og og' : j <> i -> guar i og og' -> disc j a og -> disc j a og'.
Proof.
  intros Hn [Hl Hc] [Hs Hk]. unfold disc. rewrite (Hl j Hn). split; [exact Hs|].
  intro H. destruct (Hk H) as [Hh Ho]. split; [exact Hh|].
  destruct Hc as [->|Hi]; [exact Ho|]. rewrite (holds_other og i j Hi Hn) in Hh. discriminate.
Qed.

Lemma guar_frame i og og' : o_lock og' = o_lock og -> o_cl og' = o_cl og \/ holds og i = true -> guar i og og'.
Proof. intros Hl Hc. split; [|exact Hc]. intros j _. unfold holds. rewrite Hl. reflexivity. Qed.

(* a step that leaves the lock where it is, and changes the bit only under the lock *)
Lemma disc_intro me og og' a' :
  o_lock og' = o_lock og -> o_cl og' = o_cl og \/ holds og me = true -> wire_ok og' ->
  safe (holds og me) (a_chk a') (a_code a') = true ->
  (a_chk a' = true -> holds og me = true /\ o_cl og' = false) ->
  disc me a' og' /\ guar me og og' /\ wire_ok og'.
Proof.
  intros Hl Hc Hw Hs Hk. split; [|split; [exact (guar_frame me og og' Hl Hc)|exact Hw]].
  unfold disc, holds in *. rewrite Hl. split; assumption.
Qed.

Lemma wire_ok_emit o it : wire_ok o -> is_close it = false -> wire_ok (o_emit o it).
Proof.
  intros (H1 & H2 & H3) Hn. unfold wire_ok, o_emit. cbn.
  split; [exact H1|]. split; [exact H2|].
  intro H. apply in_app_or in H. destruct H as [H|[H|[]]]; [exact (H3 H)|subst it; discriminate Hn].
Qed.

Lemma wire_ok_flush o : wire_ok o -> o_cl o = false -> wire_ok (o_flush o).
Proof.
  intros (H1 & H2 & H3) Hc. destruct (H1 Hc) as (Hw & Hp & Ha). unfold wire_ok, o_flush. cbn. split; [|split].
  - intros _. split; [|split; assumption]. intro H. apply in_app_or in H. destruct H as [H|H]; [exact (Hw H)|exact (H3 H)].
  - intro H. rewrite Hc in H. discriminate.
  - intros [].
Qed.

Lemma wire_ok_mark o : wire_ok o -> wire_ok (o_mark o).
Proof.
  intro H. destruct (o_cl o) eqn:Hc; [rewrite (o_mark_closed o Hc); exact H|].
  destruct H as (H1 & _ & H3). destruct (H1 Hc) as (Hw & Hp & Ha). unfold o_mark. rewrite Hc.
  unfold wire_ok. cbn. split; [discriminate|]. split; [|exact H3]. intros _. split; assumption.
Qed.

Lemma wire_ok_writetag o : wire_ok o -> wire_ok (o_writetag o).
Proof.
  intros (H1 & H2 & H3). unfold o_writetag. destruct (o_pend o) eqn:Hp.
  - destruct (o_cl o) eqn:Hc.
    + specialize (H2 eq_refl). destruct H2 as [Hw Ha].
      unfold wire_ok. cbn [o_cl o_pend o_wire o_buf o_att o_wfail]. split; [intro E; congruence|]. split; [|exact H3].
      intros _. rewrite Ha. split; [reflexivity|]. destruct (o_wfail o) eqn:Hf.
      * split; [left; exact Hw|discriminate].
      * split; [right; exists (o_wire o); split; [reflexivity|exact Hw]|].
        intros _. apply in_or_app. right. left. reflexivity.
    + destruct (H1 eq_refl) as (_ & E & _). congruence.
  - unfold wire_ok. rewrite Hp. split; [exact H1|]. split; [exact H2|exact H3].
Qed.

Lemma wire_ok_setsl o l : wire_ok o -> wire_ok (o_setsl o l).
Proof. intro H. exact H. Qed.

Lemma wire_ok_setrdy o b : wire_ok o -> wire_ok (o_setrdy o b).
Proof. intro H. exact H. Qed.

Lemma wire_ok_setfault o : wire_ok o -> wire_ok (o_setfault o).
Proof.
  intros (H1 & H2 & H3). unfold wire_ok, o_setfault. cbn. split; [exact H1|]. split; [|exact H3].
  intro Hc. specialize (H2 Hc). destruct (o_pend o); [exact H2|].
  destruct H2 as (A & B & _). split; [exact A|]. split; [exact B|discriminate].
Qed.

(* [safe] is sound: the actor's own step keeps its discipline and wire_ok, and
   does to lock and bit only what the others can bear *)
Lemma disc_exec me o k og ig a og' ig' a' :
  a_code a = o :: k -> disc me a og -> wire_ok og -> exec me o k og ig a = Some (og', ig', a') ->
  disc me a' og' /\ guar me og og' /\ wire_ok og'.
Proof.
  intros Hc [Hs Hk] Hw Hex. rewrite Hc in Hs.
  destruct (o_mark_frame og) as (Ml & _). destruct (o_writetag_frame og) as (Wl & _ & _ & _ & Wc).
  destr_exec o Hex; cbn [safe] in Hs; rewrite ?andb_true_iff, ?negb_true_iff in Hs; rewrite ?first_err_set.
  (* the output side as it was, or changed where the discipline does not look and wire_ok survives
     (the state mutex, the peer's reading, the fault); the code goes on *)
  all: try (apply disc_intro; cbn [a_chk a_code set_code set_e set_chk set_res set_exit];
            [reflexivity|left; reflexivity|first [exact Hw|exact (wire_ok_setfault _ Hw)]|
             first [exact Hs|exact (proj2 Hs)]|first [exact Hk|intro C; destruct (Hk C); discriminate]]; fail).
  (* Serve's operations that install a fragment without touching the output side: the fragment is
     bracketed as it stands *)
  all: try (apply disc_intro; cbn [a_chk a_code set_code set_exit];
            [reflexivity|left; reflexivity|exact Hw|rewrite Hs; destruct (a_chk a); reflexivity|exact Hk]; fail).
  (* seventeen are left, in the order of [op]; by number where several go alike *)
  12-14: (* OWriteTag: whichever error is kept *)
    destruct Hs as [Hh Hs]; apply disc_intro; cbn [a_chk a_code set_code set_e];
      [exact Wl|left; exact Wc|exact (wire_ok_writetag _ Hw)|exact Hs|rewrite Wc; exact Hk].
  13-14: (* the last two of the fourteen now left: OHEmit, open *)
    apply disc_intro; cbn [a_chk a_code set_code];
      [reflexivity|left; reflexivity|exact (wire_ok_emit _ (IElem n) Hw eq_refl)|rewrite Hs; reflexivity|intros _; split; assumption].
  - (* OLock: the lock was free and is me's now; me had not found the stream open *)
    destruct Hs as [Hh Hs]. unfold disc, guar. rewrite holds_setlock, Nat.eqb_refl. cbn [a_chk a_code set_code].
    assert (Hn : a_chk a = false) by (destruct (a_chk a); [destruct (Hk eq_refl); congruence|reflexivity]).
    rewrite Hn. split; [split; [exact Hs|discriminate]|]. split; [|exact Hw]. split; [|left; reflexivity].
    intros j Hj. rewrite holds_setlock. unfold holds. rewrite Heqo. apply Nat.eqb_neq. congruence.
  - (* OUnlock: nobody else held it *)
    destruct Hs as [Hh Hs]. unfold disc, guar. rewrite holds_setlock. cbn [a_chk a_code set_code set_chk].
    split; [split; [exact Hs|discriminate]|]. split; [|exact Hw]. split; [|right; exact Hh].
    intros j Hj. rewrite holds_setlock. symmetry. exact (holds_other og me j Hh Hj).
  - (* OChk, closed: on to the unlock *)
    destruct Hs as [[Hh Hu] Hs]. apply disc_intro; cbn [a_chk a_code set_code set_e];
      [reflexivity|left; reflexivity|exact Hw|rewrite Hh; exact (safe_skip k _ _ Hs Hu)|intro C; destruct (Hk C); discriminate].
  - (* open: me has found it so *)
    destruct Hs as [[Hh Hu] Hs]. apply disc_intro; cbn [a_chk a_code set_code set_chk];
      [reflexivity|left; reflexivity|exact Hw|rewrite Hh; exact Hs|intros _; split; assumption].
  - (* OEmit *)
    destruct Hs as [[[Hh Hch] Hi] Hs].
    apply disc_intro; [reflexivity|left; reflexivity|exact (wire_ok_emit _ _ Hw Hi)|exact Hs|exact Hk].
  - (* OFlush *)
    destruct Hs as [[Hh Hch] Hs].
    apply disc_intro; [reflexivity|left; reflexivity|exact (wire_ok_flush _ Hw (proj2 (Hk Hch)))|exact Hs|exact Hk].
  - (* OGEmit, open *)
    destruct Hs as [[Hh Hi] Hs].
    apply disc_intro; [reflexivity|left; reflexivity|exact (wire_ok_emit _ _ Hw Hi)|exact Hs|intros _; split; assumption].
  - (* OGFlush, open *)
    destruct Hs as [Hh Hs].
    apply disc_intro; [reflexivity|left; reflexivity|apply wire_ok_flush; assumption|exact Hs|intros _; split; assumption].
  - (* OTest *)
    destruct Hs as [[Hh Hu] Hs]. apply disc_intro; cbn [a_chk a_code set_code set_e];
      [reflexivity|left; reflexivity|exact Hw|rewrite Hh; exact (safe_skip k _ _ Hs Hu)|intro C; destruct (Hk C); discriminate].
  - destruct Hs as [[Hh Hu] Hs]. apply disc_intro; cbn [a_chk a_code set_code set_chk];
      [reflexivity|left; reflexivity|exact Hw|rewrite Hh; exact Hs|intros _; split; assumption].
  - (* OMark *)
    destruct Hs as [Hh Hs].
    apply disc_intro; [exact Ml|right; exact Hh|exact (wire_ok_mark _ Hw)|exact Hs|discriminate].
  - (* OHEmit, closed *)
    apply disc_intro; cbn [a_chk a_code set_code];
      [reflexivity|left; reflexivity|exact Hw|rewrite Hs; reflexivity|intro C; destruct (Hk C); discriminate].
Qed.

Theorem INV_step : forall s i s', INV s -> step s i = Some s' -> INV s'.
Proof.
  intros s i s' [Hw Ha] Hstep.
  apply step_inv in Hstep. destruct Hstep as (o & k & og & ig & a' & Hcode & _ & Hex & ->).
  destruct (disc_exec i o k _ _ _ _ _ _ Hcode (Ha i) Hw Hex) as (Hd & Hg & Hw').
  split; [exact Hw'|]. intro j. cbn [s_a s_o].
  destruct (Nat.eq_dec j i) as [->|Hn]; [rewrite upd_same; exact Hd|].
  rewrite upd_other by exact Hn. exact (disc_stable i j _ _ _ Hn Hg (Ha j)).
Qed.

Theorem INV_run : forall ds ks tr s, run step (init ds ks) tr = Some s -> INV s.
Proof.
  intros ds ks. exact (invariant_run state nat step INV _ (INV_init ds ks) INV_step).
Qed.
