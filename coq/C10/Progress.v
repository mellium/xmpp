(* C10/Progress.v — liveness of the closing protocol in the model:
   whoever holds the output lock can always run on to its release, and a Serve
   that has left its loop can always run on to its return (nothing it waits
   for is held forever). *)
From XV Require Import lib.Bytes lib.ListAux lib.Lts C10.Model C10.Step C10.Inv C10.Closers C10.StateLock.

Definition is_hemit (o : op) : bool := match o with OHEmit _ _ => true | _ => false end.

(* the length, plus 5 while the handler's reply is still to come: the fragments
   OHEmit installs are shorter than that *)
Definition mu (code : list op) : nat := length code + (if existsb is_hemit code then 5 else 0).

Lemma mu_tail o k : mu k < mu (o :: k).
Proof.
  unfold mu. cbn [length existsb]. destruct (existsb is_hemit k); [rewrite orb_true_r; lia|].
  destruct (is_hemit o); cbn; lia.
Qed.

Lemma mu_skipn : forall n k, mu (skipn n k) <= mu k.
Proof.
  induction n as [|n IH]; intros [|o k]; cbn [skipn]; try lia.
  pose proof (mu_tail o k). specialize (IH k). lia.
Qed.

Definition others_same (s s' : state) (j : nat) : Prop := forall i, i <> j -> s_a s' i = s_a s i.

Definition flowing (s : state) : Prop := o_sl (s_o s) = None /\ o_rdy (s_o s) = true.

Lemma gate_open : forall i o s, flowing s -> gate i o (s_o s) = true.
Proof. intros i o s [H1 H2]. unfold gate, sl_ok. rewrite H1, H2, !orb_true_r. reflexivity. Qed.

Definition calm (o : op) : bool :=
  match o with OSLock | OStall _ | OAcqIn => false | _ => true end.

Lemma calm_step : forall s i s' o k, a_code (s_a s i) = o :: k -> step s i = Some s' -> calm o = true ->
  others_same s s' i /\ (flowing s -> flowing s') /\
  (i_lk (s_i s') = true -> i_lk (s_i s) = true) /\
  (o_lock (s_o s') = o_lock (s_o s) \/ o_lock (s_o s') = None \/ o = OLock /\ o_lock (s_o s') = Some i).
Proof.
  intros s i s' o k Hc Hs Hcalm. destruct (step_shape s i s' Hs) as (o' & k' & Hc' & Ho & Hi & Hoth).
  rewrite Hc in Hc'. injection Hc' as <- <-.
  destruct (o_mark_frame (s_o s)) as (Ml & Ms & Mr & _). destruct (o_writetag_frame (s_o s)) as (Wl & Ws & Wr & _).
  split; [exact Hoth|]. split; [|split].
  - unfold flowing. destruct Ho; subst; try discriminate Hcalm; cbn; rewrite ?Ms, ?Mr, ?Ws, ?Wr; tauto.
  - destruct Hi as [ |m|j|q|[] Hb| ]; subst; try discriminate Hcalm; cbn;
      rewrite ?(proj1 (proj2 (i_setdeadline_keeps _ _ _))), ?(proj1 (proj2 (i_fire_keeps _ _))); auto; discriminate.
  - destruct Ho; cbn; rewrite ?Ml, ?Wl; auto.
Qed.

(* under the lock the code left is a suffix, or what the handler's reply installs *)
Lemma step_mu : forall s i s' o k, a_code (s_a s i) = o :: k -> step s i = Some s' ->
  safe true (a_chk (s_a s i)) (o :: k) = true -> mu (a_code (s_a s' i)) < mu (o :: k).
Proof.
  intros s i s' o k Hc Hs Hsafe. pose proof (mu_tail o k) as Htl.
  destruct (step_code s i s' o k Hc Hs) as [[n ->]|Hd]; [pose proof (mu_skipn n k); lia|].
  destruct o; try discriminate Hd; try discriminate Hsafe.
  unfold step in Hs. rewrite Hc in Hs. destruct (gate i (OHEmit n fail) (s_o s)); [|discriminate].
  cbn [exec] in Hs. destruct (o_cl (s_o s)); injection Hs as <-; cbn [s_a]; rewrite upd_same;
    unfold mu; try destruct fail; cbn; lia.
Qed.

Lemma holder_step : forall s j, INV s -> holds (s_o s) j = true -> flowing s ->
  exists s', step s j = Some s' /\ others_same s s' j /\
    (i_lk (s_i s') = true -> i_lk (s_i s) = true) /\ flowing s' /\
    (o_lock (s_o s') = None \/
     (holds (s_o s') j = true /\ mu (a_code (s_a s' j)) < mu (a_code (s_a s j)))).
Proof.
  intros s j [_ Ha] Hh Hf. destruct (Ha j) as [Hsafe _]. rewrite Hh in Hsafe.
  destruct (a_code (s_a s j)) as [|o k] eqn:Hcode; [discriminate Hsafe|].
  (* what the discipline allows under the output lock neither waits nor is OLock *)
  assert (Hop : blocked o (s_o s) (s_i s) = false /\ calm o = true /\ o <> OLock).
  { destruct o; try discriminate Hsafe; repeat split; discriminate. }
  destruct Hop as (Hb & Hcalm & Hnl).
  destruct (step_defined s j o k Hcode (gate_open j o s Hf) Hb) as [s' Hs].
  destruct (calm_step s j s' o k Hcode Hs Hcalm) as (Hoth & Hfl & Hlk & Hl).
  exists s'. split; [exact Hs|]. split; [exact Hoth|]. split; [exact Hlk|]. split; [exact (Hfl Hf)|].
  destruct Hl as [Hl|[Hl|[Hl _]]]; [right|left; exact Hl|contradiction].
  split; [unfold holds in *; rewrite Hl; exact Hh|exact (step_mu s j s' o k Hcode Hs Hsafe)].
Qed.

Lemma holder_releases : forall m s j, mu (a_code (s_a s j)) < m -> INV s -> holds (s_o s) j = true -> flowing s ->
  exists tr s', run step s tr = Some s' /\ o_lock (s_o s') = None /\ others_same s s' j /\
    (i_lk (s_i s') = true -> i_lk (s_i s) = true) /\ flowing s'.
Proof.
  induction m as [|m IH]; intros s j Hm HI Hh Hf; [lia|].
  destruct (holder_step s j HI Hh Hf) as (s' & Hs & Ho & Hlk & Hf' & [Hn|[Hh' Hlt]]).
  - exists [j], s'. cbn [run]. rewrite Hs. auto.
  - destruct (IH s' j ltac:(lia) (INV_step s j s' HI Hs) Hh' Hf') as (tr & s2 & Hr & Hn & Ho2 & Hlk2 & Hf2).
    exists (j :: tr), s2. cbn [run]. rewrite Hs. split; [exact Hr|]. split; [exact Hn|].
    split; [intros i Hi; rewrite (Ho2 i Hi); exact (Ho i Hi)|]. split; [auto|exact Hf2].
Qed.

Lemma exit_enabled : forall s i o k,
  INV s -> a_code (s_a s i) = o :: k -> exit_op o = true ->
  (o_lock (s_o s) = None \/ o_lock (s_o s) = Some i) -> i_lk (s_i s) = false -> flowing s ->
  exists s', step s i = Some s' /\
    (o_lock (s_o s') = None \/ o_lock (s_o s') = Some i) /\ i_lk (s_i s') = false /\ flowing s'.
Proof.
  intros s i o k [_ Ha] Hc Hop Hl Hlk Hf. destruct (Ha i) as [Hsafe _]. rewrite Hc in Hsafe.
  assert (Hb : blocked o (s_o s) (s_i s) = false).
  { destruct o; try discriminate Hop; try reflexivity; try exact Hlk.
    (* OLock: by the discipline i does not hold the lock, so the lock is free *)
    cbn [safe] in Hsafe. apply andb_prop in Hsafe. destruct Hsafe as [Hh _]. apply negb_true_iff in Hh.
    cbn [blocked]. destruct Hl as [->|Hl]; [reflexivity|].
    unfold holds in Hh. rewrite Hl, Nat.eqb_refl in Hh. discriminate. }
  destruct (step_defined s i o k Hc (gate_open i o s Hf) Hb) as [s' Hs].
  destruct (calm_step s i s' o k Hc Hs) as (_ & Hfl & Hlk' & Hl'); [destruct o; try discriminate Hop; reflexivity|].
  exists s'. split; [exact Hs|]. split; [|split; [|exact (Hfl Hf)]].
  - destruct Hl' as [E|[E|[_ E]]]; rewrite E; auto.
  - destruct (i_lk (s_i s')); [rewrite Hlk' in Hlk by reflexivity; discriminate|reflexivity].
Qed.

(* a Close caller or Serve with only operations of the exit sequence left runs
   alone through them; that it has returned when none is left is what the
   closers' invariant says of a reachable state *)
Lemma exit_runs : forall m ds ks tr0 s i,
  run step (init ds ks) tr0 = Some s -> length (a_code (s_a s i)) < m ->
  a_role (s_a s i) <> RPlain -> forallb exit_op (a_code (s_a s i)) = true ->
  (o_lock (s_o s) = None \/ o_lock (s_o s) = Some i) -> i_lk (s_i s) = false -> flowing s ->
  exists tr s' e, run step s tr = Some s' /\ a_res (s_a s' i) = Some e.
Proof.
  induction m as [|m IH]; intros ds ks tr0 s i Hr Hm Hrole Hx Hl Hlk Hf; [lia|].
  destruct (a_code (s_a s i)) as [|o k] eqn:Hc.
  - exists [], s, (a_e (s_a s i)). split; [reflexivity|].
    exact (returned_at_end _ _ _ (CINV_run ds ks tr0 s Hr i Hrole) Hc).
  - cbn [forallb] in Hx. apply andb_prop in Hx. destruct Hx as [Hop Hk].
    destruct (exit_enabled s i o k (INV_run ds ks tr0 s Hr) Hc Hop Hl Hlk Hf) as (s' & Hs & Hl' & Hlk' & Hf').
    destruct (step_code s i s' o k Hc Hs) as [[n E]|Hd]; [|destruct o; discriminate].
    destruct (IH ds ks (tr0 ++ [i]) s' i) as (tr & s2 & e & Hr2 & Hres); try assumption.
    + rewrite run_snoc, Hr. exact Hs.
    + rewrite E, skipn_length. cbn [length] in Hm. lia.
    + rewrite (step_role s i s' i Hs). exact Hrole.
    + rewrite E. apply forallb_skipn. exact Hk.
    + exists (i :: tr), s2, e. cbn [run]. rewrite Hs. split; assumption.
Qed.

Lemma exit_plain : forall code, forallb exit_op code = true -> forallb plain_op code = true.
Proof.
  intro code. rewrite !forallb_forall. intros H o Hin. specialize (H o Hin).
  destruct o; try discriminate H; reflexivity.
Qed.

(* Serve is the only actor that takes the input lock across steps: when it is
   out of its loop the lock is free *)
Lemma in_lock_free : forall s i, LK s -> (forall j, code_ok (a_role (s_a s j)) (a_code (s_a s j))) ->
  (forall j, j <> i -> a_role (s_a s j) <> RServe) ->
  forallb exit_op (a_code (s_a s i)) = true -> i_lk (s_i s) = false.
Proof.
  intros s i [_ Hown] Hcode Honly Hx.
  destruct (i_lk (s_i s)); [|reflexivity]. destruct (Hown eq_refl) as [j Hj]. exfalso.
  rewrite plain_free in Hj; [discriminate|].
  destruct (Nat.eq_dec j i) as [->|Hn]; [exact (exit_plain _ Hx)|].
  pose proof (Hcode j) as Hc. pose proof (Honly j Hn). destruct (a_role (s_a s j)); [exact Hc|exact Hc|congruence].
Qed.

(* From every reachable state in which the (only) Serve has left its loop, and
   the peer is reading, there is a continuation in which it returns: first
   whoever holds the output lock runs to its release, then Serve runs alone. *)
Theorem serve_can_return : forall ds ks tr s i,
  run step (init ds ks) tr = Some s ->
  a_role (s_a s i) = RServe -> (forall j, j <> i -> a_role (s_a s j) <> RServe) ->
  loopish (a_code (s_a s i)) = false -> o_rdy (s_o s) = true ->
  exists tr' s' e, run step s tr' = Some s' /\ a_res (s_a s' i) = Some e.
Proof.
  intros ds ks tr s i Hr Hrole Honly Hloop Hrdy.
  pose proof (INV_run ds ks tr s Hr) as HI.
  pose proof (LK_run ds ks tr s Hr) as HLK.
  pose proof (code_ok_run ds ks tr s Hr) as Hcode.
  assert (Hf : flowing s) by (split; [exact (state_lock_free ds ks tr s Hr)|exact Hrdy]).
  assert (Hnp : a_role (s_a s i) <> RPlain) by (rewrite Hrole; discriminate).
  pose proof (Hcode i) as Hph. rewrite Hrole in Hph. destruct Hph as [Hl|Hx]; [congruence|].
  pose proof (in_lock_free s i HLK Hcode Honly Hx) as Hlk.
  destruct (o_lock (s_o s)) as [j|] eqn:Hlock; [destruct (Nat.eq_dec j i) as [->|Hne]|].
  - exact (exit_runs _ ds ks tr s i Hr (le_n _) Hnp Hx (or_intror Hlock) Hlk Hf).
  - (* somebody else holds the output lock: let it finish its region *)
    assert (Hh : holds (s_o s) j = true) by (unfold holds; rewrite Hlock; apply Nat.eqb_refl).
    destruct (holder_releases _ s j (le_n _) HI Hh Hf) as (tr1 & s1 & Hr1 & Hn1 & Ho1 & Hlk1 & Hf1).
    rewrite <- (Ho1 i) in Hnp, Hx by congruence.
    assert (Hlk1' : i_lk (s_i s1) = false).
    { destruct (i_lk (s_i s1)) eqn:E; [|reflexivity]. rewrite (Hlk1 eq_refl) in Hlk. discriminate. }
    assert (Hr' : run step (init ds ks) (tr ++ tr1) = Some s1) by (rewrite run_app, Hr; exact Hr1).
    destruct (exit_runs _ ds ks _ s1 i Hr' (le_n _) Hnp Hx (or_introl Hn1) Hlk1' Hf1) as (tr2 & s2 & e & Hr2 & Hres).
    exists (tr1 ++ tr2), s2, e. split; [|exact Hres].
    rewrite run_app, Hr1. exact Hr2.
  - exact (exit_runs _ ds ks tr s i Hr (le_n _) Hnp Hx (or_introl Hlock) Hlk Hf).
Qed.

(* what a peer event that ends Serve's loop makes of the OExit that follows the
   read (error, reason, through sendError or not): the match of Model.exec at
   OServeRead, for the statement of C10_serve_leaves_loop *)
Definition terminal (ev : pev) : option (err * cause * bool) :=
  match ev with
  | PClose => Some (ENil, CPeerClose, false)
  | PErr => Some (EStream, CPeerErr, true)
  | PBad => Some (EBad, CBad, true)
  | PElem _ _ _ => None
  end.

Lemma serve_exit_steps : forall s i e c via,
  a_code (s_a s i) = [ORelIn; OExit e c via] ->
  exists s', run step s [i; i] = Some s' /\
    a_code (s_a s' i) = (if via then senderr_code else shutdown_code) /\
    a_e (s_a s' i) = e /\ a_cause (s_a s' i) = c /\ i_lk (s_i s') = false.
Proof.
  intros s i e c via Ha. cbn [run]. unfold step at 1. rewrite Ha.
  cbn [gate reads_state writes_conn negb orb andb exec].
  unfold step. cbn [s_a s_o s_i]. rewrite upd_same.
  cbn [a_code set_code gate reads_state writes_conn negb orb andb exec].
  eexists. split; [reflexivity|]. cbn [s_a s_i]. rewrite upd_same. cbn. auto.
Qed.
