(* C10/Transmit.v — a transmit call that starts after the stream was closed
   fails with the output-closed error, in every interleaving. *)
From XV Require Import lib.Bytes lib.Lts C10.Model C10.Step C10.Inv C10.Proofs.

Definition is_transmit (k : kind) : bool :=
  match k with
  | KSend _ | KEncode _ | KEncodeNF _ | KEncodeElement _ | KTokenWriter _ => true
  | _ => false
  end.

(* the return value of straight-line code run while the stream is closed
   (None: not a transmit program, or it would write) *)
Fixpoint solo (skip : bool) (code : list op) (e : err) : option err :=
  match code with
  | [] => None
  | o :: k =>
      if skip then match o with OUnlock => solo false k e | _ => solo true k e end
      else match o with
           | ORet => match k with [] => Some e | _ => None end
           | OChk => solo true k EOutClosed
           | OGEmit _ | OGFlush => solo false k (match e with ENil => EOutClosed | _ => e end)
           | OYield _ | OLock | OUnlock => solo false k e
           | _ => None
           end
  end.

Lemma solo_programs : forall k, is_transmit k = true -> solo false (prog_of k) ENil = Some EOutClosed.
Proof. destruct k; intro H; try discriminate H; reflexivity. Qed.

Lemma solo_skip : forall k e, solo true k e = solo false (skip_to_unlock k) e.
Proof.
  induction k as [|o k IH]; intro e; [reflexivity|].
  destruct o; cbn [solo skip_to_unlock]; try apply IH. reflexivity.
Qed.

(* the fate of an actor: it will return the output-closed error, or has *)
Definition doomed (a : actor) : Prop :=
  (solo false (a_code a) (a_e a) = Some EOutClosed /\ a_res a = None) \/
  (a_code a = [] /\ a_res a = Some EOutClosed).

Lemma doomed_step : forall s i s', o_cl (s_o s) = true -> doomed (s_a s i) ->
  forall j, step s j = Some s' -> doomed (s_a s' i).
Proof.
  intros s i s' Hcl Hd j Hstep.
  apply step_inv in Hstep. destruct Hstep as (o & k & og & ig & a' & Hcode & _ & Hex & ->).
  cbn [s_a]. destruct (Nat.eq_dec i j) as [->|Hn]; [|rewrite upd_other by exact Hn; exact Hd].
  rewrite upd_same. destruct Hd as [[Hs Hr]|[Hc _]]; [|congruence].
  rewrite Hcode in Hs.
  (* only what [solo] admits, on the branch of a closed stream *)
  destr_exec o Hex; cbn [solo] in Hs; try discriminate Hs; try congruence; rewrite ?first_err_set;
    try (left; split; [exact Hs|exact Hr]).
  - (* OChk *) left. cbn. rewrite <- solo_skip. split; assumption.
  - (* ORet *) destruct k; [|discriminate Hs]. injection Hs as Hs.
    right. cbn. rewrite Hs. split; reflexivity.
Qed.

Lemma doomed_run : forall tr s s' i, o_cl (s_o s) = true -> doomed (s_a s i) ->
  run step s tr = Some s' -> doomed (s_a s' i).
Proof.
  intros tr s s' i Hcl Hd Hr.
  refine (proj2 (invariant_run state nat step
    (fun s' => o_cl (s_o s') = true /\ doomed (s_a s' i)) s _ _ tr s' Hr)); [auto|].
  intros s1 l s2 (C1 & D1) H.
  split; [exact (proj1 (step_mono s1 l s2 H) C1)|exact (doomed_step s1 i s2 C1 D1 l H)].
Qed.

(* A transmit call of any family that has not started when the stream is
   closed: whatever happens afterwards, if it returns it returns the
   output-closed error, the encoder buffer has not changed and the connection
   has received at most the closing tag that was still owed. *)
Theorem transmit_after_close : forall ds ks tr1 s1 i k tr2 s2 e,
  run step (init ds ks) tr1 = Some s1 ->
  o_cl (s_o s1) = true ->
  is_transmit k = true -> a_code (s_a s1 i) = prog_of k -> a_e (s_a s1 i) = ENil -> a_res (s_a s1 i) = None ->
  run step s1 tr2 = Some s2 ->
  a_res (s_a s2 i) = Some e ->
  e = EOutClosed /\ o_buf (s_o s2) = o_buf (s_o s1) /\ tag_only (s_o s1) (s_o s2).
Proof.
  intros ds ks tr1 s1 i k tr2 s2 e H1 Hcl Ht Hc He Hr H2 Hres.
  pose proof (INV_run ds ks tr1 s1 H1) as HI.
  assert (Hd : doomed (s_a s1 i)).
  { left. rewrite Hc, He. split; [exact (solo_programs k Ht)|exact Hr]. }
  pose proof (doomed_run tr2 s1 s2 i Hcl Hd H2) as Hd2.
  split; [|exact (run_frozen tr2 s1 s2 HI Hcl H2)].
  destruct Hd2 as [[_ Hn]|[_ Hs]]; congruence.
Qed.
