(* C10/Closers.v — what the actors that close the session (Close callers and
   Serve) have done when they return: invariant over all interleavings. *)
From XV Require Import lib.Bytes lib.Lts C10.Model C10.Step C10.Inv C10.Proofs.

(* how Serve's return value relates to the reason it left its loop *)
Definition outcome_rel (c : cause) (e : err) : Prop :=
  match c with
  | CNone => False
  | CPeerClose => e = ENil
  | CPeerErr => e = EStream
  | CBad => e = EBad
  | CHandler => e = EHandler
  | CReplyClosed => e = EOutClosed
  | CTimeout => e = ETimeout
  | CCtx => e = ECtxDeadline \/ e = ECtxCanceled
  end.

(* ... unless the connection refused the closing tag that this very Serve had to
   write: then the connection's error is what it returns *)
Definition outcome_rel' (wf : bool) (c : cause) (e : err) : Prop :=
  outcome_rel c e \/ (wf = true /\ c <> CNone /\ e = EWrite).

(* outcome_rel as a test, for loop_op: the pairs an OExit of the model carries *)
Definition outcome_okb (c : cause) (e : err) : bool :=
  match c, e with
  | CPeerClose, ENil | CPeerErr, EStream | CBad, EBad | CHandler, EHandler
  | CReplyClosed, EOutClosed | CTimeout, ETimeout | CCtx, ECtxDeadline | CCtx, ECtxCanceled => true
  | _, _ => false
  end.

Lemma outcome_okb_rel c e : outcome_okb c e = true -> outcome_rel c e.
Proof. destruct c, e; cbn; intro H; try discriminate; auto. Qed.

(* the operations that replace the whole remaining code by a fragment they
   choose themselves (Model.exec); only Serve's code has them *)
Definition is_dyn (o : op) : bool :=
  match o with OServeTop | OServeRead | OHEmit _ _ | OExit _ _ _ => true | _ => false end.

Definition loop_op (o : op) : bool :=
  match o with
  | OYield _ | OLock | OUnlock | OGFlush | OAcqIn | ORelIn | OServeTop | OServeRead | OHEmit _ _ => true
  | OExit e c _ => outcome_okb c e
  | _ => false
  end.

Fixpoint ends_dyn (code : list op) : bool :=
  match code with
  | [] => false
  | o :: r => match r with [] => is_dyn o | _ => ends_dyn r end
  end.

(* Serve is in its loop: loop operations only, the last of them one that
   installs the next fragment.  [loopish _ = false] is how the property
   theorems say that Serve has left its loop *)
Definition loopish (code : list op) : bool := forallb loop_op code && ends_dyn code.

(* sendError followed by the shutdown is one sequence, of exit_len operations,
   of which the shutdown and the plain Close are tails *)
Definition exit_len : nat := 17.

Lemma close_code_tail : close_code = skipn 10 senderr_code.
Proof. reflexivity. Qed.

Lemma shutdown_code_tail : shutdown_code = skipn 8 senderr_code.
Proof. reflexivity. Qed.

(* What a Close caller or Serve has brought about so far: the input stream
   marked closed (asked of Serve only), the output stream marked closed, the
   closing tag attempted, and (Serve) a reason for leaving the loop with the
   error register related to it. *)
Record facts := mkF { f_in : bool; f_out : bool; f_tag : bool; f_why : bool }.

Definition known (f : facts) (a : actor) (og : outg) (ig : ing) : Prop :=
  (f_in f = true -> a_role a = RServe -> i_cl ig = true) /\
  (f_out f = true -> o_cl og = true) /\
  (f_tag f = true -> o_cl og = true /\ o_pend og = false) /\
  (f_why f = true -> a_role a = RServe -> outcome_rel' (o_wfail og) (a_cause a) (a_e a)).

Definition forget (f : facts) : facts := mkF (f_in f) (f_out f) (f_tag f) false.

(* The remaining code is the position: on every path through it the next
   return comes last and with all four brought about.  A test of the closed
   bit has two ways on (skip: on the way to the OUnlock after it found the
   stream closed, which is then known); what overwrites the error register
   forgets the fourth, the tag write does not (the refused tag is the second
   case of outcome_rel'); Serve's loop operations install code of their own,
   looked at when it is installed. *)
Fixpoint rets (skip : bool) (f : facts) (code : list op) : bool :=
  match code with
  | [] => false
  | o :: k =>
      if skip then match o with OUnlock => rets false f k | _ => rets true f k end
      else match o with
           | ORet => match k with [] => f_in f && f_tag f && f_why f | _ => false end
           | OCloseInput => rets false (mkF true (f_out f) (f_tag f) (f_why f)) k
           | OMark => rets false (mkF (f_in f) true (f_tag f) (f_why f)) k
           | OWriteTag _ => rets false (mkF (f_in f) (f_out f) (f_out f) (f_why f)) k
           | OTest => rets false f k && rets true (mkF (f_in f) true (f_tag f) (f_why f)) k
           | OChk => rets false f k && rets true (mkF (f_in f) true (f_tag f) false) k
           | OGEmit _ | OGFlush | OProbe => rets false (forget f) k
           | OExit e c _ => outcome_okb c e
           | OServeTop | OServeRead | OHEmit _ _ => true
           | _ => rets false f k
           end
  end.

Lemma rets_skip : forall k f, rets true f k = rets false f (skip_to_unlock k).
Proof.
  induction k as [|o k IH]; intro f; [reflexivity|].
  destruct o; cbn [rets skip_to_unlock]; try apply IH. reflexivity.
Qed.

Lemma outcome_rel'_mono wf wf' c e : (wf = true -> wf' = true) -> outcome_rel' wf c e -> outcome_rel' wf' c e.
Proof. intros H [A|(A & B & C)]; [left; exact A|right; auto]. Qed.

Lemma outcome_rel'_cause wf c e : outcome_rel' wf c e -> c <> CNone.
Proof. intros [H|(_ & H & _)]; [intros ->; exact H|exact H]. Qed.

Lemma known_mono f a og ig og' ig' : known f a og ig -> mono_oi og ig og' ig' -> known f a og' ig'.
Proof.
  intros (A & B & C & D) (Mo & Mi & Mp & Mw). unfold known. split; [auto|]. split; [auto|]. split; [auto|].
  intros F R. exact (outcome_rel'_mono _ _ _ _ Mw (D F R)).
Qed.

(* an actor that has not returned will return only with everything brought
   about; one that has returned has brought it about, and has nothing left to do *)
Definition returns_ok (a : actor) (og : outg) (ig : ing) : Prop :=
  match a_res a with
  | None => exists f, known f a og ig /\ rets false f (a_code a) = true
  | Some e => e = a_e a /\ a_code a = [] /\ known (mkF true true true true) a og ig
  end.

Lemma returns_ok_mono a og ig og' ig' : returns_ok a og ig -> mono_oi og ig og' ig' -> returns_ok a og' ig'.
Proof.
  unfold returns_ok. intros H M. destruct (a_res a).
  - destruct H as (A & B & C). eauto using known_mono.
  - destruct H as (f & A & B). eauto using known_mono.
Qed.

Lemma returned_at_end a og ig : returns_ok a og ig -> a_code a = [] -> a_res a = Some (a_e a).
Proof.
  unfold returns_ok. intros H E. destruct (a_res a) as [e|].
  - destruct H as [-> _]. reflexivity.
  - destruct H as (f & _ & H). rewrite E in H. discriminate H.
Qed.

Lemma exec_role : forall me o k og ig a og' ig' a',
  exec me o k og ig a = Some (og', ig', a') -> a_role a' = a_role a.
Proof. intros me o k og ig a og' ig' a' H. destr_exec o H; rewrite ?first_err_set; reflexivity. Qed.

Lemma step_role : forall s i s' j, step s i = Some s' -> a_role (s_a s' j) = a_role (s_a s j).
Proof.
  intros s i s' j H. apply step_inv in H. destruct H as (o & k & og & ig & a' & _ & _ & Hex & ->).
  cbn [s_a]. destruct (Nat.eq_dec j i) as [->|Hn]; [|rewrite upd_other by exact Hn; reflexivity].
  rewrite upd_same. exact (exec_role _ _ _ _ _ _ _ _ _ Hex).
Qed.

(* the analysis is sound: M is what any step does to the two sides (Proofs.step_mono) *)
Lemma rets_exec : forall me o k og ig a og' ig' a',
  ctx_ok ig -> returns_ok a og ig -> a_code a = o :: k ->
  exec me o k og ig a = Some (og', ig', a') -> mono_oi og ig og' ig' ->
  returns_ok a' og' ig'.
Proof.
  intros me o k og ig a og' ig' a' Hctx H Hc Hex M. unfold returns_ok in *.
  destruct (a_res a) eqn:Hres; [destruct H as (_ & E & _); congruence|].
  destruct H as (f & K & Hr). rewrite Hc in Hr. apply (known_mono _ _ _ _ _ _ K) in M. clear K.
  destruct M as (Ki & Ko & Kt & Kw).
  destr_exec o Hex; cbn [rets] in Hr; rewrite ?first_err_set;
    cbn [a_res a_code set_code set_e set_chk set_res set_exit]; rewrite ?Hres;
    (* the code goes on, or Serve stays in its loop, with what is known *)
    try (exists f; split; [split; [exact Ki|split; [exact Ko|split; [exact Kt|exact Kw]]]|first [exact Hr|reflexivity]]; fail).
  (* left, in the order of [op]: OChk, OGEmit, OGFlush, OTest (each closed, then
     open), OMark, OWriteTag (three times: which error is kept), ORet,
     OCloseInput, OProbe (twice), OServeTop with the context done, OExit (twice) *)
  all: try (apply andb_prop in Hr; destruct Hr as [Hr Hs]; rewrite rets_skip in Hs).
  13: { destruct k; [|discriminate Hr]. apply andb_prop in Hr. destruct Hr as [Hr Hw]. apply andb_prop in Hr.
        split; [reflexivity|]. split; [reflexivity|]. unfold known. cbn. tauto. }
  (* leaving the loop: reason and error are set together; the fragment is sendError or the shutdown *)
  16-18: exists (mkF (f_in f) (f_out f) (f_tag f) true); (split; [|reflexivity]).
  1-15: eexists; (split; [|first [exact Hs|exact Hr]]).
  all: unfold known; cbn [f_in f_out f_tag f_why forget a_role a_cause a_e set_code set_e set_chk set_res set_exit];
    refine (conj _ (conj _ (conj _ _))); auto; try (intros ? ?; discriminate).
  (* what OMark, OWriteTag and the leaving of the loop bring about *)
  - intros _. apply o_mark_cl.
  - intro F. split; [exact (Ko F)|apply o_writetag_pend].
  - (* the connection refused the tag: its error is what is returned *)
    intros F R. pose proof (outcome_rel'_cause _ _ _ (Kw F R)) as Hn. right.
    apply andb_prop in Heqb. rewrite (proj1 (proj2 (proj2 (proj2 (o_writetag_frame og))))). tauto.
  - intro F. split; [exact (Ko F)|apply o_writetag_pend].
  - intros F R. pose proof (Kw F R) as Hrel. pose proof (outcome_rel'_cause _ _ _ Hrel) as Hn.
    destruct (a_e a); try exact Hrel. right.
    apply andb_prop in Heqb. rewrite (proj1 (proj2 (proj2 (proj2 (o_writetag_frame og))))). tauto.
  - intro F. split; [exact (Ko F)|apply o_writetag_pend].
  - intros _ _. left. destruct (proj2 Hctx) as [[E _]|E]; [assumption|left; exact E|right; exact E].
  - intros _ _. left. exact (outcome_okb_rel _ _ Hr).
  - intros _ _. left. exact (outcome_okb_rel _ _ Hr).
Qed.

Definition CINV (s : state) : Prop :=
  forall i, a_role (s_a s i) <> RPlain -> returns_ok (s_a s i) (s_o s) (s_i s).

Lemma CINV_init : forall ds ks, CINV (init ds ks).
Proof.
  intros ds ks i. unfold returns_ok. cbn [init s_a s_o s_i].
  destruct (nth_error ks i) as [k|]; [|cbn; congruence].
  destruct k; cbn [actor_of a_role role_of]; try congruence; intros _; cbn.
  - exists (mkF true false false true). split; [|reflexivity].
    unfold known. cbn. repeat split; discriminate.
  - exists (mkF false false false false). split; [|reflexivity].
    unfold known. cbn. repeat split; discriminate.
Qed.

Theorem CINV_step : forall s i s', ctx_ok (s_i s) -> CINV s -> step s i = Some s' -> CINV s'.
Proof.
  intros s i s' Hctx Hall Hstep.
  pose proof (step_mono s i s' Hstep) as M.
  apply step_inv in Hstep. destruct Hstep as (o & k & og & ig & a' & Hcode & _ & Hex & ->).
  intro j. cbn [s_a s_o s_i] in *.
  destruct (Nat.eq_dec j i) as [->|Hn].
  - rewrite upd_same, (exec_role _ _ _ _ _ _ _ _ _ Hex). intro Hnp.
    exact (rets_exec i o k _ _ _ _ _ _ Hctx (Hall i Hnp) Hcode Hex M).
  - (* the others: what they have brought about stays *)
    rewrite upd_other by exact Hn. intro Hnp. exact (returns_ok_mono _ _ _ _ _ (Hall j Hnp) M).
Qed.

Theorem CINV_run : forall ds ks tr s, run step (init ds ks) tr = Some s -> CINV s.
Proof.
  intros ds ks. apply (invariant_hist state nat step (fun _ => CINV)); [exact (CINV_init ds ks)|].
  intros h s l s' Hr. exact (CINV_step s l s' (ctx_ok_run ds ks h s Hr)).
Qed.

Lemma closer_returned : forall s i e, CINV s -> a_role (s_a s i) <> RPlain -> a_res (s_a s i) = Some e ->
  (o_cl (s_o s) = true /\ o_pend (s_o s) = false) /\
  (a_role (s_a s i) = RServe -> i_cl (s_i s) = true /\ outcome_rel' (o_wfail (s_o s)) (a_cause (s_a s i)) e).
Proof.
  intros s i e Hall Hrole Hres. pose proof (Hall i Hrole) as Hret.
  unfold returns_ok in Hret. rewrite Hres in Hret. destruct Hret as (-> & _ & Ki & _ & Kt & Kw).
  split; [exact (Kt eq_refl)|]. intro R. split; [exact (Ki eq_refl R)|exact (Kw eq_refl R)].
Qed.
