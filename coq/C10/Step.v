(* C10/Step.v — one step of the model taken apart: the actor that acts and
   the others, what an operation can do to the output side and to the input
   side, when it is enabled; closeSession's two halves field by field.  At the
   end, tactics that replay a concrete schedule (for the witnesses). *)
From XV Require Import lib.Bytes lib.Lts C10.Model.

Lemma upd_same f i a : upd f i a i = a.
Proof. unfold upd. rewrite Nat.eqb_refl. reflexivity. Qed.

Lemma upd_other f i a j : j <> i -> upd f i a j = f j.
Proof. intro H. unfold upd. destruct (Nat.eqb j i) eqn:E; [apply Nat.eqb_eq in E; contradiction|reflexivity]. Qed.

Lemma first_err_set a e : first_err a e = set_e a (match a_e a with ENil => e | _ => a_e a end).
Proof. unfold first_err. destruct a as [? [] ? ? ? ?]; reflexivity. Qed.

Lemma o_mark_cl o : o_cl (o_mark o) = true.
Proof. unfold o_mark. destruct (o_cl o) eqn:E; [exact E|reflexivity]. Qed.

Lemma o_mark_closed o : o_cl o = true -> o_mark o = o.
Proof. intro H. unfold o_mark. rewrite H. reflexivity. Qed.

Lemma o_mark_frame o : o_lock (o_mark o) = o_lock o /\ o_sl (o_mark o) = o_sl o /\
  o_rdy (o_mark o) = o_rdy o /\ o_wfail (o_mark o) = o_wfail o.
Proof. unfold o_mark. destruct (o_cl o); auto. Qed.

Lemma o_writetag_pend o : o_pend (o_writetag o) = false.
Proof. unfold o_writetag. destruct (o_pend o) eqn:E; [reflexivity|exact E]. Qed.

Lemma o_writetag_frame o : o_lock (o_writetag o) = o_lock o /\ o_sl (o_writetag o) = o_sl o /\
  o_rdy (o_writetag o) = o_rdy o /\ o_wfail (o_writetag o) = o_wfail o /\ o_cl (o_writetag o) = o_cl o.
Proof. unfold o_writetag. destruct (o_pend o); cbn; auto 6. Qed.

Lemma step_inv : forall s i s', step s i = Some s' ->
  exists o k og ig a', a_code (s_a s i) = o :: k /\
    gate i o (s_o s) = true /\
    exec i o k (s_o s) (s_i s) (s_a s i) = Some (og, ig, a') /\
    s' = mkS og ig (upd (s_a s) i a').
Proof.
  intros s i s' H. unfold step in H.
  destruct (a_code (s_a s i)) as [|o k]; [discriminate|].
  destruct (gate i o (s_o s)) eqn:G; [|discriminate].
  destruct (exec i o k (s_o s) (s_i s) (s_a s i)) as [[[og ig] a']|] eqn:E; [|discriminate].
  injection H as <-. exists o, k, og, ig, a'. auto.
Qed.

(* in place of [injection] in destr_exec, which is dear to check on a triple of
   records and would run once per branch of exec *)
Lemma some3_inj {A B C} (x x' : A) (y y' : B) (z z' : C) :
  Some (x, y, z) = Some (x', y', z') -> x = x' /\ y = y' /\ z = z'.
Proof. intros [= -> -> ->]. auto. Qed.

(* Hex : exec me o k og ig a = Some (og', ig', a'): one goal per operation o and
   per branch of its definition, with og', ig', a' replaced by what they are *)
Ltac destr_exec o Hex :=
  destruct o; cbn [exec] in Hex;
  repeat match type of Hex with
         | context [match ?x with _ => _ end] => destruct x eqn:?; try discriminate
         end;
  apply some3_inj in Hex; destruct Hex as (<- & <- & <-).

(* The ways a step of actor me can change the input side; the operation o is
   named where a later proof asks which one it was ... *)
Inductive in_step (me : nat) (o : op) (g : ing) : ing -> Prop :=
| in_same : in_step me o g g
| in_deadline m : o = OSetDeadline m -> in_step me o g (i_setdeadline me m g)
| in_fire j : o = OFire j -> in_step me o g (i_fire j g)
| in_queue q : in_step me o g (i_setq g q)
| in_lock (b : bool) : o = (if b then OAcqIn else ORelIn) -> in_step me o g (i_setlk g b)
| in_close : in_step me o g (i_closeinput g).

(* ... and the output side; the encoder is written by the unguarded operations
   or while the stream is open *)
Inductive out_step (me : nat) (o : op) (g : outg) : outg -> Prop :=
| out_same : out_step me o g g
| out_lock : o = OLock -> out_step me o g (o_setlock g (Some me))
| out_unlock : out_step me o g (o_setlock g None)
| out_emit it : o_cl g = false \/ o = OEmit it -> out_step me o g (o_emit g it)
| out_flush : o_cl g = false \/ o = OFlush -> out_step me o g (o_flush g)
| out_mark : out_step me o g (o_mark g)
| out_tag : out_step me o g (o_writetag g)
| out_slock : o = OSLock -> out_step me o g (o_setsl g (Some me))
| out_sunlock : out_step me o g (o_setsl g None)
| out_rdy (b : bool) : o = OStall b -> out_step me o g (o_setrdy g (negb b))
| out_fault : out_step me o g (o_setfault g).

Lemma step_shape : forall s i s', step s i = Some s' ->
  exists o k, a_code (s_a s i) = o :: k /\
    out_step i o (s_o s) (s_o s') /\ in_step i o (s_i s) (s_i s') /\
    forall j, j <> i -> s_a s' j = s_a s j.
Proof.
  intros s i s' H. apply step_inv in H. destruct H as (o & k & og & ig & a' & Hcode & _ & Hex & ->).
  exists o, k. split; [exact Hcode|]. apply and_assoc. split; [|intros j Hn; apply upd_other; exact Hn].
  cbn [s_o s_i]. destr_exec o Hex; split; econstructor; auto.
Qed.

Definition blocked (o : op) (og : outg) (ig : ing) : bool :=
  match o with
  | OLock => match o_lock og with Some _ => true | None => false end
  | OSLock => match o_sl og with Some _ => true | None => false end
  | OAcqIn | OCloseInput | OProbe => i_lk ig
  | OServeRead => negb (i_rdexp ig) && negb (nonempty (i_q ig))
  | _ => false
  end.

Lemma exec_defined : forall me o k og ig a,
  blocked o og ig = false -> exists r, exec me o k og ig a = Some r.
Proof.
  intros me o k og ig a. destruct o; cbn [blocked exec];
    repeat match goal with |- context [match ?x with _ => _ end] => destruct x; try (cbn; discriminate) end;
    intros _; eexists; reflexivity.
Qed.

Lemma step_defined : forall s i o k, a_code (s_a s i) = o :: k ->
  gate i o (s_o s) = true -> blocked o (s_o s) (s_i s) = false -> exists s', step s i = Some s'.
Proof.
  intros s i o k Hc Hg Hb. unfold step. rewrite Hc, Hg.
  destruct (exec_defined i o k (s_o s) (s_i s) (s_a s i) Hb) as [[[og ig] a'] ->]. eexists. reflexivity.
Qed.

Lemma i_setdeadline_keeps me m g :
  i_cl (i_setdeadline me m g) = i_cl g /\ i_lk (i_setdeadline me m g) = i_lk g /\ i_q (i_setdeadline me m g) = i_q g.
Proof. destruct m; cbn; auto. Qed.

Lemma i_fire_cases j g : i_fire j g = g \/
  i_gen g = Some j /\ i_armed g = true /\
  i_fire j g = mkI (i_cl g) (i_lk g) (i_q g) false (i_dlsup g) true
                   (if i_done g then i_err g else ECtxDeadline) (i_dlsup g) (i_gen g) true.
Proof.
  unfold i_fire. destruct (i_gen g) as [k|]; [|left; reflexivity].
  destruct (Nat.eqb k j) eqn:E; [|left; reflexivity]. apply Nat.eqb_eq in E. subst k.
  destruct (i_armed g); [right|left]; auto.
Qed.

Lemma i_fire_keeps j g :
  i_cl (i_fire j g) = i_cl g /\ i_lk (i_fire j g) = i_lk g /\ i_q (i_fire j g) = i_q g.
Proof. destruct (i_fire_cases j g) as [->|(_ & _ & ->)]; auto. Qed.

Lemma skip_suffix : forall k, exists n, skip_to_unlock k = skipn n k.
Proof.
  induction k as [|o k [n IH]]; [exists 0; reflexivity|].
  destruct o; cbn [skip_to_unlock]; try (exists (S n); exact IH). exists 0. reflexivity.
Qed.

(* Replaying a concrete schedule without writing out the state it ends in:
   every fact about that state is evaluated through the projection the fact
   mentions (run_proj and run_witness of lib/Lts.v). *)

(* E : run step i tr = Some s.  Closes a goal [l = v] about s, for closed i, tr
   and v, by evaluating [option_map (fun s => l) (run step i tr)]: the state
   itself is never normalised. *)
Ltac replay E :=
  hnf;
  lazymatch type of E with run _ _ _ = Some ?s =>
    lazymatch goal with |- ?l = _ =>
      lazymatch (eval pattern s in l) with ?f _ => apply (run_proj f _ _ _ E) end
    end
  end;
  vm_compute; reflexivity.

(* A goal [exists s, run step i tr = Some s /\ C1 /\ ... /\ Cn]: the schedule is
   accepted, and every conjunct that is an equation about s is closed by
   [replay]; what is left (an [exists]) is handed back with s and E named. *)
Ltac replay_all s E :=
  apply run_witness; [vm_compute; reflexivity|]; intros s E; repeat split; try replay E.
