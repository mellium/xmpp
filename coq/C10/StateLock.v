(* C10/StateLock.v — the state mutex (s.stateMutex) and the input lock
   (s.in.Locker), after what a step leaves of an actor's code.

   The code: a step leaves a suffix of it, or one of the fragments that Serve's
   operations install.  Hence, in every reachable state, Serve is in its loop
   or in sendError / the shutdown, and everybody else has plain code: nothing
   that is Serve's own, nothing that takes the state mutex (code_ok_run).

   The state mutex: in the repaired code every critical section of the state
   mutex is a handful of assignments (closeSession's test-and-set,
   closeInputStream, SetCloseDeadline, the readers' tests): no write to the
   connection, no yield point, no other lock is taken inside (gen/SessClose.v:
   sc_statelock_blocking_calls = []).  The model therefore performs each of
   them as one operation, enabled when the mutex is free ([gate], reads_state),
   and no program of the model holds the mutex across steps.  Here: the mutex is
   free in every reachable state (what follows for the operations that need the
   session state is drawn in Properties.v).

   The input lock: whether an actor holds it can be read off its remaining code
   (inlk, the counterpart of Model.safe); while the lock is taken some actor's
   code says that it holds it, and only Serve's code ever does.  Used by
   Progress.v to show that Serve's shutdown (closeInputStream needs the input
   lock) is never blocked.

   At the end, the witness against the pinned design (session.go at the commit
   of mellium/xmpp this verification started from: Close and sendError kept
   the state mutex while writing the closing tag): a reachable state in which
   Close waits for the peer, holding the mutex, and Serve, with input pending,
   waits for the mutex. *)
From XV Require Import lib.Bytes lib.ListAux lib.Lts C10.Model C10.Step C10.Closers.

Lemma step_code : forall s i s' o k, a_code (s_a s i) = o :: k -> step s i = Some s' ->
  (exists n, a_code (s_a s' i) = skipn n k) \/ is_dyn o = true.
Proof.
  intros s i s' o k Hc H. apply step_inv in H. destruct H as (o' & k' & og & ig & a' & Hcode & _ & Hex & ->).
  rewrite Hc in Hcode. injection Hcode as <- <-. cbn [s_a]. rewrite upd_same.
  destr_exec o Hex; rewrite ?first_err_set; cbn [a_code set_code set_e set_chk set_res set_exit];
    first [left; exists 0; reflexivity | left; apply skip_suffix | right; reflexivity].
Qed.

(* the operations of sendError and of the shutdown *)
Definition exit_op (o : op) : bool :=
  match o with
  | OYield _ | OLock | OUnlock | OTest | OEmit _ | OMark | OWriteTag _ | OCloseInput | ORet => true
  | _ => false
  end.

(* the operations of everybody else: none of Serve's own (the input lock, the
   four that install code), and the state mutex is not taken across steps *)
Definition plain_op (o : op) : bool :=
  match o with
  | OSLock | OAcqIn | ORelIn | OServeTop | OServeRead | OHEmit _ _ | OExit _ _ _ => false
  | _ => true
  end.

(* What an actor can have left to do: Serve is in its loop, or has only
   operations of sendError and the shutdown left (that is what
   [loopish _ = false] tells the progress proofs); the others have plain code *)
Definition code_ok (r : role) (code : list op) : Prop :=
  match r with
  | RServe => loopish code = true \/ forallb exit_op code = true
  | _ => forallb plain_op code = true
  end.

Lemma loopish_tail o k : loopish (o :: k) = true -> is_dyn o = false -> loopish k = true.
Proof.
  unfold loopish. cbn [forallb]. rewrite !andb_true_iff. intros [[_ Hf] He] Hd.
  split; [exact Hf|]. destruct k; cbn in He; [congruence|exact He].
Qed.

(* in the loop the code goes on, or one of the four installs the next fragment *)
Lemma loop_exec : forall me o k og ig a og' ig' a',
  loopish (o :: k) = true -> exec me o k og ig a = Some (og', ig', a') ->
  code_ok RServe (a_code a').
Proof.
  intros me o k og ig a og' ig' a' L Hex.
  assert (Hop : loop_op o = true).
  { unfold loopish in L. cbn [forallb] in L. rewrite !andb_true_iff in L. tauto. }
  destr_exec o Hex; try discriminate Hop; rewrite ?first_err_set;
    first [left; exact (loopish_tail _ _ L eq_refl)|left; reflexivity|right; reflexivity].
Qed.

Lemma code_ok_programs : forall k, code_ok (role_of k) (prog_of k).
Proof.
  destruct k as [|n|n|n|n|n|m|j|evs| | |b|]; try reflexivity.
  - cbn [prog_of role_of code_ok]. induction evs as [|e evs IH]; [reflexivity|exact IH].
  - left. reflexivity.
Qed.

Theorem code_ok_run : forall ds ks tr s, run step (init ds ks) tr = Some s ->
  forall j, code_ok (a_role (s_a s j)) (a_code (s_a s j)).
Proof.
  intros ds ks.
  apply (invariant_run state nat step (fun s => forall j, code_ok (a_role (s_a s j)) (a_code (s_a s j)))).
  - intro j. cbn. destruct (nth_error ks j) as [k|]; [apply code_ok_programs|reflexivity].
  - intros s i s' H Hs j. rewrite (step_role s i s' j Hs).
    destruct (step_shape s i s' Hs) as (o & k & Hc & _ & _ & Hoth).
    destruct (Nat.eq_dec j i) as [->|Hn]; [|rewrite Hoth by exact Hn; apply H].
    pose proof (H i) as Hi. rewrite Hc in Hi.
    (* code without the four is straight-line code: a step leaves a suffix of it *)
    assert (St : forall p, (p o = true -> is_dyn o = false) -> forallb p (o :: k) = true ->
                   forallb p (a_code (s_a s' i)) = true).
    { intros p Hp X. cbn [forallb] in X. apply andb_prop in X. destruct X as [Ho Hk].
      destruct (step_code s i s' o k Hc Hs) as [[n ->]|Hd]; [exact (forallb_skipn _ n k Hk)|].
      rewrite (Hp Ho) in Hd. discriminate. }
    assert (Hx : exit_op o = true -> is_dyn o = false) by (destruct o; auto).
    assert (Hp : plain_op o = true -> is_dyn o = false) by (destruct o; auto).
    destruct (a_role (s_a s i)); cbn [code_ok] in *; auto.
    destruct Hi as [L|X]; [|right; auto].
    apply step_inv in Hs. destruct Hs as (o' & k' & og & ig & a' & Hc' & _ & Hex & ->).
    rewrite Hc in Hc'. injection Hc' as <- <-. cbn [s_a]. rewrite upd_same. exact (loop_exec i o k _ _ _ _ _ _ L Hex).
Qed.

Theorem state_lock_free : forall ds ks tr s,
  run step (init ds ks) tr = Some s -> o_sl (s_o s) = None.
Proof.
  intros ds ks. apply (invariant_hist state nat step (fun _ s => o_sl (s_o s) = None)); [reflexivity|].
  intros h s i s' Hr Hsl Hs. destruct (step_shape s i s' Hs) as (o & k & Hc & Ho & _).
  (* nobody's code has OSLock *)
  pose proof (code_ok_run ds ks h s Hr i) as Hn. rewrite Hc in Hn.
  destruct (o_mark_frame (s_o s)) as (_ & Ms & _). destruct (o_writetag_frame (s_o s)) as (_ & Ws & _).
  destruct Ho; subst; cbn; rewrite ?Ms, ?Ws; auto.
  destruct (a_role (s_a s i)); cbn in Hn; try discriminate Hn. destruct Hn; discriminate.
Qed.

(* r says that the rest of the code starts with the input lock held or not (b): then so does this code (out) *)
Definition from (b : bool) (r : option bool) (out : bool) : option bool :=
  match r with Some b' => if Bool.eqb b b' then Some out else None | None => None end.

Lemma from_some b r out h : from b r out = Some h -> r = Some b /\ h = out.
Proof. destruct r as [[]|], b; cbn; intro H; try discriminate H; injection H as <-; auto. Qed.

(* Whether the actor holds the input lock, read off its remaining code: Some
   true — it holds it (a release or one of Serve's reads comes first); Some
   false — it does not; None — the code is not bracketed.  A test of the
   closed bit has two ways on, which must agree (skip: on the way to the
   OUnlock after it found the stream closed) *)
Fixpoint inlk (skip : bool) (code : list op) : option bool :=
  match code with
  | [] => Some false
  | o :: k =>
      if skip then match o with OUnlock => inlk false k | _ => inlk true k end
      else match o with
           | OAcqIn => from true (inlk false k) false
           | ORelIn => from false (inlk false k) true
           | OServeRead | OHEmit _ _ => Some true
           | OServeTop | OExit _ _ _ => Some false
           | OCloseInput | OProbe => from false (inlk false k) false
           | OChk | OTest => match inlk false k with Some b => from b (inlk true k) b | None => None end
           | _ => inlk false k
           end
  end.

Lemma inlk_skip : forall k, inlk true k = inlk false (skip_to_unlock k).
Proof.
  induction k as [|o k IH]; [reflexivity|].
  destruct o; cbn [inlk skip_to_unlock]; try apply IH. reflexivity.
Qed.

Lemma lk_exec : forall me o k og ig a og' ig' a' h,
  a_code a = o :: k -> inlk false (a_code a) = Some h ->
  exec me o k og ig a = Some (og', ig', a') ->
  exists h', inlk false (a_code a') = Some h' /\
    (h' = h /\ i_lk ig' = i_lk ig \/ h' = true \/ i_lk ig' = false).
Proof.
  intros me o k og ig a og' ig' a' h Hcode Hlk Hex. rewrite Hcode in Hlk.
  destr_exec o Hex; rewrite ?first_err_set;
    cbn [inlk] in Hlk;
    cbn [a_code set_code set_e set_chk set_res set_exit i_lk i_setq i_setlk i_closeinput];
    rewrite ?(proj1 (proj2 (i_setdeadline_keeps _ _ _))), ?(proj1 (proj2 (i_fire_keeps _ _)));
    (* the operation says nothing of the input lock and the code goes on,
       or it installs a fragment that starts as the operation did *)
    try (exists h; split; [first [exact Hlk|injection Hlk as <-; reflexivity]|left; split; reflexivity]; fail).
  (* left, in the order of [op] and of the branches of [exec]: OChk closed / open,
     OTest closed / open, OAcqIn, ORelIn, OCloseInput, OProbe (input closed / open) *)
  1-4: (* a test: both ways on start alike, from b *)
    destruct (inlk false k) as [b|]; [apply from_some in Hlk; destruct Hlk as [Hs ->]|discriminate Hlk].
  1, 3: (* the stream closed: on to the unlock *) exists b; rewrite <- inlk_skip; auto.
  1, 2: exists b; auto.
  all: apply from_some in Hlk; destruct Hlk as [Hk ->]; eexists; (split; [exact Hk|auto]).
Qed.

(* every actor's code is bracketed, and while the input lock is taken some
   actor holds it *)
Definition LK (s : state) : Prop :=
  (forall j, inlk false (a_code (s_a s j)) <> None) /\
  (i_lk (s_i s) = true -> exists j, inlk false (a_code (s_a s j)) = Some true).

Lemma lk_programs : forall k, inlk false (prog_of k) = Some false.
Proof.
  destruct k as [|n|n|n|n|n|m|j|evs| | |b|]; try reflexivity.
  - cbn [prog_of]. induction evs as [|e evs IH]; [reflexivity|exact IH].
Qed.

Lemma LK_init : forall ds ks, LK (init ds ks).
Proof.
  intros ds ks. split; [|discriminate].
  intro j. cbn. destruct (nth_error ks j) as [k|]; [cbn; rewrite lk_programs|]; discriminate.
Qed.

Theorem LK_step : forall s i s', LK s -> step s i = Some s' -> LK s'.
Proof.
  intros s i s' [Ha Hown] Hstep.
  apply step_inv in Hstep. destruct Hstep as (o & k & og & ig & a' & Hcode & _ & Hex & ->).
  destruct (inlk false (a_code (s_a s i))) as [h|] eqn:Hh; [|destruct (Ha i Hh)].
  destruct (lk_exec i o k _ _ _ _ _ _ h Hcode Hh Hex) as (h' & Hlk' & Hrel).
  split; cbn [s_a s_i].
  - intro j. destruct (Nat.eq_dec j i) as [->|Hn]; [rewrite upd_same; congruence|rewrite upd_other by exact Hn; apply Ha].
  - intro Hl. destruct Hrel as [[-> El]|[->|La]]; [|exists i; rewrite upd_same; exact Hlk'|congruence].
    rewrite El in Hl. destruct (Hown Hl) as [j Hj]. exists j.
    destruct (Nat.eq_dec j i) as [->|Hn]; [rewrite upd_same; congruence|rewrite upd_other by exact Hn; exact Hj].
Qed.

Theorem LK_run : forall ds ks tr s, run step (init ds ks) tr = Some s -> LK s.
Proof.
  intros ds ks. exact (invariant_run state nat step LK _ (LK_init ds ks) LK_step).
Qed.

Lemma plain_free : forall code skip, forallb plain_op code = true -> inlk skip code = Some false.
Proof.
  induction code as [|o k IH]; intros skip H; [reflexivity|].
  cbn [forallb] in H. apply andb_prop in H. destruct H as [Ho Hk].
  destruct skip, o; cbn in Ho; try discriminate Ho; cbn [inlk]; rewrite ?(IH _ Hk); reflexivity.
Qed.

(* Close as it was: the state mutex is taken right after the output lock and
   released when the function returns, the closing tag is written in between
   (the yield point close.locked was inside both locks) *)
Definition pinned_close_code : list op :=
  [OYield PCloseEnter; OLock; OSLock; OYield PCloseLocked; OMark; OWriteTag false; OSUnlock; OUnlock; ORet].

(* Serve, a Close caller (pinned), a peer that sends an element, and the peer's
   reading side stalling *)
Definition pinned_kinds : list kind := [KServe; KClose; KPeer [PElem false false 2]; KStall true].

Definition pinned_init : state :=
  let s := init true pinned_kinds in
  mkS (s_o s) (s_i s) (upd (s_a s) 1 (mkA pinned_close_code ENil None false CNone RCloser)).

(* the peer stops reading; Serve reaches its read; Close takes both locks, sets
   the bit and reaches its write; the peer's element arrives *)
Definition pinned_trace : list nat := [3; 3; 0; 0; 0; 1; 1; 1; 1; 1; 2; 2].

Definition statelock_statement (init0 : state) : Prop :=
  forall tr s i k, run step init0 tr = Some s ->
    a_code (s_a s i) = OServeRead :: k -> i_q (s_i s) <> [] -> exists s', step s i = Some s'.

Lemma pinned_witness : exists s, run step pinned_init pinned_trace = Some s /\
  o_rdy (s_o s) = false /\ o_lock (s_o s) = Some 1 /\ o_sl (s_o s) = Some 1 /\
  o_cl (s_o s) = true /\ o_pend (s_o s) = true /\
  hd_error (a_code (s_a s 1)) = Some (OWriteTag false) /\ step s 1 = None /\
  a_code (s_a s 0) = [OServeRead] /\ i_q (s_i s) = [PElem false false 2] /\ step s 0 = None.
Proof. replay_all s E. Qed.

(* the same schedule with the repaired Close (one step of actor 1 fewer: there
   is no OSLock): Serve reads *)
Lemma repaired_same_schedule : exists s, run step (init true pinned_kinds) [3; 3; 0; 0; 0; 1; 1; 1; 1; 2; 2] = Some s /\
  o_rdy (s_o s) = false /\ o_lock (s_o s) = Some 1 /\ o_sl (s_o s) = None /\ o_pend (s_o s) = true /\
  step s 1 = None /\ exists s', step s 0 = Some s'.
Proof. replay_all s E. apply defined_some. replay E. Qed.
