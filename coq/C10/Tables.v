(* C10/Tables.v — the facts of session.go that the model's programs rely on,
   read from the source by the translator (gen/SessClose.v) on every run.
   A source edit that removes a closed-bit test, adds a function that takes
   the output lock or touches the encoder, or reorders Serve's shutdown makes
   one of these lemmas fail. *)
From XV Require Import lib.Bytes gen.SessClose gen.Serve C10.Model.

(* exactly these take the output lock: each is an actor kind of the model
   (Close: KClose; Encode: KEncode/KEncodeNF; EncodeElement; TokenWriter:
   KTokenWriter and the handler's reply; sendError: Serve's exit; send: KSend) *)
Lemma tbl_out_lockers :
  sc_out_lockers = map str ["Session.Close"; "Session.Encode"; "Session.EncodeElement";
                            "Session.TokenWriter"; "Session.sendError"; "send"]%string.
Proof. vm_compute. reflexivity. Qed.

(* every one of them tests the closed bit after taking the lock; TokenWriter
   leaves the test to the writer's EncodeToken and Flush *)
Lemma tbl_guards :
  forallb (fun n => mem_name n sc_out_lockers_guarded || bytes_eqb n (str "Session.TokenWriter")) sc_out_lockers = true /\
  sc_tw_encodetoken_tests_closed = true /\ sc_tw_flush_tests_closed = true /\
  send_guarded = true /\ encode_guarded = true /\ encodeelement_guarded = true.
Proof. vm_compute. repeat split; reflexivity. Qed.

Lemma tbl_setters :
  sc_sets_output_closed = [str "Session.closeSession"] /\
  sc_sets_input_closed = [str "Session.closeInputStream"] /\
  sc_closesession_callers = map str ["Session.Close"; "Session.sendError"]%string.
Proof. vm_compute. repeat split; reflexivity. Qed.

(* the output encoder is reached only from modelled code (and from the
   negotiation, before the session is Ready) *)
Lemma tbl_encoder_users :
  sc_encoder_users = map str ["Session.Encode"; "Session.EncodeElement"; "Session.sendError";
                              "lockWriteCloser.EncodeToken"; "lockWriteCloser.Flush";
                              "negotiateSession"; "send"]%string.
Proof. vm_compute. reflexivity. Qed.

(* Serve's deferred shutdown: closeInputStream, then Close (shutdown_code) *)
Lemma tbl_serve_defer : sc_serve_defer_calls = map str ["closeInputStream"; "Close"]%string.
Proof. vm_compute. reflexivity. Qed.

(* the token reader tests the input-closed bit (OProbe, OServeRead), and
   SetCloseDeadline swaps the input context under a lock (one operation) *)
Lemma tbl_reader_and_deadline : sc_tr_token_tests_closed = true /\ sc_setclosedeadline_locked = true.
Proof. vm_compute. split; reflexivity. Qed.

Lemma tbl_bits : N.land sc_output_closed sc_input_closed = 0%N /\ sc_output_closed <> 0%N /\ sc_input_closed <> 0%N.
Proof. vm_compute. repeat split; discriminate. Qed.

(* the closing element of either framing; Send records the opening element, so
   that Close writes the matching one *)
Lemma tbl_close_tags : sc_close_tag = str "</stream:stream>" /\
  sc_close_ws_tag = str "<close xmlns=""urn:ietf:params:xml:ns:xmpp-framing""/>" /\
  sc_send_records_opening_element = true.
Proof. vm_compute. repeat split; reflexivity. Qed.

(* WebSocket framing: the negotiator tells the session which framing it uses,
   and the stream reader takes the peer's <close/> for the end of the stream:
   the model's PClose / IClose stand for <close/> in both directions there *)
Lemma tbl_ws_framing : sc_negotiator_records_ws = true /\ sc_reader_ws_close_is_eof = true.
Proof. vm_compute. split; reflexivity. Qed.

(* the critical sections of the state mutex contain no call that can block (no
   write to the connection or into the encoder, no read, no other lock, no yield
   point): the model may perform each of them as a single operation, and nobody
   holds the mutex while waiting for the peer *)
Lemma tbl_statelock : sc_statelock_blocking_calls = [].
Proof. vm_compute. reflexivity. Qed.

(* SetCloseDeadline replaces the deadline: the new input context is built from
   context.Background() — not derived from the one it replaces, whose deadline
   would otherwise stay in force for ever —, the previous one is cancelled, and
   the zero time means no deadline (as for the connection's read deadline) *)
Lemma tbl_setdeadline : sc_setclosedeadline_fresh_context = true /\
  sc_setclosedeadline_cancels_previous = true /\ sc_setclosedeadline_zero_is_no_deadline = true.
Proof. vm_compute. repeat split; reflexivity. Qed.

(* Serve's loop (session.go; the first fact is read by the translator section
   Serve, shared with C08): the peer's close is recognised by comparing the
   error of handleInputStream with io.EOF itself — an error that merely wraps
   io.EOF (a handler's, say) goes to sendError like any other, which is what
   OExit EHandler CHandler says —; and the input context in force is read
   afresh at every turn of the loop (OServeTop), not once before it: a context
   replaced by SetCloseDeadline while Serve runs is never looked at again *)
Lemma tbl_serve_loop : sv_serve_eof_identity = true /\ sc_serve_reads_context_every_turn = true.
Proof. vm_compute. split; reflexivity. Qed.

(* closeSession: the bit is tested and set in one critical section of the state
   mutex that ends before the closing element is written (OMark, then
   OWriteTag): closing is final even when the connection refuses the write, and
   there is never a second write attempt *)
Lemma tbl_closesession_order : sc_closesession_sets_bit_before_write = true.
Proof. vm_compute. reflexivity. Qed.

(* the transport's deadlines, which the model abstracts (a transmit call leaves
   the connection writable; SetCloseDeadline arms the reads of the underlying
   connection): setWriteDeadline clears the write deadline in the very select
   arm that expired it, and newConn looks the deadline methods up on the
   previous (underlying) connection when a plain io.ReadWriter is layered over it *)
Lemma tbl_transport_deadlines :
  sc_writedeadline_cleared_where_expired = true /\ sc_newconn_deadlines_from_prev = true.
Proof. vm_compute. split; reflexivity. Qed.
