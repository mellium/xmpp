(* C10/Examples.v — non-vacuity: concrete instances of the hypotheses of the
   property theorems, and a few schedules replayed through the model. *)
From XV Require Import lib.Bytes lib.Lts C10.Model C10.Step C10.Closers C10.Transmit C10.Spec.

(* three Close callers and two transmitters interleaved: one tag, the late
   transmitters fail *)
Definition ex_kinds : list kind := [KClose; KSend 1; KClose; KEncode 3; KClose].
(* Send starts and completes, then the Close calls interleave with Encode *)
Definition ex_trace : list nat :=
  repeat 1 9 ++ [0; 2; 4; 0; 0; 0; 0; 0; 3; 0; 3; 3; 3; 2; 2; 2; 2; 2; 2; 4; 4; 4; 4; 4; 4; 3].

Example ex_runs : exists s, run step (init true ex_kinds) ex_trace = Some s /\
  o_wire (s_o s) = [IElem 1; IClose] /\ o_buf (s_o s) = [] /\
  map (fun i => a_res (s_a s i)) [0; 1; 2; 3; 4] = [Some ENil; Some ENil; Some ENil; Some EOutClosed; Some ENil].
Proof. replay_all s E. Qed.

(* hypotheses of C10_transmit_fails_after_close: a reachable closed state with
   a transmitter of each family that has not started *)
Example ex_not_started : exists s, run step (init true [KClose; KSend 1; KTokenWriter 2; KEncodeElement 3; KEncodeNF 4]) (repeat 0 7) = Some s /\
  o_cl (s_o s) = true /\ not_started s 1 (KSend 1) /\ not_started s 2 (KTokenWriter 2) /\
  not_started s 3 (KEncodeElement 3) /\ not_started s 4 (KEncodeNF 4) /\
  is_transmit (KSend 1) = true /\ is_transmit (KTokenWriter 2) = true.
Proof. replay_all s E. Qed.

(* hypotheses of C10_serve_outcomes / C10_serve_returns: Serve with a peer that
   closes; Serve returns nil, both bits set *)
Definition ex_serve : list kind := [KServe; KPeer [PElem true false 1; PClose]; KClose].
Example ex_serve_runs : exists s,
  run step (init false ex_serve) ([1; 1; 1] ++ repeat 0 12 ++ repeat 2 7 ++ repeat 0 14) = Some s /\
  returned s 0 ENil /\ a_cause (s_a s 0) = CPeerClose /\ o_cl (s_o s) = true /\ i_cl (s_i s) = true /\
  o_wire (s_o s) = [IElem 1; IClose] /\ returned s 2 ENil.
Proof. replay_all s E. Qed.

(* a state in which Serve has left its loop but not returned, while a Close
   caller holds the output lock (premises of C10_serve_returns) *)
Example ex_serve_blocked : exists s,
  run step (init true [KServe; KPeer [PErr]; KClose]) ([1; 1] ++ repeat 0 6 ++ [2; 2; 2] ++ [0]) = Some s /\
  loopish (a_code (s_a s 0)) = false /\ a_res (s_a s 0) = None /\ o_lock (s_o s) = Some 2 /\
  step s 0 = None.
Proof. replay_all s E. Qed.

(* the read deadline: premises of C10_serve_leaves_loop with i_rdexp *)
Example ex_deadline : exists s,
  run step (init true [KServe; KSetDeadline DPast]) ([0; 0; 0] ++ [1; 1]) = Some s /\
  a_code (s_a s 0) = [OServeRead] /\ i_rdexp (s_i s) = true.
Proof. replay_all s E. Qed.

(* ... and without deadlines on the transport the read stays blocked *)
Example ex_no_deadline : exists s,
  run step (init false [KServe; KSetDeadline DPast]) ([0; 0; 0] ++ [1; 1]) = Some s /\
  i_rdexp (s_i s) = false /\ i_done (s_i s) = true /\ step s 0 = None.
Proof. replay_all s E. Qed.

(* the yield-point granularity used by the harness: hsched, a Close caller and a Send alternating *)
Example ex_hsched :
  let s := hsched (init true [KClose; KSend 1]) [0; 1; 0; 1; 0; 1; 1] in
  o_wire (s_o s) = [IClose] /\ a_res (s_a s 1) = Some EOutClosed.
Proof. vm_compute. split; reflexivity. Qed.

(* the bit is set before the tag is written: the window in which the tag is owed *)
Example ex_owed : exists s, run step (init true [KClose]) [0; 0; 0; 0] = Some s /\
  o_cl (s_o s) = true /\ o_pend (s_o s) = true /\ o_wire (s_o s) = [] /\ o_sl (s_o s) = None /\
  exists s', step s 0 = Some s' /\ o_wire (s_o s') = [IClose] /\ o_pend (s_o s') = false.
Proof.
  replay_all s E.
  destruct (defined_some (step s 0)) as [s' E']; [replay E|].
  pose proof (run_then_step _ _ _ _ _ _ _ _ E E') as E2.
  exists s'. split; [exact E'|]. split; replay E2.
Qed.

(* with a peer that does not read the closer waits in its write, holding only
   the output lock: SetCloseDeadline returns and Serve's next step is enabled *)
Example ex_stalled : exists s,
  run step (init true [KClose; KStall true; KServe; KSetDeadline DFuture]) [1; 1; 0; 0; 0; 0; 2; 2; 3; 3] = Some s /\
  step s 0 = None /\ o_pend (s_o s) = true /\ o_sl (s_o s) = None /\
  a_res (s_a s 3) = Some ENil /\ exists s', step s 2 = Some s'.
Proof.
  replay_all s E.
  apply defined_some. replay E.
Qed.

(* the deadline is replaced: call 1 (short) is extended by call 2; the first
   deadline passes (timer 3) without effect; the peer's stanza and closing tag
   are served and Serve returns nil *)
Example ex_extended : exists s,
  run step (init true [KServe; KSetDeadline DFuture; KSetDeadline DFuture; KTimer 1; KPeer [PElem false false 4; PClose]])
      ([0; 0; 0] ++ [1; 1; 2; 2; 3; 3] ++ [4; 4; 4] ++ repeat 0 18) = Some s /\
  returned s 0 ENil /\ a_cause (s_a s 0) = CPeerClose /\ i_gen (s_i s) = Some 2 /\ i_passed (s_i s) = false.
Proof. replay_all s E. Qed.

(* shortened: the later call's deadline is the one that passes: Serve's read times out *)
Example ex_shortened : exists s,
  run step (init true [KServe; KSetDeadline DFuture; KSetDeadline DFuture; KTimer 2]) ([0; 0; 0] ++ [1; 1; 2; 2; 3; 3] ++ repeat 0 20) = Some s /\
  returned s 0 ETimeout /\ a_cause (s_a s 0) = CTimeout /\ i_passed (s_i s) = true.
Proof. replay_all s E. Qed.

(* cleared with the zero time after it had passed: Serve goes on *)
Example ex_cleared : exists s,
  run step (init false [KServe; KSetDeadline DPast; KSetDeadline DZero; KPeer [PClose]]) ([1; 1; 2; 2; 3; 3] ++ repeat 0 15) = Some s /\
  returned s 0 ENil /\ i_done (s_i s) = true /\ i_err (s_i s) = ECtxCanceled.
Proof. replay_all s E. Qed.

(* the connection refuses the closing tag: the bit is set all the same, there
   is one attempt and no more, Close reports the connection's error once, later
   calls find the stream closed *)
Example ex_refused : exists s,
  run step (init true [KFault; KClose; KClose; KSend 3]) ([0; 0] ++ repeat 1 7 ++ repeat 2 7 ++ repeat 3 6) = Some s /\
  o_cl (s_o s) = true /\ o_att (s_o s) = 1 /\ o_wire (s_o s) = [] /\ o_pend (s_o s) = false /\
  map (fun i => a_res (s_a s i)) [1; 2; 3] = [Some EWrite; Some ENil; Some EOutClosed].
Proof. replay_all s E. Qed.

(* ... and Serve, whose shutdown had to write the refused tag, returns that error *)
Example ex_refused_serve : exists s,
  run step (init false [KServe; KFault; KPeer [PClose]]) ([1; 1; 2; 2] ++ repeat 0 15) = Some s /\
  returned s 0 EWrite /\ a_cause (s_a s 0) = CPeerClose /\ o_att (s_o s) = 1 /\ o_cl (s_o s) = true /\ i_cl (s_i s) = true.
Proof. replay_all s E. Qed.
