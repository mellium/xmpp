(* C10/Spec.v — the property statements' vocabulary, and what ties an actor's
   kind in the configuration to its ghost role in every reachable state. *)
From XV Require Import lib.Bytes lib.Lts C10.Model C10.Closers.

Definition reachable_from (ds : bool) (ks : list kind) (s : state) : Prop :=
  exists tr, run step (init ds ks) tr = Some s.

Definition kind_at (ks : list kind) (i : nat) (k : kind) : Prop := nth_error ks i = Some k.

Definition returned (s : state) (i : nat) (e : err) : Prop := a_res (s_a s i) = Some e.

Definition not_started (s : state) (i : nat) (k : kind) : Prop := s_a s i = actor_of k.

Definition roles_ok (ks : list kind) (s : state) : Prop :=
  forall i, a_role (s_a s i) = match nth_error ks i with Some k => role_of k | None => RPlain end.

Lemma roles_run : forall ds ks tr s, run step (init ds ks) tr = Some s -> roles_ok ks s.
Proof.
  intros ds ks. apply (invariant_run state nat step (roles_ok ks)).
  - intro i. cbn. destruct (nth_error ks i); reflexivity.
  - intros s l s' H Hs i. rewrite (step_role s l s' i Hs). apply H.
Qed.
