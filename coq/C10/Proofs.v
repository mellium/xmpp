(* C10/Proofs.v — first consequences of the invariant and of the shape of a
   step: the bits only get set, the close deadline is state that
   SetCloseDeadline replaces, nothing reaches the encoder once the stream is
   closed, at most one closing tag. *)
From XV Require Import lib.Bytes lib.Lts C10.Model C10.Step C10.Inv.

(* the closed bits only ever get set; a closing that is complete (bit set, tag
   written) stays complete; a refusing connection goes on refusing *)

Definition mono_oi (og : outg) (ig : ing) (og' : outg) (ig' : ing) : Prop :=
  (o_cl og = true -> o_cl og' = true) /\ (i_cl ig = true -> i_cl ig' = true) /\
  (o_cl og = true /\ o_pend og = false -> o_cl og' = true /\ o_pend og' = false) /\
  (o_wfail og = true -> o_wfail og' = true).

Lemma step_mono : forall s i s', step s i = Some s' -> mono_oi (s_o s) (s_i s) (s_o s') (s_i s').
Proof.
  intros s i s' H. destruct (step_shape s i s' H) as (o & k & _ & Ho & Hi & _).
  destruct (o_mark_frame (s_o s)) as (_ & _ & _ & Mw). destruct (o_writetag_frame (s_o s)) as (_ & _ & _ & Ww & Wc).
  split; [|split; [|split]].
  - destruct Ho; cbn; auto; [intros _; apply o_mark_cl|congruence].
  - destruct Hi; cbn; auto;
      [rewrite (proj1 (i_setdeadline_keeps _ _ _))|rewrite (proj1 (i_fire_keeps _ _))]; auto.
  - destruct Ho; cbn; auto; intros [A B]; [rewrite (o_mark_closed _ A); auto|].
    split; [congruence|apply o_writetag_pend].
  - destruct Ho; cbn; auto; congruence.
Qed.

(* The input context and the read deadline as Serve sees them, under any number
   of SetCloseDeadline calls in any order with everything else, the deadline
   asked for by call j passing at any moment (OFire j): a read times out, and
   the context reports a deadline, only when the deadline IN FORCE has passed
   (i_passed, ghost); a context that is done carries one of two errors *)
Definition ctx_ok (g : ing) : Prop :=
  (i_rdexp g = true -> i_passed g = true) /\
  (i_done g = true -> i_err g = ECtxDeadline /\ i_passed g = true \/ i_err g = ECtxCanceled).

Lemma ctx_ok_step : forall s i s', ctx_ok (s_i s) -> step s i = Some s' -> ctx_ok (s_i s').
Proof.
  intros s i s' Hd H. destruct (step_shape s i s' H) as (o & k & _ & _ & Hi & _). destruct Hi; try exact Hd.
  - (* SetCloseDeadline: a fresh context; the flag is what this call says *)
    destruct m; unfold ctx_ok; cbn; split; intros; auto; discriminate.
  - (* only the deadline in force passes, and that raises the flag; a context that is already done keeps its error *)
    destruct (i_fire_cases j (s_i s)) as [->|(_ & _ & ->)]; [exact Hd|].
    destruct Hd as [_ H2]. unfold ctx_ok. cbn. split; [reflexivity|]. intros _.
    destruct (i_done (s_i s)); [destruct (H2 eq_refl) as [[-> _]| ->]|]; auto.
  - (* closeInputStream: likewise *)
    destruct Hd as [H1 H2]. unfold ctx_ok. cbn. split; [exact H1|]. intros _.
    destruct (i_done (s_i s)); [exact (H2 eq_refl)|auto].
Qed.

Theorem ctx_ok_run : forall ds ks tr s, run step (init ds ks) tr = Some s -> ctx_ok (s_i s).
Proof.
  intros ds ks. apply (invariant_run state nat step (fun s => ctx_ok (s_i s))).
  - unfold ctx_ok. cbn. split; intros; discriminate.
  - intros s l s' H1 H2. exact (ctx_ok_step s l s' H1 H2).
Qed.

(* all that still reaches the connection once the stream is closed: the closing
   tag owed by the call that set the bit *)

Definition tag_only (o o' : outg) : Prop :=
  (o_wire o' = o_wire o /\ o_pend o' = o_pend o) \/
  (o_pend o = true /\ o_pend o' = false /\
   (o_wire o' = o_wire o ++ [IClose] \/ o_wire o' = o_wire o (* the connection refused the tag *))).

Lemma o_writetag_frozen o : o_cl o = true ->
  o_buf (o_writetag o) = o_buf o /\ o_cl (o_writetag o) = true /\ tag_only o (o_writetag o).
Proof.
  intro H. unfold o_writetag, tag_only. destruct (o_pend o) eqn:Hp; cbn; [|auto].
  split; [reflexivity|]. split; [exact H|]. right. destruct (o_wfail o); auto.
Qed.

Lemma step_frozen : forall s i s', INV s -> o_cl (s_o s) = true -> step s i = Some s' ->
  o_buf (s_o s') = o_buf (s_o s) /\ o_cl (s_o s') = true /\ tag_only (s_o s) (s_o s').
Proof.
  intros s i s' HI Hcl H. destruct (step_shape s i s' H) as (o & k & Hcode & Ho & _).
  destruct Ho as [ | | |it Hg|Hg| | | | |b| ]; rewrite ?(o_mark_closed _ Hcl);
    try exact (o_writetag_frozen _ Hcl); try (unfold tag_only; cbn; auto; fail).
  (* the encoder is not written: the stream is closed, and an unguarded write
     would have found it open *)
  all: destruct Hg as [Hg| ->]; [congruence|].
  all: rewrite (unguarded_open s i _ _ HI Hcode) in Hcl by eauto; discriminate.
Qed.

Lemma tag_only_trans a b c : tag_only a b -> tag_only b c -> tag_only a c.
Proof.
  unfold tag_only. intros [[C1 C2]|(C1 & C2 & C3)] [[F1 F2]|(F1 & F2 & F3)].
  - left. split; congruence.
  - right. split; [congruence|]. split; [exact F2|]. rewrite <- C1. exact F3.
  - right. split; [exact C1|]. split; [congruence|]. rewrite F1. exact C3.
  - congruence.
Qed.

Lemma run_frozen : forall tr s s', INV s -> o_cl (s_o s) = true -> run step s tr = Some s' ->
  o_buf (s_o s') = o_buf (s_o s) /\ tag_only (s_o s) (s_o s').
Proof.
  intros tr s s' HI Hcl Hr.
  refine (proj2 (proj2 (invariant_run state nat step
    (fun s' => INV s' /\ o_cl (s_o s') = true /\ o_buf (s_o s') = o_buf (s_o s) /\ tag_only (s_o s) (s_o s'))
    s _ _ tr s' Hr))).
  - split; [exact HI|]. split; [exact Hcl|]. split; [reflexivity|left; auto].
  - intros s1 l s2 (I1 & C1 & B1 & T1) H. destruct (step_frozen s1 l s2 I1 C1 H) as (B2 & C2 & T2).
    split; [exact (INV_step s1 l s2 I1 H)|]. split; [exact C2|].
    split; [congruence|exact (tag_only_trans _ _ _ T1 T2)].
Qed.

Definition closes (l : list item) : nat := length (filter is_close l).

Lemma closes_app a b : closes (a ++ b) = closes a + closes b.
Proof. unfold closes. rewrite filter_app, app_length. reflexivity. Qed.

Lemma closes_none l : ~ In IClose l -> closes l = 0.
Proof.
  induction l as [|x l IH]; intro H; [reflexivity|]. unfold closes. cbn.
  destruct x; cbn; try (apply IH; intro; apply H; right; assumption).
  exfalso. apply H. left. reflexivity.
Qed.

Lemma last_unique {A} (x : A) : forall pre p q, pre ++ [x] = p ++ x :: q -> ~ In x pre -> q = [].
Proof.
  induction pre as [|a pre IH]; intros p q E Hn.
  - destruct p as [|y p]; cbn in E.
    + injection E as <-. reflexivity.
    + injection E as _ E. destruct p; discriminate E.
  - destruct p as [|y p]; cbn in E.
    + injection E as E _. exfalso. apply Hn. left. exact E.
    + injection E as _ E. apply (IH p q E). intro H. apply Hn. right. exact H.
Qed.

Lemma tag_last_split w : tag_last w -> forall p q, w = p ++ IClose :: q -> q = [].
Proof.
  intros [Hn|(pre & -> & Hn)] p q E; [|exact (last_unique IClose pre p q E Hn)].
  exfalso. apply Hn. rewrite E. apply in_elt.
Qed.

Lemma wire_ok_count o : wire_ok o ->
  o_att o <= 1 /\ closes (o_wire o) <= o_att o /\
  (o_att o = 1 <-> o_cl o = true /\ o_pend o = false) /\
  (o_wfail o = false -> closes (o_wire o) = o_att o) /\
  (forall pre post, o_wire o = pre ++ IClose :: post -> post = []).
Proof.
  intros (H1 & H2 & _).
  (* either no tag and no attempt yet, or one attempt *)
  assert (G : (~ In IClose (o_wire o) /\ o_att o = 0 /\ ~ (o_cl o = true /\ o_pend o = false)) \/
              (o_att o = 1 /\ tag_last (o_wire o) /\ (o_wfail o = false -> In IClose (o_wire o)) /\
               o_cl o = true /\ o_pend o = false)).
  { destruct (o_cl o); [specialize (H2 eq_refl); destruct (o_pend o)|destruct (H1 eq_refl) as (A & B & C)];
      [left|right|left]; intuition congruence. }
  destruct G as [(Hw & Ha & Hn)|(Ha & Hl & Hf & Hc)]; rewrite Ha.
  - rewrite (closes_none _ Hw). split; [lia|]. split; [lia|]. split; [split; [discriminate|tauto]|].
    split; [reflexivity|exact (tag_last_split _ (or_introl Hw))].
  - split; [lia|]. split; [|split; [tauto|split; [|exact (tag_last_split _ Hl)]]];
      destruct Hl as [Hn|(pre & Hw & Hn)].
    + rewrite (closes_none _ Hn). lia.
    + rewrite Hw, closes_app, (closes_none pre Hn). cbn. lia.
    + intro E. destruct (Hn (Hf E)).
    + intros _. rewrite Hw, closes_app, (closes_none pre Hn). reflexivity.
Qed.
