(* C10/Refute.v — the faithful model does NOT put the stream error that
   sendError encodes on the wire: witness (known finding, session.go sendError
   does not flush before closeSession writes the closing tag directly). *)
From XV Require Import lib.Bytes lib.Lts C10.Model C10.Step.

(* what one would expect of sendError: whenever nobody is writing, no stream
   error is stuck in the encoder buffer *)
Definition stream_error_flushed_statement : Prop :=
  forall ds ks tr s, run step (init ds ks) tr = Some s ->
    o_lock (s_o s) = None -> ~ In IErr (o_buf (s_o s)).

(* Serve, and a peer whose element makes the handler fail *)
Definition witness_kinds : list kind := [KServe; KPeer [PElem false true 1]].
Definition witness_trace : list nat := [1; 1] ++ repeat 0 24.

Lemma witness_runs : exists s, run step (init true witness_kinds) witness_trace = Some s /\
  o_lock (s_o s) = None /\ o_buf (s_o s) = [IErr] /\ o_wire (s_o s) = [IClose] /\
  a_res (s_a s 0) = Some EHandler /\ o_cl (s_o s) = true /\ i_cl (s_i s) = true.
Proof. replay_all s E. Qed.
