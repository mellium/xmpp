(* C10/Properties.v — the property theorems of C10 and nothing else.
   "Closing is idempotent, final and observable."

   A schedule is a list of actor indices (lib/Lts.v: run step); the theorems
   quantify over every configuration (transport with or without read
   deadlines, any list of actors of any kinds and multiplicities: Close
   callers, transmitters of every family, SetCloseDeadline, token-reader
   probes, Serve, the peer with any script, the deadline timer) and over every
   schedule, i.e. every interleaving of their operations.

   The clauses of the property, as the comments below number them:
   1. closing writes the closing tag exactly once, however often and from
      wherever it is requested;
   2. after that nothing further is written (2a) and every transmit entry
      point fails with the output-closed error (2b);
   3. Serve returns — nil for the peer's close, an error for a stream error or a
      passed close deadline — leaving both directions marked closed (3a: the
      outcomes; 3b, 3b': it does leave its loop and return, and which deadline
      counts), after which reads fail with the input-closed error (3c). *)
From XV Require Import lib.Bytes lib.Lts gen.SessClose gen.Serve C10.Model C10.Step C10.Inv C10.Proofs C10.Closers
  C10.Transmit C10.StateLock C10.Progress C10.Refute C10.Tables C10.Spec.

(* Clause 1.  In every reachable state the closing tag has been handed to the
   connection at most once (o_att: write ATTEMPTS, whether or not the
   connection accepted the write) and the wire holds no more tags than that;
   it has been attempted exactly when the OutputStreamClosed bit is set and the
   tag is no longer owed (closeSession sets the bit under the state lock and
   writes the tag after releasing it, still under the output lock); unless the
   connection refuses the tag, attempt and tag on the wire coincide; and as
   soon as any Close call, or Serve, has returned — with or without the
   connection's error — the bit is set and the one attempt has been made:
   closing is final, however many callers there are and however they
   interleave with each other, with transmitters, with Serve's own shutdown
   and with sendError. *)
Theorem C10_one_closing_tag : forall ds ks tr s,
  run step (init ds ks) tr = Some s ->
  o_att (s_o s) <= 1 /\ closes (o_wire (s_o s)) <= o_att (s_o s) /\
  (o_att (s_o s) = 1 <-> o_cl (s_o s) = true /\ o_pend (s_o s) = false) /\
  (o_wfail (s_o s) = false -> closes (o_wire (s_o s)) = o_att (s_o s)) /\
  (forall i e, (kind_at ks i KClose \/ kind_at ks i KServe) -> returned s i e ->
     o_cl (s_o s) = true /\ o_att (s_o s) = 1).
Proof.
  intros ds ks tr s Hr.
  destruct (INV_run ds ks tr s Hr) as [Hw _].
  destruct (wire_ok_count _ Hw) as (H1 & H2 & H3 & H4 & _).
  split; [exact H1|]. split; [exact H2|]. split; [exact H3|]. split; [exact H4|].
  intros i e Hk Hres.
  pose proof (roles_run ds ks tr s Hr i) as Hrole.
  assert (Hne : a_role (s_a s i) <> RPlain).
  { unfold kind_at in Hk. destruct Hk as [Hk|Hk]; rewrite Hk in Hrole; rewrite Hrole; discriminate. }
  pose proof (proj1 (closer_returned s i e (CINV_run ds ks tr s Hr) Hne Hres)) as Hc.
  split; [exact (proj1 Hc)|exact (proj2 H3 Hc)].
Qed.
Print Assumptions C10_one_closing_tag.

(* Clause 2a.  Nothing follows the closing tag on the wire, and from the moment
   the bit is set the encoder's buffer is never written again and the only
   thing that can still reach the connection is the one closing tag owed by the
   call that set the bit (tag_only), whatever anybody does. *)
Theorem C10_nothing_after_close : forall ds ks tr s,
  run step (init ds ks) tr = Some s ->
  (forall pre post, o_wire (s_o s) = pre ++ IClose :: post -> post = []) /\
  (o_cl (s_o s) = true -> forall tr2 s2, run step s tr2 = Some s2 ->
     o_buf (s_o s2) = o_buf (s_o s) /\ tag_only (s_o s) (s_o s2)).
Proof.
  intros ds ks tr s Hr. pose proof (INV_run ds ks tr s Hr) as HI.
  split.
  - destruct HI as [Hw _]. exact (proj2 (proj2 (proj2 (proj2 (wire_ok_count _ Hw))))).
  - intros Hcl tr2 s2 H2. exact (run_frozen tr2 s s2 HI Hcl H2).
Qed.
Print Assumptions C10_nothing_after_close.

(* Clause 2b.  A transmit call of any family (func send — Send, SendElement and
   every SendIQ/Message/Presence/Encode... variant —, Encode, EncodeElement,
   TokenWriter) that has not started when the stream is closed returns, if it
   returns, the output-closed error, and it has written nothing. *)
Theorem C10_transmit_fails_after_close : forall ds ks tr1 s1 i k tr2 s2 e,
  run step (init ds ks) tr1 = Some s1 ->
  o_cl (s_o s1) = true -> is_transmit k = true -> not_started s1 i k ->
  run step s1 tr2 = Some s2 -> returned s2 i e ->
  e = EOutClosed /\ o_buf (s_o s2) = o_buf (s_o s1) /\ tag_only (s_o s1) (s_o s2).
Proof.
  intros ds ks tr1 s1 i k tr2 s2 e H1 Hcl Ht Hns H2 Hres. unfold not_started in Hns.
  apply (transmit_after_close ds ks tr1 s1 i k tr2 s2 e H1 Hcl Ht); try assumption; rewrite Hns; reflexivity.
Qed.
Print Assumptions C10_transmit_fails_after_close.

(* Clause 3a.  When Serve has returned, both directions are marked closed, the
   closing tag has been attempted exactly once, and the return value is the one
   that belongs to the reason Serve left its loop (outcome_rel): nil for the
   peer's closing tag, the stream error for a received stream error, a time-out
   error when the read deadline expired, the context's error when the close
   deadline was noticed at the top of the loop, the output-closed error when a
   reply was attempted after Close, the handler's / reader's error otherwise —
   or, when the connection refused the closing tag that this Serve had to
   write, the connection's error.  nil only for the peer's closing tag; and
   always nil for it unless the connection refused the tag. *)
Theorem C10_serve_outcomes : forall ds ks tr s i e,
  run step (init ds ks) tr = Some s -> kind_at ks i KServe -> returned s i e ->
  o_cl (s_o s) = true /\ i_cl (s_i s) = true /\ o_att (s_o s) = 1 /\
  outcome_rel' (o_wfail (s_o s)) (a_cause (s_a s i)) e /\
  (e = ENil -> a_cause (s_a s i) = CPeerClose) /\
  (o_wfail (s_o s) = false -> a_cause (s_a s i) = CPeerClose -> e = ENil).
Proof.
  intros ds ks tr s i e Hr Hk Hres.
  pose proof (roles_run ds ks tr s Hr i) as Hrole. unfold kind_at in Hk. rewrite Hk in Hrole. cbn in Hrole.
  assert (Hnp : a_role (s_a s i) <> RPlain) by (rewrite Hrole; discriminate).
  destruct (closer_returned s i e (CINV_run ds ks tr s Hr) Hnp Hres) as (Ho & G).
  destruct (G Hrole) as (Hi & Hrel).
  split; [exact (proj1 Ho)|]. split; [exact Hi|].
  split; [exact (proj2 (proj1 (proj2 (proj2 (C10_one_closing_tag ds ks tr s Hr)))) Ho)|].
  split; [exact Hrel|]. split.
  - intro He. destruct Hrel as [Hrel|(_ & _ & Hw)]; [|congruence].
    destruct (a_cause (s_a s i)); cbn in Hrel; try contradiction; try congruence.
    destruct Hrel; congruence.
  - intros Hf Hcl. destruct Hrel as [Hrel|(Hw & _)]; [|congruence].
    rewrite Hcl in Hrel. exact Hrel.
Qed.
Print Assumptions C10_serve_outcomes.

(* Clause 3b.  Serve leaves its loop, with that reason, when its read meets the
   peer's closing tag, a stream error, input the stream reader refuses, or an
   expired read deadline (transports with deadlines: i_rdexp is only ever set
   when the transport supports them) ... *)
Theorem C10_serve_leaves_loop : forall s i k e c via,
  o_sl (s_o s) = None ->
  a_code (s_a s i) = OServeRead :: k ->
  (i_rdexp (s_i s) = true /\ (e, c, via) = (ETimeout, CTimeout, true) \/
   i_rdexp (s_i s) = false /\ exists ev q, i_q (s_i s) = ev :: q /\ terminal ev = Some (e, c, via)) ->
  exists s', run step s [i; i; i] = Some s' /\
    a_code (s_a s' i) = (if via then senderr_code else shutdown_code) /\
    a_e (s_a s' i) = e /\ a_cause (s_a s' i) = c /\ i_lk (s_i s') = false.
Proof.
  intros s i k e c via Hsl Hc H.
  assert (H1 : exists ig, step s i =
            Some (mkS (s_o s) ig (upd (s_a s) i (set_code (s_a s i) [ORelIn; OExit e c via])))).
  { unfold step. rewrite Hc. unfold gate, sl_ok. rewrite Hsl.
    cbn [reads_state writes_conn negb orb andb exec].
    destruct H as [[Hx E]|[Hx (ev & q & Hq & Ht)]]; rewrite Hx.
    - injection E as -> -> ->. eexists. reflexivity.
    - rewrite Hq. destruct ev; try discriminate Ht; injection Ht as <- <- <-; eexists; reflexivity. }
  destruct H1 as [ig H1]. cbn [run]. rewrite H1.
  apply serve_exit_steps. cbn [s_a]. rewrite upd_same. reflexivity.
Qed.
Print Assumptions C10_serve_leaves_loop.

(* ... and once out of its loop it can always run on to its return, provided the
   peer is reading (writes to the connection complete): nothing else it needs
   (the output lock for sendError and Close, the input lock for
   closeInputStream, the state lock) is held forever by anybody, in any
   reachable state. *)
Theorem C10_serve_returns : forall ds ks tr s i,
  run step (init ds ks) tr = Some s ->
  kind_at ks i KServe -> (forall j, j <> i -> ~ kind_at ks j KServe) ->
  loopish (a_code (s_a s i)) = false -> o_rdy (s_o s) = true ->
  exists tr' s' e, run step s tr' = Some s' /\ returned s' i e.
Proof.
  intros ds ks tr s i Hr Hk Honly Hl Hrdy.
  pose proof (roles_run ds ks tr s Hr) as Hroles.
  apply (serve_can_return ds ks tr s i Hr); [| |exact Hl|exact Hrdy].
  - rewrite Hroles. unfold kind_at in Hk. rewrite Hk. reflexivity.
  - intros j Hn. rewrite Hroles. pose proof (Honly j Hn) as Hj. unfold kind_at in Hj.
    destruct (nth_error ks j) as [k|]; [|discriminate].
    destruct k; cbn; try discriminate. exfalso. apply Hj. reflexivity.
Qed.
Print Assumptions C10_serve_returns.

(* Clause 3b'.  The close deadline is state that every SetCloseDeadline call
   replaces — any number of calls, each with a later time, a time already
   passed or the zero time, in any order with everything else; the deadline
   asked for by any of the calls may pass at any moment (OFire j).  In every
   reachable state in which the deadline IN FORCE has not passed (i_passed)
   Serve's read does not time out and its context test does not report a
   deadline, and the peer's closing tag, once read, sends Serve to its shutdown
   with nil ... *)
Theorem C10_deadline_only_in_force : forall ds ks tr s,
  run step (init ds ks) tr = Some s -> i_passed (s_i s) = false ->
  i_rdexp (s_i s) = false /\ ~ (i_done (s_i s) = true /\ i_err (s_i s) = ECtxDeadline) /\
  (forall i k q, a_code (s_a s i) = OServeRead :: k -> i_q (s_i s) = PClose :: q ->
     exists s', run step s [i; i; i] = Some s' /\ a_code (s_a s' i) = shutdown_code /\
                a_e (s_a s' i) = ENil /\ a_cause (s_a s' i) = CPeerClose).
Proof.
  intros ds ks tr s Hr Hp. destruct (ctx_ok_run ds ks tr s Hr) as [H1 H2].
  assert (Hx : i_rdexp (s_i s) = false).
  { destruct (i_rdexp (s_i s)) eqn:E; [|reflexivity]. rewrite (H1 eq_refl) in Hp. discriminate. }
  split; [exact Hx|]. split.
  - intros [A B]. destruct (H2 A) as [[_ P]|C]; congruence.
  - intros i k q Hc Hq.
    destruct (C10_serve_leaves_loop s i k ENil CPeerClose false (state_lock_free ds ks tr s Hr) Hc) as (s' & Hs & A & B & C & _).
    + right. split; [exact Hx|]. exists PClose, q. split; [exact Hq|reflexivity].
    + exists s'. auto.
Qed.
Print Assumptions C10_deadline_only_in_force.

(* ... where "has passed" is raised only by the passing of the deadline of the
   call in force while it is still pending, or by a call whose time has already
   passed; every call makes itself the one in force and resets the flag to what
   it alone says; and a deadline that is not (or no longer) in force passes
   without any effect on the session. *)
Theorem C10_deadline_replaced : 
  (forall s i s', step s i = Some s' -> i_passed (s_i s) = false -> i_passed (s_i s') = true ->
     exists k, (a_code (s_a s i) = OSetDeadline DPast :: k) \/
               (exists j, a_code (s_a s i) = OFire j :: k /\ i_gen (s_i s) = Some j /\ i_armed (s_i s) = true)) /\
  (forall s i m k s', a_code (s_a s i) = OSetDeadline m :: k -> step s i = Some s' ->
     i_gen (s_i s') = Some i /\
     i_passed (s_i s') = (match m with DPast => true | _ => false end) /\
     i_armed (s_i s') = (match m with DFuture => true | _ => false end) /\
     i_rdexp (s_i s') = (match m with DPast => i_dlsup (s_i s) | _ => false end) /\
     i_done (s_i s') = (match m with DPast => true | _ => false end)) /\
  (forall s i j k s', a_code (s_a s i) = OFire j :: k -> i_gen (s_i s) <> Some j -> step s i = Some s' ->
     s_i s' = s_i s /\ s_o s' = s_o s).
Proof.
  split; [|split].
  - intros s i s' H Hp Hp'. destruct (step_shape s i s' H) as (o & k & Hcode & _ & Hi & _). exists k.
    destruct Hi as [ |m ->|j ->|q|b _| ]; cbn in Hp'; try congruence.
    + (* OSetDeadline *) destruct m; cbn in Hp'; try discriminate. left. exact Hcode.
    + (* OFire *) right. exists j. destruct (i_fire_cases j (s_i s)) as [E|(A & B & _)]; [congruence|auto].
  - intros s i m k s' Hc H. unfold step in H. rewrite Hc in H.
    destruct (gate i (OSetDeadline m) (s_o s)); [|discriminate]. cbn [exec] in H. injection H as <-.
    destruct m; cbn; auto.
  - intros s i j k s' Hc Hg H. unfold step in H. rewrite Hc in H.
    destruct (gate i (OFire j) (s_o s)); [|discriminate]. cbn [exec] in H. injection H as <-.
    cbn. destruct (i_fire_cases j (s_i s)) as [->|(A & _)]; [auto|contradiction].
Qed.
Print Assumptions C10_deadline_replaced.

(* Clause 3c.  After the input stream is marked closed a read fails with the
   input-closed error. *)
Theorem C10_read_after_input_closed : forall s i k s',
  i_cl (s_i s) = true -> a_code (s_a s i) = OProbe :: k -> step s i = Some s' ->
  a_e (s_a s' i) = EInClosed.
Proof.
  intros s i k s' Hcl Hc Hs. unfold step in Hs. rewrite Hc in Hs.
  destruct (gate i OProbe (s_o s)); [|discriminate]. cbn [exec] in Hs.
  destruct (i_lk (s_i s)); [discriminate|]. injection Hs as <-. cbn. rewrite upd_same. cbn. rewrite Hcl. reflexivity.
Qed.
Print Assumptions C10_read_after_input_closed.

(* The state lock.  In every reachable state nobody holds the state mutex: its
   critical sections are single operations (they contain nothing that can
   block: C10_source_tables), so no actor ever waits for the peer while holding
   it, and an operation that needs the session state and does not itself write
   to the connection is never kept waiting by it — whatever write is pending,
   whether or not the peer is reading. *)
Theorem C10_state_lock_never_held_across_write : forall ds ks tr s,
  run step (init ds ks) tr = Some s ->
  o_sl (s_o s) = None /\
  (forall i o, reads_state o = true -> writes_conn o (s_o s) = false -> gate i o (s_o s) = true).
Proof.
  intros ds ks tr s H. pose proof (state_lock_free ds ks tr s H) as Hsl. split; [exact Hsl|].
  intros i o Hr Hw. unfold gate, sl_ok. rewrite Hsl, Hw, orb_true_r. reflexivity.
Qed.
Print Assumptions C10_state_lock_never_held_across_write.

(* Serve's state reads — the input context at the top of its loop, the closed
   test of its token reader before every read — are enabled in every reachable
   state, also when the peer is not reading and a closer is stuck in its write
   of the closing tag holding the output lock. *)
Theorem C10_serve_state_reads_never_blocked : forall ds ks tr s i k,
  run step (init ds ks) tr = Some s ->
  (a_code (s_a s i) = OServeTop :: k -> exists s', step s i = Some s') /\
  (a_code (s_a s i) = OServeRead :: k -> i_rdexp (s_i s) = true \/ i_q (s_i s) <> [] ->
     exists s', step s i = Some s').
Proof.
  intros ds ks tr s i k H. destruct (C10_state_lock_never_held_across_write ds ks tr s H) as [_ G]. split.
  - intro Hc. apply (step_defined s i _ k Hc); [apply G|]; reflexivity.
  - intros Hc Hin. apply (step_defined s i _ k Hc); [apply G; reflexivity|]. cbn [blocked].
    destruct Hin as [->|Hin]; [reflexivity|].
    destruct (i_q (s_i s)); [congruence|apply andb_false_r].
Qed.
Print Assumptions C10_serve_state_reads_never_blocked.

(* The pinned design (session.go at the commit of mellium/xmpp this
   verification started from; repaired by d6dbed4): Close and sendError took the state
   mutex after the output lock and kept it while writing the closing tag.  The
   statement "a Serve that has input to read can read it" is false of it:
   witness — the peer stops reading, Close sets the bit and waits in its write
   holding the mutex, the peer's element arrives, Serve waits for the mutex.
   Nobody but the peer can move, and the peer (say, its handler replying to
   what this session sent) waits for Serve to read. *)
Definition C10_state_lock_statement (init0 : state) : Prop := statelock_statement init0.

Theorem C10_state_lock_pinned_refuted : ~ C10_state_lock_statement pinned_init.
Proof.
  intro H. destruct pinned_witness as (s & Hr & _ & _ & _ & _ & _ & _ & _ & Hc & Hq & Hs).
  destruct (H pinned_trace s 0 [] Hr Hc) as [s' Hs']; [rewrite Hq; discriminate|congruence].
Qed.
Print Assumptions C10_state_lock_pinned_refuted.

Theorem C10_state_lock_repaired : forall ds ks, C10_state_lock_statement (init ds ks).
Proof.
  intros ds ks tr s i k Hr Hc Hq.
  exact (proj2 (C10_serve_state_reads_never_blocked ds ks tr s i k Hr) Hc (or_intror Hq)).
Qed.
Print Assumptions C10_state_lock_repaired.

(* Known finding: the stream error that sendError encodes is not flushed before
   closeSession writes the closing tag directly to the connection; it stays in
   the encoder buffer for ever.  The expected statement is false of the
   faithful model (witness: Serve + a handler that fails) ... *)
Definition C10_stream_error_flushed_statement : Prop := stream_error_flushed_statement.

Theorem C10_stream_error_flushed_refuted : ~ C10_stream_error_flushed_statement.
Proof.
  intro H. destruct witness_runs as (s & Hr & Hl & Hb & _).
  apply (H true witness_kinds witness_trace s Hr Hl). rewrite Hb. left. reflexivity.
Qed.
Print Assumptions C10_stream_error_flushed_refuted.

(* ... what holds instead: it is never written behind the closing tag. *)
Theorem C10_stream_error_flushed_partial : forall ds ks tr s pre post,
  run step (init ds ks) tr = Some s -> o_wire (s_o s) = pre ++ IClose :: post -> ~ In IErr post.
Proof.
  intros ds ks tr s pre post Hr E.
  rewrite (proj1 (C10_nothing_after_close ds ks tr s Hr) pre post E). intros [].
Qed.
Print Assumptions C10_stream_error_flushed_partial.

(* The facts of session.go the programs of the model are built from, as read
   from the source on this run; what each conjunct says of the Go code, and
   which modelling choice rests on it, stands over the lemma of Tables.v that
   proves it. *)
Theorem C10_source_tables :
  sc_out_lockers = map str ["Session.Close"; "Session.Encode"; "Session.EncodeElement";
                            "Session.TokenWriter"; "Session.sendError"; "send"]%string /\
  (send_guarded = true /\ encode_guarded = true /\ encodeelement_guarded = true /\
   sc_tw_encodetoken_tests_closed = true /\ sc_tw_flush_tests_closed = true /\
   sc_tr_token_tests_closed = true) /\
  (sc_sets_output_closed = [str "Session.closeSession"] /\
   sc_sets_input_closed = [str "Session.closeInputStream"] /\
   sc_closesession_callers = map str ["Session.Close"; "Session.sendError"]%string) /\
  sc_serve_defer_calls = map str ["closeInputStream"; "Close"]%string /\
  (sc_setclosedeadline_locked = true /\ sc_setclosedeadline_fresh_context = true /\
   sc_setclosedeadline_cancels_previous = true /\ sc_setclosedeadline_zero_is_no_deadline = true) /\
  (sc_send_records_opening_element = true /\ sc_negotiator_records_ws = true /\
   sc_reader_ws_close_is_eof = true) /\
  sc_statelock_blocking_calls = [] /\
  (sv_serve_eof_identity = true /\ sc_serve_reads_context_every_turn = true) /\
  sc_closesession_sets_bit_before_write = true /\
  (sc_writedeadline_cleared_where_expired = true /\ sc_newconn_deadlines_from_prev = true).
Proof.
  split; [exact tbl_out_lockers|]. split.
  - destruct tbl_guards as (_ & A & B & C & D & E). destruct tbl_reader_and_deadline as [F _]. tauto.
  - split; [exact tbl_setters|]. split; [exact tbl_serve_defer|]. split; [exact (conj (proj2 tbl_reader_and_deadline) tbl_setdeadline)|].
    destruct tbl_close_tags as (_ & _ & A). destruct tbl_ws_framing as [B C]. split; [tauto|]. split; [exact tbl_statelock|]. split; [exact tbl_serve_loop|]. split; [exact tbl_closesession_order|exact tbl_transport_deadlines].
Qed.
Print Assumptions C10_source_tables.
