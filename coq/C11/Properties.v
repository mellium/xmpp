(* C11/Properties.v — the property theorems of C11 and nothing else.
   "JIDs are canonical: parse/format round-trips and parts obey the address rules."

   X : ext  is the record of external functions (PRECIS UsernameCaseMapped and
   OpaqueString, IDNA ToUnicode, net.ParseIP); [ext_ok X] are the assumptions
   about them (idempotent on their own output, output valid UTF-8, normalised
   domain and IP literals without '/' and '@', IP literals of 1..1023 bytes).
   Theorems without X hold for all byte strings with no assumption. *)
From XV Require Import lib.Bytes gen.Jid C11.Model C11.Proofs C11.ProofsHeap.

(* splitting: first '/', then first '@' (every byte string, both modes) *)

Theorem C11_split_first_separators : forall safe s,
  split_spec safe s (fst (split_string safe s)) (snd (split_string safe s)).
Proof.
  intros safe s. unfold split_spec, split_string.
  pose proof (cut_spec c_slash s) as C. destruct (cut c_slash s) as [[a b]|].
  - destruct C as [E N]. exists a, b. split; [right; split; assumption|].
    rewrite (proj2 (in_bytes_In c_slash s)), andb_true_r by (rewrite E; apply in_elt).
    destruct (safe && is_nil b).
    + split; reflexivity.
    + exact (split_second safe a b).
  - exists s, []. split; [left; split; [exact C | split; reflexivity]|].
    rewrite (proj2 (in_bytes_false c_slash s) C), andb_false_r.
    exact (split_second safe s []).
Qed.
Print Assumptions C11_split_first_separators.

(* splitting the string form [l@]d[/r] gives back l, d, r *)
Theorem C11_split_of_string_form : forall safe l d r,
  ~ In c_slash l -> ~ In c_at l -> ~ In c_slash d -> (l = [] -> ~ In c_at d) ->
  split_string safe (assemble l d r) = ((l, d, r), ENone).
Proof. exact split_assemble. Qed.
Print Assumptions C11_split_of_string_form.

(* String, the part accessors, Bare, Domain and Equal agree (any JID value,
   including the ones built by NewUnsafe) *)

Theorem C11_accessors_agree : forall j, wf j ->
  let l := localpart j in let d := domainpart j in let r := resourcepart j in
  string_of j = assemble l d r /\ j_data j = l ++ d ++ r /\
  j_ll j = length l /\ j_dl j = length d /\
  (localpart (bare j) = l /\ domainpart (bare j) = d /\ resourcepart (bare j) = []) /\
  (localpart (domain j) = [] /\ domainpart (domain j) = d /\ resourcepart (domain j) = []) /\
  wf (bare j) /\ wf (domain j) /\
  string_of (bare j) = assemble l d [] /\ string_of (domain j) = assemble [] d [].
Proof.
  intros j W. cbv zeta.
  set (l := localpart j). set (d := domainpart j). set (r := resourcepart j).
  assert (E : j = new_unsafe l d r) by exact (wf_nu j W).
  clearbody l d r. subst j.
  rewrite nu_string, nu_bare, nu_domain_jid, !nu_string, !nu_local, !nu_domain, !nu_resource.
  repeat split; try reflexivity; apply nu_wf.
Qed.
Print Assumptions C11_accessors_agree.

Theorem C11_equal_iff_parts : forall j j2, wf j -> wf j2 ->
  (equal j j2 = true <->
   localpart j = localpart j2 /\ domainpart j = domainpart j2 /\ resourcepart j = resourcepart j2).
Proof.
  intros j j2 W W2. rewrite equal_eq. split.
  - intros ->. repeat split.
  - intros (E1 & E2 & E3). rewrite (wf_nu j W), (wf_nu j2 W2), E1, E2, E3. reflexivity.
Qed.
Print Assumptions C11_equal_iff_parts.

Theorem C11_equal_iff_same : forall j j2, wf j -> wf j2 -> (equal j j2 = true <-> j = j2).
Proof. intros j j2 _ _. apply equal_eq. Qed.
Print Assumptions C11_equal_iff_same.

(* NewUnsafe keeps the parts exactly as given (ParseUnsafe as split: Proofs.parse_unsafe_parts) *)
Theorem C11_unsafe_parts : forall l d r,
  wf (new_unsafe l d r) /\ localpart (new_unsafe l d r) = l /\
  domainpart (new_unsafe l d r) = d /\ resourcepart (new_unsafe l d r) = r.
Proof. exact (fun l d r => conj (nu_wf l d r) (conj (nu_local l d r) (conj (nu_domain l d r) (nu_resource l d r)))). Qed.
Print Assumptions C11_unsafe_parts.

(* [returned X j]: j is the zero value or was produced without error by New,
   Parse, WithLocal/WithDomain/WithResource, Bare, Domain, UnmarshalXMLAttr or
   UnmarshalXML, starting from returned values. *)
Theorem C11_returned_canonical : forall X, ext_ok X -> forall j,
  returned X j -> j = zero \/ canon X j.
Proof. exact returned_canonical. Qed.
Print Assumptions C11_returned_canonical.

(* parsing the string form of a canonical address yields an equal address *)
Theorem C11_parse_string_roundtrip : forall X, ext_ok X -> forall j, canon X j ->
  exists j', parse X (string_of j) = Ok j' /\ equal j j' = true /\ equal j' j = true /\
             string_of j' = string_of j.
Proof.
  intros X HX j C. exists j. split; [exact (canon_roundtrip X HX j C)|].
  pose proof (proj2 (equal_eq j j) eq_refl) as E. repeat split; exact E.
Qed.
Print Assumptions C11_parse_string_roundtrip.

Theorem C11_parse_idempotent : forall X, ext_ok X -> forall s j,
  parse X s = Ok j -> parse X (string_of j) = Ok j.
Proof. intros X HX s j H. exact (canon_roundtrip X HX j (parse_returns_canon X HX H)). Qed.
Print Assumptions C11_parse_idempotent.

Theorem C11_string_injective : forall X, ext_ok X -> forall j j2,
  canon X j -> canon X j2 -> string_of j = string_of j2 -> j = j2.
Proof.
  intros X HX j j2 C C2 E. pose proof (canon_roundtrip X HX j C) as R.
  rewrite E, (canon_roundtrip X HX j2 C2) in R. inversion R. reflexivity.
Qed.
Print Assumptions C11_string_injective.

(* normalizeDomainpart is idempotent; this needs EDomainDot (a result that still ends in a dot is
   rejected): without it "x.." would normalise to "x." and that to "x" *)
Theorem C11_domain_normalization_idempotent : forall X, ext_ok X -> forall d d',
  normalize_domain X d = Ok d' -> normalize_domain X d' = Ok d'.
Proof. exact norm_idem. Qed.
Print Assumptions C11_domain_normalization_idempotent.

Theorem C11_parts_wellformed : forall X, ext_ok X -> forall j, canon X j ->
  let l := localpart j in let d := domainpart j in let r := resourcepart j in
  utf8_valid l = true /\ utf8_valid d = true /\ utf8_valid r = true /\
  (nlen l <= 1023)%N /\ (1 <= nlen d <= 1023)%N /\ (nlen r <= 1023)%N /\
  (forall c, In c rfc7622_forbidden_local -> ~ In c l) /\
  ~ In c_slash d /\ ~ In c_at d /\
  j_data j = l ++ d ++ r /\ j_ll j = length l /\ j_dl j = length d.
Proof.
  intros X HX j [W C]. cbv zeta. pose proof C as [F1 U1 LC N F2 U2 RC].
  destruct (local_checks_none _ LC) as [LL LF]. pose proof (resource_checks_none _ RC) as RL.
  destruct (norm_props X HX N) as (NE & DL & NS). apply nosep_iff in NS. destruct NS as [NS1 NS2].
  rewrite tbl_local_max in LL. rewrite tbl_resource_max in RL. rewrite tbl_domain_max in DL.
  destruct (C11_accessors_agree j W) as (_ & E1 & E2 & E3 & _).
  repeat split; try assumption.
  - exact (norm_utf8 X HX N).
  - assert (nlen (domainpart j) <> 0)%N by (intro Z; apply nlen_nil_iff in Z; contradiction). lia.
  - intros c Hc Hl. apply LF in Hl. rewrite tbl_forbidden_is_rfc7622 in Hl.
    apply in_bytes_In in Hc. congruence.
Qed.
Print Assumptions C11_parts_wellformed.

(* the constants of the source are RFC 7622's *)
Theorem C11_tables_are_rfc7622 :
  jid_forbidden_local = rfc7622_forbidden_local /\ jid_local_max = 1023%N /\
  jid_resource_max = 1023%N /\ jid_domain_min = 1%N /\ jid_domain_max = 1023%N.
Proof. exact (conj tbl_forbidden_is_rfc7622 (conj tbl_local_max (conj tbl_resource_max (conj tbl_domain_min tbl_domain_max)))). Qed.
Print Assumptions C11_tables_are_rfc7622.

(* replacing a part of a canonical address (only the new part is validated)
   is the same as rebuilding the address with New from all three parts *)
Theorem C11_with_local_agrees_with_new : forall X, ext_ok X -> forall j x j', canon X j ->
  (with_local X j x = (j', ENone) <-> new X x (domainpart j) (resourcepart j) = Ok j').
Proof. exact with_local_agrees. Qed.
Print Assumptions C11_with_local_agrees_with_new.

Theorem C11_with_domain_agrees_with_new : forall X j x j', canon X j ->
  (with_domain X j x = (j', ENone) <-> new X (localpart j) x (resourcepart j) = Ok j').
Proof. exact with_domain_agrees. Qed.
Print Assumptions C11_with_domain_agrees_with_new.

Theorem C11_with_resource_agrees_with_new : forall X, ext_ok X -> forall j x j', canon X j ->
  (with_resource X j x = (j', ENone) <-> new X (localpart j) (domainpart j) x = Ok j').
Proof. exact with_resource_agrees. Qed.
Print Assumptions C11_with_resource_agrees_with_new.

Theorem C11_new_by_replacement : forall X, ext_ok X -> forall l d r j,
  (new X l d r = Ok j <->
   exists j0 j1, new X [] d [] = Ok j0 /\ with_local X j0 l = (j1, ENone) /\
                 with_resource X j1 r = (j, ENone)) /\
  (new X l d r = Ok j <->
   exists j0 j1, new X [] d [] = Ok j0 /\ with_resource X j0 r = (j1, ENone) /\
                 with_local X j1 l = (j, ENone)).
Proof.
  intros X HX l d r j. rewrite new_ok_iff. setoid_rewrite new_nil_iff.
  (* either way the steps validate l and r and keep the normalised domainpart d' *)
  split; split.
  - (* local then resource, from New *) intros (l' & VL & d' & N & r' & VR & ->). pose proof (proj1 (norm_props X HX N)) as D.
    exists (new_unsafe [] d' []), (new_unsafe l' d' []). split; [exists d'; auto|].
    rewrite (with_local_ok X D), (with_resource_ok X D). split; [exists l' | exists r']; auto.
  - (* local then resource, to New *)
    intros (j0 & j1 & (d' & N & ->) & H1 & H2). pose proof (proj1 (norm_props X HX N)) as D.
    apply (with_local_ok X D) in H1. destruct H1 as (l' & VL & ->).
    apply (with_resource_ok X D) in H2. destruct H2 as (r' & VR & ->).
    eauto 7.
  - (* resource then local, from New *)
    intros (l' & VL & d' & N & r' & VR & ->). pose proof (proj1 (norm_props X HX N)) as D.
    exists (new_unsafe [] d' []), (new_unsafe [] d' r'). split; [exists d'; auto|].
    rewrite (with_resource_ok X D), (with_local_ok X D). split; [exists r' | exists l']; auto.
  - (* resource then local, to New *)
    intros (j0 & j1 & (d' & N & ->) & H1 & H2). pose proof (proj1 (norm_props X HX N)) as D.
    apply (with_resource_ok X D) in H1. destruct H1 as (r' & VR & ->).
    apply (with_local_ok X D) in H2. destruct H2 as (l' & VL & ->).
    eauto 7.
Qed.
Print Assumptions C11_new_by_replacement.

Theorem C11_new_parse_agree : forall X l d r,
  ~ In c_slash l -> ~ In c_at l -> ~ In c_slash d -> (l = [] -> ~ In c_at d) ->
  parse X (assemble l d r) = new X l d r.
Proof.
  intros X l d r A B C D. unfold parse. rewrite (split_assemble true l d r A B C D). reflexivity.
Qed.
Print Assumptions C11_new_parse_agree.

Theorem C11_xml_attr_roundtrip : forall X, ext_ok X -> forall j j0,
  returned X j -> unmarshal_attr X j0 (marshal_attr j) = (j, ENone).
Proof.
  intros X HX j j0 R.
  destruct (returned_canonical X HX j R) as [->|C]; [reflexivity | exact (attr_roundtrip X HX j j0 C)].
Qed.
Print Assumptions C11_xml_attr_roundtrip.

(* full statement for elements: false for the zero value (known finding) *)
Definition C11_xml_element_roundtrip_statement : Prop := xml_element_roundtrip_statement.

Theorem C11_xml_element_roundtrip_partial : forall X, ext_ok X -> forall j j0,
  returned X j -> j <> zero -> unmarshal_xml X j0 (marshal_xml j) = (j, ENone).
Proof.
  intros X HX j j0 R NZ.
  destruct (returned_canonical X HX j R) as [E|C]; [contradiction | exact (elem_roundtrip X HX j j0 C)].
Qed.
Print Assumptions C11_xml_element_roundtrip_partial.

Theorem C11_xml_element_roundtrip_refuted :
  exists X, ext_ok X /\ exists j j0, returned X j /\ unmarshal_xml X j0 (marshal_xml j) <> (j, ENone).
Proof. exact xml_element_zero_refuted. Qed.
Print Assumptions C11_xml_element_roundtrip_refuted.

(* The theorems above are about values.  Go JIDs hold slices: Bare, Domain,
   Copy, WithResource("") and assignment share one backing array between
   several values, and append writes in place when the capacity suffices.  The
   heap layer of Model.v runs every function as a transition on a heap of
   arrays (make, copy, append, reslice as in the source), for EVERY capacity
   policy [slack].  [h_run X slack st0 prog] runs a program: every call puts
   its result in a new register; [views st] are the addresses all registers
   denote now. *)

(* one call, from any valid state: every array that existed is unchanged, the
   result is valid, and it denotes what the value-level function computes *)
Theorem C11_call_writes_only_fresh_arrays : forall X slack st o, st_ok st ->
  op_spec (st_heap st) (h_call X slack st o) (v_call X (views st) o).
Proof. exact h_call_spec. Qed.
Print Assumptions C11_call_writes_only_fresh_arrays.

(* every history computes, register by register, the value-level program: the
   value-level theorems apply to every value of every history *)
Theorem C11_history_refines_values : forall X slack prog,
  let st := h_run X slack st0 prog in
  (views st, st_errs st) = v_run X ([], []) prog.
Proof.
  intros X slack prog. destruct (h_run_spec X slack prog st0 st0_ok) as (_ & _ & E & _). exact E.
Qed.
Print Assumptions C11_history_refines_values.

(* no later call, on any value, changes a value returned earlier *)
Theorem C11_results_independent_of_later_calls : forall X slack pre post,
  let st := h_run X slack st0 pre in
  let st' := h_run X slack st post in
  pres (st_heap st) (st_heap st') /\
  forall i, i < length (st_regs st) ->
    hreg st' i = hreg st i /\ view (st_heap st') (hreg st' i) = view (st_heap st) (hreg st i).
Proof.
  intros X slack pre post.
  destruct (h_run_spec X slack pre st0 st0_ok) as (OK & _).
  destruct (h_run_spec X slack post _ OK) as (_ & P & _ & [more R]).
  split; [exact P|]. intros i Hi.
  assert (E : hreg (h_run X slack (h_run X slack st0 pre) post) i = hreg (h_run X slack st0 pre) i).
  { unfold hreg. rewrite R. apply app_nth1. exact Hi. }
  split; [exact E|]. rewrite E.
  apply (pres_hvalid _ _ _ P). apply hreg_valid. exact OK.
Qed.
Print Assumptions C11_results_independent_of_later_calls.

(* canonical for ever: a register produced without error by the validating API
   (from such registers) denotes the zero value or a canonical address at the
   end of every history, whatever was called after it *)
Theorem C11_history_values_canonical : forall X, ext_ok X -> forall slack prog,
  let st := h_run X slack st0 prog in
  forall k, nth k (clean_from [] prog (st_errs st)) true = true ->
    view (st_heap st) (hreg st k) = zero \/ canon X (view (st_heap st) (hreg st k)).
Proof.
  intros X HX slack prog st k Hk. subst st.
  pose proof (C11_history_refines_values X slack prog) as E. cbv zeta in E.
  destruct (v_run_returned X prog [] [] [] (Forall2_nil _)) as [more [E1 R]].
  rewrite <- E in E1, R. cbn [fst snd app] in E1, R. rewrite E1 in Hk.
  rewrite hreg_view. apply (returned_canonical X HX). exact (all_returned_nth X _ _ k R Hk).
Qed.
Print Assumptions C11_history_values_canonical.

(* the fact of the source the heap layer rests on, re-read on every run: every
   slice the package writes through is made in the same function, and the
   functions that write are the ones modelled with writes *)
Theorem C11_write_sites_are_fresh :
  forallb (fun s => match snd s with WFresh => true | WShared => false end) jid_write_sites = true /\
  jid_writers = [str "New"; str "WithLocal"; str "WithDomain"; str "WithResource"; str "NewUnsafe"].
Proof. split; vm_compute; reflexivity. Qed.
Print Assumptions C11_write_sites_are_fresh.
