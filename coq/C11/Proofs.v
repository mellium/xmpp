(* C11/Proofs.v — [cut] and splitString; the normal form [new_unsafe l d r] of a
   well-formed record, with one equation per accessor; when New and With* succeed ([valid_part],
   [new_ok_iff], [with_*_ok]); canonical addresses and the round trip ([canon], [canon_roundtrip]);
   what the package returns ([returned]); a concrete instance [toy] of the external functions. *)
From XV Require Import lib.Bytes lib.ListAux gen.Jid C11.Model.

(* facts about the tables of gen/Jid.v, re-checked whenever the translator rewrites it *)

Definition rfc7622_forbidden_local : bytes := str """&'/:<>@".

Lemma tbl_forbidden_is_rfc7622 : jid_forbidden_local = rfc7622_forbidden_local.
Proof. vm_compute. reflexivity. Qed.

Lemma tbl_local_max : jid_local_max = 1023%N.
Proof. vm_compute. reflexivity. Qed.
Lemma tbl_resource_max : jid_resource_max = 1023%N.
Proof. vm_compute. reflexivity. Qed.
Lemma tbl_domain_min : jid_domain_min = 1%N.
Proof. vm_compute. reflexivity. Qed.
Lemma tbl_domain_max : jid_domain_max = 1023%N.
Proof. vm_compute. reflexivity. Qed.

Lemma is_nil_true {A} (l : list A) : is_nil l = true <-> l = [].
Proof. destruct l; simpl; split; congruence. Qed.

Lemma is_nil_false {A} (l : list A) : is_nil l = false <-> l <> [].
Proof. destruct l; simpl; split; congruence. Qed.

Lemma ex_one {A} (a : A) (P : A -> Prop) : (exists y, y = a /\ P y) <-> P a.
Proof. split; [intros (y & -> & H); exact H | intro H; exists a; auto]. Qed.

Lemma nlen_nil_iff (s : bytes) : (nlen s = 0)%N <-> s = [].
Proof. unfold nlen. destruct s; simpl; split; intro H; try reflexivity; try discriminate; lia. Qed.

Lemma cut_spec c s :
  match cut c s with
  | Some (a, b) => s = a ++ c :: b /\ ~ In c a
  | None => ~ In c s
  end.
Proof.
  induction s as [|x s IH]; simpl; [intros []|].
  destruct (byte_eqb x c) eqn:E.
  - apply byte_eqb_eq in E. subst x. split; [reflexivity | intros []].
  - apply byte_eqb_neq in E. destruct (cut c s) as [[a b]|].
    + destruct IH as [E1 N]. subst s. split; [reflexivity|]. intros [F|F]; [exact (E F) | exact (N F)].
    + intros [F|F]; [exact (E F) | exact (IH F)].
Qed.

Lemma cut_app c a b : ~ In c a -> cut c (a ++ c :: b) = Some (a, b).
Proof.
  induction a as [|x a IH]; intro H; simpl.
  - rewrite byte_eqb_refl. reflexivity.
  - destruct (byte_eqb x c) eqn:E.
    + apply byte_eqb_eq in E. exfalso. apply H. left. exact E.
    + rewrite IH; [reflexivity|]. intro F. apply H. right. exact F.
Qed.

Lemma cut_notin c s : ~ In c s -> cut c s = None.
Proof.
  intro H. pose proof (cut_spec c s) as C. destruct (cut c s) as [[a b]|]; [|reflexivity].
  destruct C as [-> _]. destruct H. apply in_elt.
Qed.

(* The string form: [l "@"] d ["/" r]. *)
Definition assemble (l d r : bytes) : bytes :=
  (if is_nil l then d else l ++ c_at :: d) ++ (if is_nil r then [] else c_slash :: r).

(* RFC 7622 §3.2 as a relation: cut at the first '/', then cut what is before
   it at the first '@'; in safe mode an empty resourcepart after a '/' and an
   empty localpart before an '@' are errors. *)
Definition split_spec (safe : bool) (s : bytes) (p : bytes * bytes * bytes) (e : jerr) : Prop :=
  exists s1 r,
    ((~ In c_slash s /\ s1 = s /\ r = []) \/ (s = s1 ++ c_slash :: r /\ ~ In c_slash s1)) /\
    (if safe && in_bytes c_slash s && is_nil r then p = ([], [], []) /\ e = ENoRes
     else (~ In c_at s1 /\ p = ([], s1, r) /\ e = ENone) \/
          (exists a b, s1 = a ++ c_at :: b /\ ~ In c_at a /\
             if safe && is_nil a then p = ([], [], r) /\ e = ENoLocal
             else p = (a, b, r) /\ e = ENone)).

(* what [split_string] does once the '/' is dealt with: the text of its last branch, so the two
   convert *)
Definition split2 (safe : bool) (s1 r : bytes) : (bytes * bytes * bytes) * jerr :=
  match cut c_at s1 with
  | None => (([], s1, r), ENone)
  | Some (a, b) => if safe && is_nil a then (([], [], r), ENoLocal) else ((a, b, r), ENone)
  end.

Lemma split_second safe s1 r :
  (~ In c_at s1 /\ fst (split2 safe s1 r) = ([], s1, r) /\ snd (split2 safe s1 r) = ENone) \/
  (exists a b, s1 = a ++ c_at :: b /\ ~ In c_at a /\
     if safe && is_nil a then fst (split2 safe s1 r) = ([], [], r) /\ snd (split2 safe s1 r) = ENoLocal
     else fst (split2 safe s1 r) = (a, b, r) /\ snd (split2 safe s1 r) = ENone).
Proof.
  unfold split2. pose proof (cut_spec c_at s1) as C. destruct (cut c_at s1) as [[a b]|].
  - right. exists a, b. destruct C as [E N]. split; [exact E|]. split; [exact N|].
    destruct (safe && is_nil a); split; reflexivity.
  - left. split; [exact C|]. split; reflexivity.
Qed.

Lemma split_assemble safe l d r :
  ~ In c_slash l -> ~ In c_at l -> ~ In c_slash d -> (l = [] -> ~ In c_at d) ->
  split_string safe (assemble l d r) = ((l, d, r), ENone).
Proof.
  intros Hl1 Hl2 Hd1 Hd2. unfold split_string, assemble.
  set (h := if is_nil l then d else l ++ c_at :: d).
  assert (Hh : ~ In c_slash h).
  { unfold h. destruct l as [|x l]; cbn [is_nil]; [exact Hd1|].
    intro F. apply in_app_or in F. destruct F as [F|[F|F]]; [exact (Hl1 F) | discriminate F | exact (Hd1 F)]. }
  assert (Hcut : split2 safe h r = ((l, d, r), ENone)).
  { unfold split2, h. destruct l as [|x l]; cbn [is_nil].
    - rewrite (cut_notin c_at d (Hd2 eq_refl)). reflexivity.
    - rewrite (cut_app c_at (x :: l) d Hl2). cbn [is_nil]. rewrite andb_false_r. reflexivity. }
  destruct r as [|y r]; cbn [is_nil].
  - rewrite app_nil_r, (cut_notin c_slash h Hh). exact Hcut.
  - rewrite (cut_app c_slash h (y :: r) Hh). cbn [is_nil]. rewrite andb_false_r. exact Hcut.
Qed.

Definition wf (j : jid) : Prop := j_ll j + j_dl j <= length (j_data j).

Lemma nu_local l d r : localpart (new_unsafe l d r) = l.
Proof. unfold localpart, new_unsafe; cbn [j_ll j_data]. apply firstn_app_exact. Qed.

Lemma nu_domain l d r : domainpart (new_unsafe l d r) = d.
Proof. unfold domainpart, new_unsafe; cbn [j_ll j_dl j_data]. rewrite skipn_app_exact. apply firstn_app_exact. Qed.

Lemma nu_resource l d r : resourcepart (new_unsafe l d r) = r.
Proof.
  unfold resourcepart, new_unsafe; cbn [j_ll j_dl j_data].
  rewrite app_assoc, <- app_length. apply skipn_app_exact.
Qed.

Lemma nu_wf l d r : wf (new_unsafe l d r).
Proof. unfold wf, new_unsafe; cbn [j_ll j_dl j_data]. rewrite !app_length. lia. Qed.

Lemma wf_nu j : wf j -> j = new_unsafe (localpart j) (domainpart j) (resourcepart j).
Proof.
  destruct j as [data ll dl]. unfold wf, new_unsafe, localpart, domainpart, resourcepart; cbn [j_ll j_dl j_data].
  intro H.
  assert (E : firstn ll data ++ firstn dl (skipn ll data) ++ skipn (ll + dl) data = data).
  { rewrite skipn_add. rewrite firstn_skipn. apply firstn_skipn. }
  rewrite E. f_equal.
  - rewrite firstn_length. lia.
  - rewrite firstn_length, skipn_length. lia.
Qed.

Lemma nu_bare l d r : bare (new_unsafe l d r) = new_unsafe l d [].
Proof.
  unfold bare, new_unsafe; cbn [j_ll j_dl j_data]. f_equal.
  rewrite (Nat.add_comm (length d) (length l)), <- app_length, app_assoc, firstn_app_exact.
  rewrite app_nil_r. reflexivity.
Qed.

Lemma nu_domain_jid l d r : domain (new_unsafe l d r) = new_unsafe [] d [].
Proof.
  unfold domain, new_unsafe; cbn [j_ll j_dl j_data]. rewrite skipn_app_exact, firstn_app_exact.
  simpl. rewrite app_nil_r. reflexivity.
Qed.

Lemma nu_string l d r : string_of (new_unsafe l d r) = assemble l d r.
Proof.
  unfold string_of. rewrite nu_local, nu_domain, nu_resource.
  unfold new_unsafe, assemble; cbn [j_ll j_dl j_data].
  (* the length test of String() holds exactly when there is no resourcepart *)
  assert (E : forall s n, length s = length l + length d + n ->
    (if negb (length s =? length (l ++ d ++ r) + n) then s ++ c_slash :: r else s)
    = s ++ (if is_nil r then [] else c_slash :: r)).
  { intros s n H. rewrite !app_length, H. destruct r as [|y r]; cbn [is_nil length].
    - rewrite (proj2 (Nat.eqb_eq _ _)) by lia. symmetry. apply app_nil_r.
    - rewrite (proj2 (Nat.eqb_neq _ _)) by lia. reflexivity. }
  destruct l as [|x l]; cbn [length Nat.ltb Nat.leb is_nil]; apply E; [|rewrite app_length]; simpl; lia.
Qed.

Lemma equal_eq j j2 : equal j j2 = true <-> j = j2.
Proof.
  destruct j as [a m n], j2 as [a2 m2 n2]. unfold equal; cbn [j_data j_ll j_dl]. split.
  - destruct (length a =? length a2); [|discriminate]. cbn [negb].
    rewrite !andb_true_iff, bytes_eqb_eq, !Nat.eqb_eq. intros [[-> ->] ->]. reflexivity.
  - intro E. inversion E. rewrite !Nat.eqb_refl, bytes_eqb_refl. reflexivity.
Qed.

Lemma parse_unsafe_parts s :
  let '(l, d, r) := fst (split_string false s) in
  localpart (fst (parse_unsafe s)) = l /\ domainpart (fst (parse_unsafe s)) = d /\
  resourcepart (fst (parse_unsafe s)) = r.
Proof.
  unfold parse_unsafe. destruct (split_string false s) as [[[l d] r] e]. cbn [fst].
  rewrite nu_local, nu_domain, nu_resource. repeat split.
Qed.

Lemma nosep_iff s : nosep s = true <-> ~ In c_slash s /\ ~ In c_at s.
Proof.
  unfold nosep. rewrite andb_true_iff, !negb_true_iff, !in_bytes_false. reflexivity.
Qed.

Lemma bracket_inner_some d i : bracket_inner d = Some i -> d = c_lbr :: i ++ [c_rbr].
Proof.
  unfold bracket_inner. destruct d as [|x rest]; [discriminate|].
  destruct (byte_eqb x c_lbr) eqn:E1; [|discriminate]. apply byte_eqb_eq in E1. subst x.
  destruct (rev rest) as [|y ri] eqn:ER; [discriminate|].
  destruct (byte_eqb y c_rbr) eqn:E2; simpl; [|discriminate]. apply byte_eqb_eq in E2. subst y.
  destruct (negb (is_nil ri)); [|discriminate]. intro H. inversion H; subst i.
  f_equal. rewrite <- (rev_involutive rest), ER. reflexivity.
Qed.

Lemma trim_dot_noop d : ends_dot d = false -> trim_dot d = d.
Proof.
  unfold ends_dot, trim_dot. destruct (rev d) as [|y ri]; [reflexivity|].
  intro H. rewrite H. reflexivity.
Qed.

Lemma local_checks_none l : local_checks l = ENone ->
  (nlen l <= jid_local_max)%N /\ (forall c, In c l -> in_bytes c jid_forbidden_local = false).
Proof.
  unfold local_checks. destruct (jid_local_max <? nlen l)%N eqn:E1; [discriminate|].
  destruct (existsb (fun c => in_bytes c jid_forbidden_local) l) eqn:E2; [discriminate|].
  intros _. split; [apply N.ltb_ge in E1; exact E1|].
  intros c Hc. destruct (in_bytes c jid_forbidden_local) eqn:F; [|reflexivity].
  rewrite <- E2. symmetry. apply existsb_exists. exists c. split; assumption.
Qed.

Lemma local_checks_nosep l : local_checks l = ENone -> ~ In c_slash l /\ ~ In c_at l.
Proof.
  intro H. destruct (local_checks_none l H) as [_ F].
  (* '/' and '@' are in the forbidden set of the source *)
  split; intro I; apply F in I; vm_compute in I; discriminate I.
Qed.

Lemma resource_checks_none r : resource_checks r = ENone -> (nlen r <= jid_resource_max)%N.
Proof.
  unfold resource_checks. destruct (jid_resource_max <? nlen r)%N eqn:E; [discriminate|].
  intros _. apply N.ltb_ge in E. exact E.
Qed.

Lemma local_checks_nil : local_checks [] = ENone.
Proof. vm_compute. reflexivity. Qed.

Lemma resource_checks_nil : resource_checks [] = ENone.
Proof. vm_compute. reflexivity. Qed.

Lemma assemble_nonnil l d r : d <> [] -> is_nil (assemble l d r) = false.
Proof.
  intro H. unfold assemble. destruct l as [|x l]; simpl.
  - destruct d; [congruence | reflexivity].
  - reflexivity.
Qed.

Record ext_ok (X : ext) : Prop := mk_ext_ok {
  H_user_idem : forall x y, utf8_valid x = true -> x_user X x = Some y -> y <> [] -> x_user X y = Some y;
  H_user_utf8 : forall x y, utf8_valid x = true -> x_user X x = Some y -> utf8_valid y = true;
  H_opaque_idem : forall x y, utf8_valid x = true -> x_opaque X x = Some y -> y <> [] -> x_opaque X y = Some y;
  H_opaque_utf8 : forall x y, utf8_valid x = true -> x_opaque X x = Some y -> utf8_valid y = true;
  H_idna_idem : forall d y, utf8_valid d = true -> x_idna X (trim_dot d) = Some y -> x_idna X y = Some y;
  H_idna_utf8 : forall d y, utf8_valid d = true -> x_idna X (trim_dot d) = Some y -> utf8_valid y = true;
  H_idna_nosep : forall d y, utf8_valid d = true -> x_idna X (trim_dot d) = Some y -> nosep y = true;
  H_ip4_nosep : forall x, x_ip4 X x = true -> nosep x = true;
  H_ip4_len : forall x, x_ip4 X x = true -> x <> [] /\ (nlen x <= jid_domain_max)%N;
  H_ip6_nosep : forall x, x_ip6 X x = true -> nosep x = true;
  H_ip6_len : forall x, x_ip6 X x = true -> (nlen x + 2 <= jid_domain_max)%N }.

Definition fixed (f : bytes -> option bytes) (p : bytes) : Prop := p = [] \/ f p = Some p.

Lemma fixed_norm_part f p : fixed f p -> norm_part f p = Some p.
Proof.
  unfold norm_part. intros [E|E]; [subst; reflexivity|]. destruct p; [reflexivity | exact E].
Qed.

(* what New asks of a localpart or resourcepart p; p' is the part it stores *)
Definition valid_part (f : bytes -> option bytes) (chk : bytes -> jerr) (p p' : bytes) : Prop :=
  utf8_valid p = true /\ norm_part f p = Some p' /\ chk p' = ENone.

Lemma valid_part_fixed {f chk p} p' : fixed f p -> utf8_valid p = true -> chk p = ENone ->
  (valid_part f chk p p' <-> p' = p).
Proof.
  intros F U C. unfold valid_part. rewrite (fixed_norm_part f p F). split.
  - intros (_ & E & _). inversion E. reflexivity.
  - intros ->. split; [exact U | split; [reflexivity | exact C]].
Qed.

Lemma valid_part_nil {f chk p'} : chk [] = ENone -> (valid_part f chk [] p' <-> p' = []).
Proof. exact (valid_part_fixed p' (or_introl eq_refl) eq_refl). Qed.

(* the two premises are the [H_*_idem] and [H_*_utf8] fields of [ext_ok] for the profile f *)
Lemma valid_part_out {f chk p p'} :
  (forall x y, utf8_valid x = true -> f x = Some y -> y <> [] -> f y = Some y) ->
  (forall x y, utf8_valid x = true -> f x = Some y -> utf8_valid y = true) ->
  valid_part f chk p p' -> fixed f p' /\ utf8_valid p' = true /\ chk p' = ENone.
Proof.
  unfold norm_part. intros Idem Utf (U & H & C). destruct p as [|b p]; cbn [is_nil] in H.
  - inversion H; subst p'. split; [left; reflexivity | split; [reflexivity | exact C]].
  - split; [|split; [exact (Utf _ _ U H) | exact C]].
    destruct p' as [|c p']; [left; reflexivity|]. right. apply (Idem _ _ U H). discriminate.
Qed.

Lemma norm_err_ne X d : normalize_domain X d <> Er ENone.
Proof.
  unfold normalize_domain.
  destruct (negb (utf8_valid d)); [discriminate|].
  destruct (match bracket_inner d with Some i => x_ip6 X i | None => false end); [discriminate|].
  destruct (x_ip4 X d); [discriminate|].
  destruct (x_idna X (trim_dot d)) as [d2|]; [|discriminate].
  destruct ((nlen d2 <? jid_domain_min) || (jid_domain_max <? nlen d2))%N; [discriminate|].
  destruct (ends_dot d2); discriminate.
Qed.

(* the three ways a domainpart is accepted *)
Inductive norm_case (X : ext) (d d' : bytes) : Prop :=
| norm_ip6 i (B : bracket_inner d = Some i) (I6 : x_ip6 X i = true) (E : d' = d)
| norm_ip4 (I4 : x_ip4 X d = true) (E : d' = d)
| norm_idna (I : x_idna X (trim_dot d) = Some d') (L1 : (jid_domain_min <= nlen d')%N)
    (L2 : (nlen d' <= jid_domain_max)%N) (ED : ends_dot d' = false).

Lemma norm_ok_cases X d d' : normalize_domain X d = Ok d' -> utf8_valid d = true /\ norm_case X d d'.
Proof.
  unfold normalize_domain. destruct (utf8_valid d); cbn [negb]; [|discriminate].
  intro H. split; [reflexivity|].
  destruct (match bracket_inner d with Some i => x_ip6 X i | None => false end) eqn:B.
  - destruct (bracket_inner d) as [i|] eqn:Bi; [|discriminate].
    injection H as <-. exact (norm_ip6 _ _ _ i Bi B eq_refl).
  - destruct (x_ip4 X d) eqn:I4; [injection H as <-; exact (norm_ip4 _ _ _ I4 eq_refl)|].
    destruct (x_idna X (trim_dot d)) as [d2|] eqn:I; [|discriminate].
    destruct ((nlen d2 <? jid_domain_min) || (jid_domain_max <? nlen d2))%N eqn:L; [discriminate|].
    destruct (ends_dot d2) eqn:ED; [discriminate|]. injection H as ->.
    apply orb_false_iff in L. destruct L as [L1 L2]. apply N.ltb_ge in L1, L2.
    exact (norm_idna _ _ _ I L1 L2 ED).
Qed.

(* the quantifiers are nested part by part, so that a part whose validation is known to be an
   equality is eliminated by [ex_one] *)
Lemma new_ok_iff X l d r j : new X l d r = Ok j <->
  exists l', valid_part (x_user X) local_checks l l' /\ exists d', normalize_domain X d = Ok d' /\
  exists r', valid_part (x_opaque X) resource_checks r r' /\ j = new_unsafe l' d' r'.
Proof.
  unfold new, valid_part. split.
  - destruct (utf8_valid l), (utf8_valid r); cbn [negb orb]; try discriminate.
    destruct (normalize_domain X d) as [d'|]; [|discriminate].
    destruct (norm_part (x_user X) l) as [l'|]; [|discriminate].
    destruct (norm_part (x_opaque X) r) as [r'|]; [|discriminate].
    destruct (local_checks l') eqn:LC; try discriminate.
    destruct (resource_checks r') eqn:RC; try discriminate.
    intro H. inversion H. exists l'. split; [auto|]. exists d'. split; [reflexivity|]. exists r'. auto.
  - intros (l' & (U1 & EL & LC) & d' & N & r' & (U2 & ER & RC) & E).
    rewrite U1, U2, N, EL, ER, LC, RC. subst j. reflexivity.
Qed.

Lemma new_err_not_none X l d r : new X l d r <> Er ENone.
Proof.
  unfold new. destruct (negb (utf8_valid l) || negb (utf8_valid r)); [discriminate|].
  pose proof (norm_err_ne X d) as N. destruct (normalize_domain X d) as [d'|e]; [|congruence].
  destruct (norm_part (x_user X) l) as [l'|]; [|discriminate].
  destruct (norm_part (x_opaque X) r) as [r'|]; [|discriminate].
  destruct (local_checks l'); try discriminate. destruct (resource_checks r'); discriminate.
Qed.

Lemma parse_err_not_none X s : parse X s <> Er ENone.
Proof.
  unfold parse. destruct (split_string true s) as [[[l d] r] e].
  destruct e; try discriminate. apply new_err_not_none.
Qed.

Lemma unmarshal_attr_ok X {j0 v j} : unmarshal_attr X j0 v = (j, ENone) -> j = zero \/ parse X v = Ok j.
Proof.
  unfold unmarshal_attr. destruct (is_nil v); [intro H; inversion H; left; reflexivity|].
  destruct (parse X v) as [j1|e]; intro H; inversion H; [right | left]; reflexivity.
Qed.

Lemma unmarshal_xml_ok X {j0 cd j} : unmarshal_xml X j0 cd = (j, ENone) -> parse X cd = Ok j.
Proof.
  unfold unmarshal_xml. pose proof (parse_err_not_none X cd) as NE.
  destruct (parse X cd) as [j1|e]; intro H; inversion H; congruence.
Qed.

(* WithLocal and WithResource have one shape: an empty part is taken as it
   is, a non-empty one needs a domainpart (of length dl) and is validated;
   [mk p'] is the result with the new part p', [old] what comes with an error *)
Definition replace_part (f : bytes -> option bytes) (chk : bytes -> jerr) (dl : nat)
    (mk : bytes -> jid) (old : jid) (x : bytes) : jid * jerr :=
  if is_nil x then (mk [], ENone)
  else if dl =? 0 then (old, EDomainLen)
  else if negb (utf8_valid x) then (old, EUtf8)
  else match f x with
       | None => (old, EPrecis)
       | Some p' => (mk p', chk p')
       end.

Lemma replace_part_ok {f chk dl} mk old x j' : dl <> 0 -> chk [] = ENone ->
  (replace_part f chk dl mk old x = (j', ENone) <-> exists p', valid_part f chk x p' /\ j' = mk p').
Proof.
  intros D C0. unfold replace_part, valid_part, norm_part.
  destruct x as [|b x]; cbn [is_nil].
  - split.
    + intro H. inversion H. exists []. repeat split. exact C0.
    + intros (p' & (_ & E & _) & ->). inversion E. reflexivity.
  - rewrite (proj2 (Nat.eqb_neq dl 0) D).
    destruct (utf8_valid (b :: x)); cbn [negb];
      [|split; [discriminate | intros (p' & (U & _) & _); discriminate]].
    destruct (f (b :: x)) as [p'|]; [|split; [discriminate | intros (p' & (_ & E & _) & _); discriminate]].
    split.
    + intro H. inversion H as [[E1 E2]]. exists p'. repeat split; assumption.
    + intros (p2 & (_ & E & C) & ->). inversion E; subst p2. rewrite C. reflexivity.
Qed.

Lemma with_local_nu X jl jd jr x :
  with_local X (new_unsafe jl jd jr) x =
  replace_part (x_user X) local_checks (length jd) (fun l' => new_unsafe l' jd jr) (new_unsafe jl jd jr) x.
Proof.
  unfold with_local, new_unsafe; cbn [j_ll j_dl j_data]. rewrite skipn_app_exact. reflexivity.
Qed.

Lemma with_resource_nu X jl jd jr x :
  with_resource X (new_unsafe jl jd jr) x =
  replace_part (x_opaque X) resource_checks (length jd) (fun r' => new_unsafe jl jd r') zero x.
Proof.
  unfold with_resource, replace_part. cbv zeta. rewrite nu_bare.
  unfold new_unsafe; cbn [j_ll j_dl j_data].
  destruct (is_nil x); [reflexivity|].
  destruct (length jd =? 0); [reflexivity|].
  destruct (negb (utf8_valid x)); [reflexivity|].
  destruct (x_opaque X x) as [r'|]; [|reflexivity].
  rewrite app_nil_r, <- app_assoc. reflexivity.
Qed.

Lemma with_domain_nu X jl jd jr x :
  with_domain X (new_unsafe jl jd jr) x =
    match normalize_domain X x with
    | Er e => (new_unsafe jl jd jr, e)
    | Ok d' => (new_unsafe jl d' jr, ENone)
    end.
Proof.
  unfold with_domain, new_unsafe; cbn [j_ll j_dl j_data].
  rewrite firstn_app_exact, skipn_add, !skipn_app_exact. reflexivity.
Qed.

Lemma length_nonnil {A} (l : list A) : l <> [] -> length l <> 0.
Proof. destruct l; [congruence | discriminate]. Qed.

Lemma with_local_ok X {jl jd jr x j'} : jd <> [] ->
  (with_local X (new_unsafe jl jd jr) x = (j', ENone) <->
   exists l', valid_part (x_user X) local_checks x l' /\ j' = new_unsafe l' jd jr).
Proof.
  intro D. rewrite with_local_nu. exact (replace_part_ok _ _ x j' (length_nonnil jd D) local_checks_nil).
Qed.

Lemma with_resource_ok X {jl jd jr x j'} : jd <> [] ->
  (with_resource X (new_unsafe jl jd jr) x = (j', ENone) <->
   exists r', valid_part (x_opaque X) resource_checks x r' /\ j' = new_unsafe jl jd r').
Proof.
  intro D. rewrite with_resource_nu. exact (replace_part_ok _ _ x j' (length_nonnil jd D) resource_checks_nil).
Qed.

Lemma with_domain_ok X jl jd jr x j' :
  with_domain X (new_unsafe jl jd jr) x = (j', ENone) <->
  exists d', normalize_domain X x = Ok d' /\ j' = new_unsafe jl d' jr.
Proof.
  rewrite with_domain_nu. pose proof (norm_err_ne X x) as NE.
  destruct (normalize_domain X x) as [d'|e]; split.
  - intro H. inversion H. exists d'. split; reflexivity.
  - intros (d2 & E & ->). inversion E. reflexivity.
  - intro H. inversion H. congruence.
  - intros (d2 & E & _). discriminate E.
Qed.

Section Canon.
Variable X : ext.
Hypothesis HX : ext_ok X.

Lemma norm_utf8 {d d'} : normalize_domain X d = Ok d' -> utf8_valid d' = true.
Proof.
  intro H. destruct (norm_ok_cases X d d' H) as [U []]; try (subst; exact U).
  exact (H_idna_utf8 X HX d d' U I).
Qed.

Lemma norm_idem {d d'} : normalize_domain X d = Ok d' -> normalize_domain X d' = Ok d'.
Proof.
  intro H. destruct (norm_ok_cases X d d' H) as [U []]; try (subst; exact H).
  pose proof (H_idna_utf8 X HX d d' U I) as U'.
  pose proof (H_idna_idem X HX d d' U I) as I'.
  unfold normalize_domain. rewrite U'. cbn [negb].
  destruct (match bracket_inner d' with Some i => x_ip6 X i | None => false end); [reflexivity|].
  destruct (x_ip4 X d'); [reflexivity|].
  rewrite (trim_dot_noop d' ED), I', ED.
  rewrite (proj2 (N.ltb_ge _ _) L1), (proj2 (N.ltb_ge _ _) L2). reflexivity.
Qed.

Lemma norm_props {d d'} : normalize_domain X d = Ok d' ->
  d' <> [] /\ (nlen d' <= jid_domain_max)%N /\ nosep d' = true.
Proof.
  intro H. destruct (norm_ok_cases X d d' H) as [U []].
  - subst d'. apply bracket_inner_some in B. subst d.
    pose proof (H_ip6_len X HX i I6) as LN. pose proof (H_ip6_nosep X HX i I6) as NS.
    split; [discriminate|]. split.
    + unfold nlen in *. simpl length. rewrite app_length. simpl length. lia.
    + (* the brackets are not separators *)
      unfold nosep, in_bytes in *. cbn [existsb]. rewrite !existsb_app. simpl. rewrite !orb_false_r. exact NS.
  - subst d'. destruct (H_ip4_len X HX d I4) as [NE LN]. split; [exact NE|]. split; [exact LN|].
    exact (H_ip4_nosep X HX d I4).
  - split; [|split; [exact L2 | exact (H_idna_nosep X HX d d' U I)]].
    intro E. subst d'. rewrite tbl_domain_min in L1. unfold nlen in L1. simpl in L1. lia.
Qed.

Record canon3 (l d r : bytes) : Prop := mk_canon3 {
  c3_l_fixed : fixed (x_user X) l;
  c3_l_utf8 : utf8_valid l = true;
  c3_l_checks : local_checks l = ENone;
  c3_d : normalize_domain X d = Ok d;
  c3_r_fixed : fixed (x_opaque X) r;
  c3_r_utf8 : utf8_valid r = true;
  c3_r_checks : resource_checks r = ENone }.

Definition canon (j : jid) : Prop :=
  wf j /\ canon3 (localpart j) (domainpart j) (resourcepart j).

Lemma canon_nu l d r : canon3 l d r -> canon (new_unsafe l d r).
Proof. intro C. split; [apply nu_wf|]. rewrite nu_local, nu_domain, nu_resource. exact C. Qed.

Lemma canon_parts j : canon j ->
  j = new_unsafe (localpart j) (domainpart j) (resourcepart j) /\
  canon3 (localpart j) (domainpart j) (resourcepart j).
Proof. intros [W C]. split; [exact (wf_nu j W) | exact C]. Qed.

Lemma canon3_nil_parts d : normalize_domain X d = Ok d -> canon3 [] d [].
Proof.
  intro H. constructor; try reflexivity; try (left; reflexivity); exact H.
Qed.

Lemma canon3_domain_props {l d r} : canon3 l d r ->
  d <> [] /\ (nlen d <= jid_domain_max)%N /\ nosep d = true.
Proof. intros C. exact (norm_props (c3_d _ _ _ C)). Qed.

Lemma canon3_valid_local {l d r l'} : canon3 l d r ->
  (valid_part (x_user X) local_checks l l' <-> l' = l).
Proof. intros [F U C _ _ _ _]. exact (valid_part_fixed l' F U C). Qed.

Lemma canon3_valid_resource {l d r r'} : canon3 l d r ->
  (valid_part (x_opaque X) resource_checks r r' <-> r' = r).
Proof. intros [_ _ _ _ F U C]. exact (valid_part_fixed r' F U C). Qed.

Lemma canon3_norm {l d r} d' : canon3 l d r -> (normalize_domain X d = Ok d' <-> d' = d).
Proof. intro C. rewrite (c3_d _ _ _ C). split; congruence. Qed.

Lemma new_returns_canon {l d r j} : new X l d r = Ok j -> canon j.
Proof.
  intro H. apply new_ok_iff in H. destruct H as (l' & VL & d' & N & r' & VR & ->). apply canon_nu.
  destruct (valid_part_out (H_user_idem X HX) (H_user_utf8 X HX) VL) as (F1 & U1 & LC).
  destruct (valid_part_out (H_opaque_idem X HX) (H_opaque_utf8 X HX) VR) as (F2 & U2 & RC).
  constructor; try assumption. exact (norm_idem N).
Qed.

Lemma new_of_canon3 {l d r} : canon3 l d r -> new X l d r = Ok (new_unsafe l d r).
Proof.
  intro C. apply new_ok_iff.
  setoid_rewrite (canon3_valid_local C). setoid_rewrite (fun d' => canon3_norm d' C).
  setoid_rewrite (canon3_valid_resource C). do 3 setoid_rewrite ex_one. reflexivity.
Qed.

Lemma parse_returns_canon {s j} : parse X s = Ok j -> canon j.
Proof.
  unfold parse. destruct (split_string true s) as [[[l d] r] e]. destruct e; try discriminate.
  apply new_returns_canon.
Qed.

Lemma canon_roundtrip j : canon j -> parse X (string_of j) = Ok j.
Proof.
  intros [W C]. rewrite (wf_nu j W), nu_string. unfold parse.
  destruct (local_checks_nosep _ (c3_l_checks _ _ _ C)) as [L1 L2].
  destruct (canon3_domain_props C) as (_ & _ & NS). apply nosep_iff in NS. destruct NS as [D1 D2].
  rewrite (split_assemble true _ _ _ L1 L2 D1 (fun _ => D2)).
  exact (new_of_canon3 C).
Qed.

Lemma with_local_agrees {j} x j' : canon j ->
  (with_local X j x = (j', ENone) <-> new X x (domainpart j) (resourcepart j) = Ok j').
Proof.
  intro C. destruct (canon_parts j C) as [E C3]. rewrite E at 1.
  rewrite (with_local_ok X (proj1 (canon3_domain_props C3))), new_ok_iff.
  setoid_rewrite (fun d' => canon3_norm d' C3). setoid_rewrite (canon3_valid_resource C3).
  do 2 setoid_rewrite ex_one. reflexivity.
Qed.

Lemma with_resource_agrees {j} x j' : canon j ->
  (with_resource X j x = (j', ENone) <-> new X (localpart j) (domainpart j) x = Ok j').
Proof.
  intro C. destruct (canon_parts j C) as [E C3]. rewrite E at 1.
  rewrite (with_resource_ok X (proj1 (canon3_domain_props C3))), new_ok_iff.
  setoid_rewrite (canon3_valid_local C3). setoid_rewrite (fun d' => canon3_norm d' C3).
  do 2 setoid_rewrite ex_one. reflexivity.
Qed.

Lemma with_domain_agrees {j} x j' : canon j ->
  (with_domain X j x = (j', ENone) <-> new X (localpart j) x (resourcepart j) = Ok j').
Proof.
  intro C. destruct (canon_parts j C) as [E C3]. rewrite E at 1. rewrite with_domain_ok, new_ok_iff.
  setoid_rewrite (canon3_valid_local C3). setoid_rewrite (canon3_valid_resource C3).
  do 2 setoid_rewrite ex_one. reflexivity.
Qed.

Lemma new_nil_iff d j : new X [] d [] = Ok j <-> exists d', normalize_domain X d = Ok d' /\ j = new_unsafe [] d' [].
Proof.
  rewrite new_ok_iff. setoid_rewrite (valid_part_nil local_checks_nil).
  setoid_rewrite (valid_part_nil resource_checks_nil). do 2 setoid_rewrite ex_one. reflexivity.
Qed.

End Canon.

Section Returned.
Variable X : ext.
Hypothesis HX : ext_ok X.

Inductive returned : jid -> Prop :=
| R_zero : returned zero
| R_new l d r j : new X l d r = Ok j -> returned j
| R_parse s j : parse X s = Ok j -> returned j
| R_with_local j x j' : returned j -> with_local X j x = (j', ENone) -> returned j'
| R_with_domain j x j' : returned j -> with_domain X j x = (j', ENone) -> returned j'
| R_with_resource j x j' : returned j -> with_resource X j x = (j', ENone) -> returned j'
| R_bare j : returned j -> returned (bare j)
| R_domain j : returned j -> returned (domain j)
| R_attr j0 v j : returned j0 -> unmarshal_attr X j0 v = (j, ENone) -> returned j
| R_elem j0 cd j : returned j0 -> unmarshal_xml X j0 cd = (j, ENone) -> returned j.

Lemma returned_canonical j : returned j -> j = zero \/ canon X j.
Proof.
  induction 1 as [ | l d r j H | s j H | j x j' R IH H | j x j' R IH H | j x j' R IH H
                  | j R IH | j R IH | j0 v j R IH H | j0 cd j R IH H ].
  - (* R_zero *) left. reflexivity.
  - (* R_new *) right. exact (new_returns_canon X HX H).
  - (* R_parse *) right. exact (parse_returns_canon X HX H).
  - (* R_with_local *) destruct IH as [->|C].
    + (* the zero value has no domainpart: only the empty localpart is accepted *)
      left. unfold with_local in H. destruct (is_nil x); simpl in H; inversion H; reflexivity.
    + right. apply (with_local_agrees X HX _ _ C) in H. exact (new_returns_canon X HX H).
  - (* R_with_domain *) right. destruct IH as [->|C].
    + change zero with (new_unsafe [] [] []) in H. apply with_domain_ok in H. destruct H as (d' & N & ->).
      apply (canon_nu X), (canon3_nil_parts X). exact (norm_idem X HX N).
    + apply (with_domain_agrees X _ _ C) in H. exact (new_returns_canon X HX H).
  - (* R_with_resource *) destruct IH as [->|C].
    + left. unfold with_resource in H. cbv zeta in H. destruct (is_nil x); simpl in H; inversion H; reflexivity.
    + right. apply (with_resource_agrees X HX _ _ C) in H. exact (new_returns_canon X HX H).
  - (* R_bare *) destruct IH as [->|C]; [left; reflexivity|]. right.
    destruct (canon_parts X j C) as [E [F1 U1 LC N F2 U2 RC]]. rewrite E, nu_bare.
    apply (canon_nu X). constructor; try assumption; try reflexivity. left; reflexivity.
  - (* R_domain *) destruct IH as [->|C]; [left; reflexivity|]. right.
    destruct (canon_parts X j C) as [E C3]. rewrite E, nu_domain_jid.
    apply (canon_nu X), (canon3_nil_parts X). exact (c3_d X _ _ _ C3).
  - (* R_attr *) apply unmarshal_attr_ok in H. destruct H as [->|P]; [left; reflexivity|].
    right. exact (parse_returns_canon X HX P).
  - (* R_elem *) right. exact (parse_returns_canon X HX (unmarshal_xml_ok X H)).
Qed.

Lemma canon_string_nonnil j : canon X j -> is_nil (string_of j) = false.
Proof.
  intros [W C]. rewrite (wf_nu j W), nu_string. apply assemble_nonnil.
  exact (proj1 (canon3_domain_props X HX C)).
Qed.

Lemma attr_roundtrip j j0 : canon X j -> unmarshal_attr X j0 (marshal_attr j) = (j, ENone).
Proof.
  intro C. unfold unmarshal_attr, marshal_attr. rewrite (canon_string_nonnil j C).
  rewrite (canon_roundtrip X HX j C). reflexivity.
Qed.

Lemma attr_roundtrip_zero j0 : unmarshal_attr X j0 (marshal_attr zero) = (zero, ENone).
Proof. reflexivity. Qed.

Lemma elem_roundtrip j j0 : canon X j -> unmarshal_xml X j0 (marshal_xml j) = (j, ENone).
Proof.
  intro C. unfold unmarshal_xml, marshal_xml. rewrite (canon_roundtrip X HX j C). reflexivity.
Qed.

End Returned.

(* a concrete instance of the external functions: [ext_ok] is satisfiable *)

Definition toy : ext :=
  mkext (fun x => Some x) (fun x => Some x)
        (fun x => if nosep x && utf8_valid x then Some x else None)
        (fun x => bytes_eqb x (str "127.0.0.1")) (fun x => bytes_eqb x (str "::1")).

Lemma toy_idna x y : x_idna toy x = Some y -> y = x /\ nosep x = true /\ utf8_valid x = true.
Proof.
  cbn [toy x_idna]. destruct (nosep x && utf8_valid x) eqn:E; [|discriminate].
  apply andb_true_iff in E. intro H. inversion H. subst y. split; [reflexivity | exact E].
Qed.

Lemma toy_ok : ext_ok toy.
Proof.
  constructor.
  - intros x y _ H _. reflexivity.
  - intros x y U H. inversion H; subst. exact U.
  - intros x y _ H _. reflexivity.
  - intros x y U H. inversion H; subst. exact U.
  - intros d y _ H. destruct (toy_idna _ _ H) as (-> & N & U). cbn [toy x_idna]. rewrite N, U. reflexivity.
  - intros d y _ H. destruct (toy_idna _ _ H) as (-> & _ & U). exact U.
  - intros d y _ H. destruct (toy_idna _ _ H) as (-> & N & _). exact N.
  - intros x H. apply bytes_eqb_eq in H. subst x. vm_compute. reflexivity.
  - intros x H. apply bytes_eqb_eq in H. subst x. split; [discriminate|].
    apply N.leb_le. vm_compute. reflexivity.
  - intros x H. apply bytes_eqb_eq in H. subst x. vm_compute. reflexivity.
  - intros x H. apply bytes_eqb_eq in H. subst x. apply N.leb_le. vm_compute. reflexivity.
Qed.

(* The element encoding does not round-trip for the zero value. *)
Definition xml_element_roundtrip_statement : Prop :=
  forall X, ext_ok X -> forall j j0, returned X j -> unmarshal_xml X j0 (marshal_xml j) = (j, ENone).

Lemma xml_element_zero_refuted :
  exists X, ext_ok X /\ exists j j0, returned X j /\ unmarshal_xml X j0 (marshal_xml j) <> (j, ENone).
Proof.
  exists toy. split; [exact toy_ok|]. exists zero, zero. split; [constructor|].
  vm_compute. discriminate.
Qed.

Lemma xml_element_statement_false : ~ xml_element_roundtrip_statement.
Proof.
  intro S. destruct xml_element_zero_refuted as (X & HX & j & j0 & R & N). exact (N (S X HX j j0 R)).
Qed.
