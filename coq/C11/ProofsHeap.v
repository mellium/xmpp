(* C11/ProofsHeap.v — Go JID values share backing arrays and append writes in
   place when the capacity suffices.  Every modelled function, as a transition
   on the heap and for every capacity policy [slack], writes only into arrays
   it allocated in that call ([pres]) and returns a value whose [view] is what
   the value-level function computes ([op_spec]); histories follow from that. *)
From XV Require Import lib.Bytes lib.ListAux C11.Model C11.Proofs.
(* [pres h0 h] is Heap's [keeps (length h0) h0 h], [slice_ok h s] and [sl_read h s] its [valid] and [read]
   on the four fields of s, and [upd], [write_at] have the bodies of [set_nth], [put]: its lemmas apply
   to them by conversion (the head of lib/Heap.v says how far) *)
From XV Require lib.Heap.

Definition slice_ok (h : heap) (s : slice) : Prop :=
  s_len s <= s_cap s /\
  (s_cap s = 0 \/ (s_arr s < length h /\ s_off s + s_cap s <= length (arr_get h (s_arr s)))).

Definition pres (h0 h : heap) : Prop :=
  length h0 <= length h /\ forall i, i < length h0 -> arr_get h i = arr_get h0 i.

Lemma pres_refl h : pres h h.
Proof. apply Heap.keeps_refl. Qed.

Lemma pres_trans {a b c} : pres a b -> pres b c -> pres a c.
Proof. intros P Q. exact (Heap.keeps_trans _ _ _ _ _ P Q (proj1 P)). Qed.

Lemma pres_snoc h0 h a : pres h0 h -> pres h0 (h ++ [a]).
Proof. intro P. exact (Heap.keeps_trans _ _ _ _ _ P (Heap.keeps_app _ h [a] (proj1 P)) (le_n _)). Qed.

Lemma sl_read_length {h s} : slice_ok h s -> length (sl_read h s) = s_len s.
Proof. exact (Heap.read_length h _ _ _ _). Qed.

Lemma pres_read {h0 h} s : pres h0 h -> slice_ok h0 s -> sl_read h s = sl_read h0 s /\ slice_ok h s.
Proof. apply Heap.keeps_window. Qed.

(* what a write changes lies in one array; if the call allocated it, the caller's arrays are kept *)
Lemma pres_frame {h0 h h1} a lo hi : pres h0 h -> Heap.frame h h1 a lo hi -> length h0 <= a -> pres h0 h1.
Proof.
  intros P F G. exact (Heap.keeps_trans _ _ _ _ _ P (Heap.frame_keeps _ _ _ _ _ _ F G (proj1 P)) (le_n _)).
Qed.

(* A slice under construction in a call that started from heap h0: p is the
   heap and the slice so far.  The arrays of h0 are kept, the slice lies in an
   array allocated since, is valid and reads c.  make starts one, append and
   copy carry it on: this is why a call writes only into its own arrays. *)
Definition grows (h0 : heap) (p : heap * slice) (c : bytes) : Prop :=
  pres h0 (fst p) /\ length h0 <= s_arr (snd p) /\ slice_ok (fst p) (snd p) /\ sl_read (fst p) (snd p) = c.

Lemma grows_length {h0 p c} : grows h0 p c -> length c = s_len (snd p).
Proof. intros (_ & _ & O & <-). exact (sl_read_length O). Qed.

Lemma grows_pres {h0 p c} : grows h0 p c -> pres h0 (fst p).
Proof. intros [P _]. exact P. Qed.

Lemma grows_read {h0 p c} {t} : grows h0 p c -> slice_ok h0 t -> sl_read (fst p) t = sl_read h0 t.
Proof. intros [P _] O. exact (proj1 (pres_read t P O)). Qed.

Lemma alloc_spec {h0 h} a n cap : pres h0 h -> n <= cap -> cap <= length a ->
  grows h0 (h ++ [a], mksl (length h) 0 n cap) (firstn n a).
Proof.
  intros P Hn Hc. unfold grows; cbn [fst snd].
  split; [apply pres_snoc; exact P|]. split; [exact (proj1 P)|]. split.
  - apply Heap.valid_new. exact (conj Hn Hc).
  - apply Heap.read_new.
Qed.

Lemma make_spec {h0 h} n c : pres h0 h -> n <= c -> grows h0 (sl_make h n c) (zeros n).
Proof.
  intros P Hn. unfold sl_make. replace (zeros n) with (firstn n (zeros c)).
  - apply alloc_spec; [exact P | exact Hn | unfold zeros; rewrite repeat_length; lia].
  - unfold zeros. revert c Hn. induction n as [|n IH]; intros [|c] Hn; simpl; try reflexivity; try lia.
    rewrite IH by lia. reflexivity.
Qed.

Lemma write_spec {h0 h s c} k xs : grows h0 (h, s) c -> k <= s_len s -> k + length xs <= s_cap s ->
  grows h0 (upd h (s_arr s) (write_at (arr_get h (s_arr s)) (s_off s + k) xs),
            mksl (s_arr s) (s_off s) (k + length xs) (s_cap s)) (firstn k c ++ xs).
Proof.
  intros (P & F & [L D] & <-) Hk Fit. cbn [fst snd] in *.
  destruct (Heap.append_in_place h (s_arr s) (s_off s) k (s_cap s) xs) as (R & V & Fr); [split; [lia|exact D]|exact Fit|].
  split; [exact (pres_frame _ _ _ P Fr F)|]. split; [exact F|]. split; [exact V|].
  cbn [fst snd]. etransitivity; [exact R|]. f_equal.
  unfold sl_read, Heap.read. fold (Heap.sub (arr_get h (s_arr s)) (s_off s) (s_len s)).
  rewrite Heap.firstn_sub, Nat.min_l by exact Hk. reflexivity.
Qed.

Lemma append_spec slack {h0 p c} xs : grows h0 p c -> grows h0 (sl_append slack (fst p) (snd p) xs) (c ++ xs).
Proof.
  destruct p as [h s]. intro G. pose proof (grows_length G) as LC. cbn [fst snd] in *.
  unfold sl_append. cbv zeta.
  destruct (Nat.leb_spec (s_len s + length xs) (s_cap s)) as [Fit|Fit].
  - pose proof (write_spec (s_len s) xs G (le_n _) Fit) as W.
    rewrite firstn_all2 in W by lia. exact W.
  - destruct G as (P & _ & O & <-). cbn [fst snd] in *.
    destruct (Heap.append_fresh h _ _ _ _ xs (zeros (slack (s_len s + length xs))) 0 0 0 O) as (R & V & _).
    unfold zeros in V at 2. rewrite repeat_length in V.
    split; [apply pres_snoc; exact P|]. split; [exact (proj1 P)|]. split; [exact V|exact R].
Qed.

Lemma copy_spec {h0 p c} src : grows h0 p c -> length src = s_len (snd p) ->
  grows h0 (sl_copy (fst p) (snd p) src, snd p) src.
Proof.
  destruct p as [h dst]. cbn [fst snd]. intros G HS. pose proof (write_spec 0 src G (Nat.le_0_l _)) as W.
  destruct G as (_ & _ & [L _] & _). cbn [fst snd] in L.
  unfold sl_copy. rewrite firstn_all2 by lia.
  destruct dst as [a off n cap]; cbn [s_arr s_off s_len s_cap] in *.
  rewrite Nat.add_0_r, HS in W. apply W. lia.
Qed.

Lemma sub_spec h s a b : slice_ok h s -> a <= b -> b <= s_len s ->
  slice_ok h (sl_sub s a b) /\ sl_read h (sl_sub s a b) = skipn a (firstn b (sl_read h s)).
Proof.
  intros O Hab Hb. split.
  - apply (Heap.valid_sub _ _ _ _ _ a b O Hab). destruct O. lia.
  - apply Heap.read_sub; assumption.
Qed.

Lemma sub_tail h s a : slice_ok h s -> a <= s_len s ->
  slice_ok h (sl_sub s a (s_len s)) /\ sl_read h (sl_sub s a (s_len s)) = skipn a (sl_read h s).
Proof.
  intros O Ha. destruct (sub_spec h s a (s_len s) O Ha) as [O' R]; [lia|].
  split; [exact O'|]. rewrite R, firstn_all2 by (rewrite (sl_read_length O); lia). reflexivity.
Qed.

Definition hvalid (h : heap) (j : hjid) : Prop :=
  slice_ok h (h_data j) /\ h_ll j + h_dl j <= s_len (h_data j).

Lemma hzero_valid h : hvalid h hzero.
Proof. split; [split; [simpl; lia | left; reflexivity] | simpl; lia]. Qed.

Lemma view_wf h j : hvalid h j -> wf (view h j).
Proof. intros [O W]. unfold wf, view. simpl. rewrite (sl_read_length O). exact W. Qed.

Lemma pres_hvalid h0 h j : pres h0 h -> hvalid h0 j -> hvalid h j /\ view h j = view h0 j.
Proof.
  intros P [O W]. destruct (pres_read _ P O) as [R O'].
  split; [split; assumption | unfold view; rewrite R; reflexivity].
Qed.

Lemma h_bare_spec h j : hvalid h j -> hvalid h (h_bare j) /\ view h (h_bare j) = bare (view h j).
Proof.
  intros [O W]. destruct (sub_spec h (h_data j) 0 (h_dl j + h_ll j) O) as [O' R]; [lia | lia |].
  split; [split; [exact O' | simpl; lia]|].
  unfold view, h_bare, bare; cbn [h_data h_ll h_dl j_data j_ll j_dl]. rewrite R. reflexivity.
Qed.

Lemma h_domain_spec h j : hvalid h j -> hvalid h (h_domain j) /\ view h (h_domain j) = domain (view h j).
Proof.
  intros [O W]. destruct (sub_spec h (h_data j) (h_ll j) (h_dl j + h_ll j) O) as [O' R]; [lia | lia |].
  split; [split; [exact O' | simpl; lia]|].
  unfold view, h_domain, domain; cbn [h_data h_ll h_dl j_data j_ll j_dl].
  rewrite R, skipn_firstn_comm, Nat.add_sub. reflexivity.
Qed.

Definition op_spec (h : heap) (r : heap * (hjid * jerr)) (v : jid * jerr) : Prop :=
  pres h (fst r) /\ hvalid (fst r) (fst (snd r)) /\ (view (fst r) (fst (snd r)), snd (snd r)) = v.

Lemma op_spec_zero h h' e : pres h h' -> op_spec h (h', (hzero, e)) (zero, e).
Proof. intro P. split; [exact P | split; [apply hzero_valid | reflexivity]]. Qed.

Lemma op_spec_same h h' j e : pres h h' -> hvalid h j -> op_spec h (h', (j, e)) (view h j, e).
Proof.
  intros P V. destruct (pres_hvalid h h' j P V) as [V' E].
  split; [exact P | split; [exact V' | simpl; rewrite E; reflexivity]].
Qed.

Lemma op_spec_built {h p c ll dl e} : grows h p c -> ll + dl <= length c ->
  op_spec h (fst p, (mkh (snd p) ll dl, e)) (mkjid c ll dl, e).
Proof.
  intros (P & _ & O & R) W. split; [exact P|]. split.
  - split; [exact O|]. cbn [fst snd h_data h_ll h_dl]. rewrite <- (sl_read_length O), R. exact W.
  - unfold view; cbn [fst snd h_data h_ll h_dl]. rewrite R. reflexivity.
Qed.

(* the model threads heap and slice through [let '(h, s) := ... in]; in
   projection form each step is an instance of the lemmas above *)
Lemma let_pair {A B R} (p : A * B) (K : A -> B -> R) : (let '(a, b) := p in K a b) = K (fst p) (snd p).
Proof. destruct p; reflexivity. Qed.

(* In every call below make_spec starts a [grows], append_spec and copy_spec carry it on, and
   op_spec_built closes it; grows_pres is the frame an early return needs. *)
Section Ops.
Variable X : ext.
Variable slack : nat -> nat.

Lemma h_new_spec h l d r : op_spec h (h_new X slack h l d r) (res_pair (new X l d r)).
Proof.
  unfold h_new, new.
  destruct (negb (utf8_valid l) || negb (utf8_valid r)); [apply op_spec_zero, pres_refl|].
  destruct (normalize_domain X d) as [d'|e]; [|apply op_spec_zero, pres_refl].
  rewrite let_pair.
  pose proof (make_spec 0 (length l + length d' + length r) (pres_refl h) (Nat.le_0_l _)) as G.
  destruct (norm_part (x_user X) l) as [l'|]; [|apply op_spec_zero, (grows_pres G)].
  rewrite !let_pair. apply (append_spec slack l'), (append_spec slack d') in G.
  destruct (norm_part (x_opaque X) r) as [r'|]; [|apply op_spec_zero, (grows_pres G)].
  rewrite let_pair. apply (append_spec slack r') in G.
  (* named before the case splits: the goal holds the three nested appends many times over *)
  set (p := sl_append slack _ _ r') in *.
  destruct (local_checks l'); try (apply op_spec_zero, (grows_pres G)).
  destruct (resource_checks r'); try (apply op_spec_zero, (grows_pres G)).
  cbn [zeros repeat app] in G. rewrite <- app_assoc in G.
  apply (op_spec_built G). rewrite !app_length. lia.
Qed.

Lemma h_parse_spec h s : op_spec h (h_parse X slack h s) (res_pair (parse X s)).
Proof.
  unfold h_parse, parse. destruct (split_string true s) as [[[l d] r] e].
  destruct e; try (apply op_spec_zero, pres_refl). apply h_new_spec.
Qed.

Lemma h_new_unsafe_spec h l d r :
  op_spec h (fst (h_new_unsafe slack h l d r), (snd (h_new_unsafe slack h l d r), ENone)) (new_unsafe l d r, ENone).
Proof.
  unfold h_new_unsafe. rewrite !let_pair. cbn [fst snd].
  pose proof (make_spec 0 (length l + length d + length r) (pres_refl h) (Nat.le_0_l _)) as G.
  apply (append_spec slack l), (append_spec slack d), (append_spec slack r) in G.
  cbn [zeros repeat app] in G. rewrite <- app_assoc in G.
  apply (op_spec_built G). rewrite !app_length. lia.
Qed.

Lemma h_with_local_spec h j l : hvalid h j ->
  op_spec h (h_with_local X slack h j l) (with_local X (view h j) l).
Proof.
  intros V. pose proof V as [O W]. unfold h_with_local, with_local. cbv zeta. rewrite let_pair.
  destruct (sub_tail h (h_data j) (h_ll j) O) as [OT RT]; [lia|].
  set (tail := sl_sub (h_data j) (h_ll j) (s_len (h_data j))) in *.
  pose proof (make_spec 0 (length l + s_len tail) (pres_refl h) (Nat.le_0_l _)) as G.
  assert (LT : h_dl j <= length (skipn (h_ll j) (sl_read h (h_data j))))
    by (rewrite skipn_length, (sl_read_length O); lia).
  cbn [view j_ll j_dl j_data].
  destruct (is_nil l).
  - rewrite let_pair, (grows_read G OT), RT.
    apply (op_spec_built (append_spec slack _ G)). exact LT.
  - destruct (h_dl j =? 0); [apply op_spec_same; [exact (grows_pres G) | exact V]|].
    destruct (negb (utf8_valid l)); [apply op_spec_same; [exact (grows_pres G) | exact V]|].
    destruct (x_user X l) as [l'|]; [|apply op_spec_same; [exact (grows_pres G) | exact V]].
    rewrite !let_pair. apply (append_spec slack l') in G.
    rewrite (grows_read G OT), RT.
    apply (op_spec_built (append_spec slack _ G)).
    cbn [zeros repeat app]. rewrite app_length. lia.
Qed.

Lemma h_with_domain_spec h j d : hvalid h j ->
  op_spec h (h_with_domain X slack h j d) (with_domain X (view h j) d).
Proof.
  intros V. pose proof V as [O W]. unfold h_with_domain, with_domain. cbv zeta.
  destruct (normalize_domain X d) as [d'|e]; [|apply op_spec_same; [apply pres_refl | exact V]].
  destruct (sub_spec h (h_data j) 0 (h_ll j) O) as [OH RH]; [lia | lia |].
  destruct (sub_tail h (h_data j) (h_ll j + h_dl j) O) as [OT RT]; [lia|].
  set (hd := sl_sub (h_data j) 0 (h_ll j)) in *.
  set (tail := sl_sub (h_data j) (h_ll j + h_dl j) (s_len (h_data j))) in *.
  rewrite !let_pair.
  pose proof (make_spec 0 (s_len (h_data j) - h_dl j + length d') (pres_refl h) (Nat.le_0_l _)) as G.
  rewrite (grows_read G OH), RH. cbn [skipn].
  apply (append_spec slack (firstn (h_ll j) (sl_read h (h_data j)))), (append_spec slack d') in G.
  rewrite (grows_read G OT), RT.
  apply (append_spec slack (skipn (h_ll j + h_dl j) (sl_read h (h_data j)))) in G.
  rewrite <- app_assoc in G.
  apply (op_spec_built G). cbn [zeros repeat app view j_data j_ll].
  rewrite !app_length, firstn_length, (sl_read_length O). lia.
Qed.

Lemma h_with_resource_spec h j r : hvalid h j ->
  op_spec h (h_with_resource X slack h j r) (with_resource X (view h j) r).
Proof.
  intros V. unfold h_with_resource, with_resource. cbv zeta. rewrite let_pair.
  destruct (h_bare_spec h j V) as [[OB WB] EB]. rewrite <- EB.
  set (b := h_bare j) in *.
  pose proof (make_spec (s_len (h_data b)) (s_len (h_data b) + length r) (pres_refl h) (Nat.le_add_r _ _)) as G.
  rewrite (grows_read G OB).
  apply (copy_spec (sl_read h (h_data b))) in G; [|exact (sl_read_length OB)].
  change (j_dl (view h j)) with (h_dl j). change (j_ll (view h j)) with (h_ll j).
  destruct (is_nil r); [apply op_spec_same; [exact (grows_pres G) | split; assumption]|].
  destruct (h_dl j =? 0); [apply op_spec_zero, (grows_pres G)|].
  destruct (negb (utf8_valid r)); [apply op_spec_zero, (grows_pres G)|].
  destruct (x_opaque X r) as [r'|]; [|apply op_spec_zero, (grows_pres G)].
  rewrite let_pair. apply (op_spec_built (append_spec slack r' G)).
  rewrite app_length, (sl_read_length OB). cbn [b h_bare h_data sl_sub s_len]. lia.
Qed.

Lemma h_unmarshal_attr_spec h j0 v :
  op_spec h (h_unmarshal_attr X slack h j0 v) (unmarshal_attr X (view h j0) v).
Proof.
  unfold h_unmarshal_attr, unmarshal_attr. destruct (is_nil v); [apply op_spec_zero, pres_refl|].
  pose proof (h_parse_spec h v) as S. destruct (parse X v) as [j|e]; exact S.
Qed.

Lemma h_unmarshal_xml_spec h j0 cd : hvalid h j0 ->
  op_spec h (h_unmarshal_xml X slack h j0 cd) (unmarshal_xml X (view h j0) cd).
Proof.
  intro V. unfold h_unmarshal_xml, unmarshal_xml.
  pose proof (h_parse_spec h cd) as S. pose proof (parse_err_not_none X cd) as NE.
  destruct (h_parse X slack h cd) as [h' [j e]]. destruct S as (P & V' & E). simpl in P, V', E.
  destruct (parse X cd) as [j1|e1]; simpl in E.
  - inversion E; subst. split; [exact P | split; [exact V' | reflexivity]].
  - inversion E; subst e.
    destruct e1; try (apply op_spec_same; assumption). congruence.
Qed.

Definition st_ok (st : hstate) : Prop := Forall (hvalid (st_heap st)) (st_regs st).

Lemma st0_ok : st_ok st0.
Proof. constructor. Qed.

Lemma hreg_valid st i : st_ok st -> hvalid (st_heap st) (hreg st i).
Proof.
  intro H. unfold hreg. destruct (Nat.lt_ge_cases i (length (st_regs st))) as [L|G].
  - apply (proj1 (Forall_forall _ _) H). apply nth_In. exact L.
  - rewrite nth_overflow by exact G. apply hzero_valid.
Qed.

Lemma hreg_view st i : view (st_heap st) (hreg st i) = vreg (views st) i.
Proof.
  unfold hreg, vreg, views. change zero with (view (st_heap st) hzero). symmetry. apply map_nth.
Qed.

Lemma h_call_spec st o : st_ok st -> op_spec (st_heap st) (h_call X slack st o) (v_call X (views st) o).
Proof.
  intro OK. pose proof (fun i => hreg_valid st i OK) as HV.
  destruct o as [l d r|s|l d r|i|i|i|i x|i x|i x|i v|i cd]; simpl h_call; simpl v_call;
    try rewrite <- hreg_view.
  - (* HNew *) apply h_new_spec.
  - (* HParse *) apply h_parse_spec.
  - (* HUnsafe *) rewrite let_pair. apply h_new_unsafe_spec.
  - (* HBare *) destruct (h_bare_spec _ _ (HV i)) as [V <-]. apply op_spec_same; [apply pres_refl | exact V].
  - (* HDomain *) destruct (h_domain_spec _ _ (HV i)) as [V <-]. apply op_spec_same; [apply pres_refl | exact V].
  - (* HCopy *) apply op_spec_same; [apply pres_refl | apply HV].
  - (* HWithL *) apply h_with_local_spec, HV.
  - (* HWithD *) apply h_with_domain_spec, HV.
  - (* HWithR *) apply h_with_resource_spec, HV.
  - (* HAttr *) apply h_unmarshal_attr_spec.
  - (* HElem *) apply h_unmarshal_xml_spec, HV.
Qed.

Lemma views_pres st h' : st_ok st -> pres (st_heap st) h' ->
  map (view h') (st_regs st) = views st /\ Forall (hvalid h') (st_regs st).
Proof.
  intros OK P. unfold views, st_ok in *. induction (st_regs st) as [|j rs IH]; [split; constructor|].
  inversion OK as [|? ? Vj Vrs]; subst. destruct (IH Vrs) as [E F].
  destruct (pres_hvalid _ _ j P Vj) as [Vj' Ej].
  split; [simpl; rewrite E, Ej; reflexivity | constructor; assumption].
Qed.

Lemma h_step_spec st o : st_ok st ->
  let st' := h_step X slack st o in
  st_ok st' /\ pres (st_heap st) (st_heap st') /\
  (views st', st_errs st') = v_step X (views st, st_errs st) o /\
  exists j, st_regs st' = st_regs st ++ [j].
Proof.
  intro OK. pose proof (h_call_spec st o OK) as S. unfold h_step, v_step.
  destruct (h_call X slack st o) as [h' [j e]]. destruct S as (P & V & E). simpl in P, V, E.
  destruct (views_pres st h' OK P) as [EV FV]. simpl.
  split; [|split; [exact P | split; [|exists j; reflexivity]]].
  - unfold st_ok. simpl. apply Forall_app. split; [exact FV | constructor; [exact V | constructor]].
  - rewrite <- E. unfold views at 1. simpl. rewrite map_app, EV. reflexivity.
Qed.

Lemma h_run_spec prog : forall st, st_ok st ->
  let st' := h_run X slack st prog in
  st_ok st' /\ pres (st_heap st) (st_heap st') /\
  (views st', st_errs st') = v_run X (views st, st_errs st) prog /\
  exists more, st_regs st' = st_regs st ++ more.
Proof.
  induction prog as [|o prog IH]; intros st OK; simpl.
  - split; [exact OK | split; [apply pres_refl | split; [reflexivity | exists []; rewrite app_nil_r; reflexivity]]].
  - destruct (h_step_spec st o OK) as (OK1 & P1 & E1 & [j R1]).
    destruct (IH _ OK1) as (OK2 & P2 & E2 & [more R2]).
    split; [exact OK2 | split; [exact (pres_trans P1 P2) | split]].
    + unfold v_run in *. simpl. rewrite <- E1. exact E2.
    + exists (j :: more). unfold h_run in R2 |- *. simpl. rewrite R2, R1, <- app_assoc. reflexivity.
Qed.

Lemma history_views_prefix pre post :
  exists more, views (h_run X slack (h_run X slack st0 pre) post) = views (h_run X slack st0 pre) ++ more.
Proof.
  destruct (h_run_spec pre st0 st0_ok) as (OK & _).
  destruct (h_run_spec post _ OK) as (_ & P & _ & [more R]).
  destruct (views_pres _ _ OK P) as [EV _].
  exists (map (view (st_heap (h_run X slack (h_run X slack st0 pre) post))) more).
  unfold views at 1. rewrite R, map_app, EV. reflexivity.
Qed.

Lemma h_run_app pre post st : h_run X slack st (pre ++ post) = h_run X slack (h_run X slack st pre) post.
Proof. unfold h_run. apply fold_left_app. Qed.

(* register k is clean when its call returned no error and it is New, Parse, a
   decode, or a view / replacement of a clean register (never NewUnsafe, never a
   value returned together with an error) *)
Definition clean_call (cl : list bool) (o : hop) (e : jerr) : bool :=
  jerr_eqb e ENone &&
  match o with
  | HUnsafe _ _ _ => false
  | HNew _ _ _ | HParse _ | HAttr _ _ | HElem _ _ => true
  | HBare i | HDomain i | HCopy i | HWithL i _ | HWithD i _ | HWithR i _ => nth i cl true
  end.

Fixpoint clean_from (cl : list bool) (prog : list hop) (es : list jerr) : list bool :=
  match prog, es with
  | o :: prog', e :: es' => clean_from (cl ++ [clean_call cl o e]) prog' es'
  | _, _ => cl
  end.

Definition all_returned (vs : list jid) (cl : list bool) : Prop :=
  Forall2 (fun v (c : bool) => c = true -> returned X v) vs cl.

Lemma all_returned_nth vs cl k : all_returned vs cl -> nth k cl true = true -> returned X (vreg vs k).
Proof.
  intro F. revert k. induction F as [|v c vs cl Hc F IH]; intros [|k] Hk; cbn in *;
    try apply R_zero; [exact (Hc Hk) | exact (IH k Hk)].
Qed.

Lemma jerr_eqb_none e : jerr_eqb e ENone = true -> e = ENone.
Proof. destruct e; simpl; intro H; try discriminate; reflexivity. Qed.

Lemma pair_none {A} (p : A * jerr) : snd p = ENone -> p = (fst p, ENone).
Proof. destruct p. cbn. intros ->. reflexivity. Qed.

Lemma v_call_returned vs cl o : all_returned vs cl ->
  clean_call cl o (snd (v_call X vs o)) = true -> returned X (fst (v_call X vs o)).
Proof.
  intros AR C. pose proof (fun k => all_returned_nth vs cl k AR) as R.
  unfold clean_call in C. apply andb_true_iff in C. destruct C as [E C].
  apply jerr_eqb_none, pair_none in E.
  destruct o as [l d r|s|l d r|i|i|i|i x|i x|i x|i v|i cd]; cbn [v_call] in *; try discriminate.
  - (* HNew *) destruct (new X l d r) as [j|e] eqn:N; [exact (R_new X _ _ _ _ N) | apply R_zero].
  - (* HParse *) destruct (parse X s) as [j|e] eqn:N; [exact (R_parse X _ _ N) | apply R_zero].
  - (* HBare; HUnsafe is never clean *) apply R_bare, R, C.
  - (* HDomain *) apply R_domain, R, C.
  - (* HCopy *) apply R, C.
  - (* HWithL *) exact (R_with_local X _ _ _ (R i C) E).
  - (* HWithD *) exact (R_with_domain X _ _ _ (R i C) E).
  - (* HWithR *) exact (R_with_resource X _ _ _ (R i C) E).
  - (* HAttr *) destruct (unmarshal_attr_ok X E) as [Z|P]; [rewrite Z; apply R_zero | exact (R_parse X _ _ P)].
  - (* HElem *) exact (R_parse X _ _ (unmarshal_xml_ok X E)).
Qed.

Lemma v_run_returned prog : forall vs es cl, all_returned vs cl ->
  exists more, snd (v_run X (vs, es) prog) = es ++ more /\
               all_returned (fst (v_run X (vs, es) prog)) (clean_from cl prog more).
Proof.
  clear slack. induction prog as [|o prog IH]; intros vs es cl AR.
  - exists []. simpl. rewrite app_nil_r. split; [reflexivity | exact AR].
  - pose proof (v_call_returned vs cl o AR) as VR.
    unfold v_run, v_step in *. cbn [fold_left fst snd]. destruct (v_call X vs o) as [j e].
    destruct (IH (vs ++ [j]) (es ++ [e]) (cl ++ [clean_call cl o e])) as [more [E1 A1]].
    { apply Forall2_app; [exact AR | constructor; [exact VR | constructor]]. }
    exists (e :: more). split; [rewrite E1, <- app_assoc; reflexivity | exact A1].
Qed.

End Ops.
