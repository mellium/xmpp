(* C11/Examples.v — non-vacuity: a concrete instance of the external functions
   satisfying every assumption, canonical addresses, and worked examples. *)
From XV Require Import lib.Bytes C11.Model C11.Proofs C11.ProofsHeap.

(* the assumptions [ext_ok] are satisfiable *)
Example ex_ext_ok : ext_ok toy.
Proof. exact toy_ok. Qed.

Definition juliet : jid := new_unsafe (str "juliet") (str "example.com") (str "balcony").

Example ex_new : new toy (str "juliet") (str "example.com.") (str "balcony") = Ok juliet.
Proof. vm_compute. reflexivity. Qed.

Example ex_parse : parse toy (str "juliet@example.com/balcony") = Ok juliet.
Proof. vm_compute. reflexivity. Qed.

(* canonical, returned and non-zero instances exist *)
Example ex_canon : canon toy juliet.
Proof. exact (new_returns_canon toy toy_ok ex_new). Qed.

Example ex_returned : returned toy juliet /\ juliet <> zero.
Proof. split; [exact (R_new toy _ _ _ _ ex_new) | discriminate]. Qed.

Example ex_string : string_of juliet = str "juliet@example.com/balcony".
Proof. vm_compute. reflexivity. Qed.

(* a resourcepart may contain both separators; splitting follows the first '/' *)
Example ex_split : split_string true (str "a@b/c@d/e") = ((str "a", str "b", str "c@d/e"), ENone).
Proof. vm_compute. reflexivity. Qed.

Example ex_split_errors :
  snd (split_string true (str "a@b/")) = ENoRes /\ snd (split_string true (str "@b")) = ENoLocal /\
  snd (split_string false (str "@b/")) = ENone.
Proof. vm_compute. repeat split. Qed.

(* the witnesses of the repaired defects, on the model of the repaired code *)
Example ex_trailing_dots :
  normalize_domain toy (str "example.com..") = Er EDomainDot /\
  normalize_domain toy (str "example.com.") = Ok (str "example.com") /\
  normalize_domain toy (str "..") = Er EDomainDot.
Proof. vm_compute. repeat split. Qed.

Example ex_with_on_zero :
  with_local toy zero (str "foo") = (zero, EDomainLen) /\
  with_resource toy zero (str "foo") = (zero, EDomainLen) /\
  with_domain toy zero (str "example.com") = (new_unsafe [] (str "example.com") [], ENone).
Proof. vm_compute. repeat split. Qed.

Example ex_attr_empty_resets : unmarshal_attr toy juliet [] = (zero, ENone).
Proof. vm_compute. reflexivity. Qed.

(* IP literals skip IDNA; a forbidden localpart character is rejected *)
Example ex_ip : new toy (str "a") (str "[::1]") [] = Ok (new_unsafe (str "a") (str "[::1]") []) /\
                new toy (str "a") (str "127.0.0.1") [] = Ok (new_unsafe (str "a") (str "127.0.0.1") []).
Proof. vm_compute. split; reflexivity. Qed.

Example ex_forbidden : new toy (str "a:b") (str "example.com") [] = Er EForbidden.
Proof. vm_compute. reflexivity. Qed.

(* utf8_valid agrees with unicode/utf8 on the classic corner cases *)
Example ex_utf8 :
  utf8_valid (hex "c3a9e282acf09f9880") = true /\ utf8_valid (hex "c080") = false /\
  utf8_valid (hex "eda080") = false /\ utf8_valid (hex "f4908080") = false /\
  utf8_valid (hex "e08080") = false /\ utf8_valid (hex "c3") = false /\ utf8_valid (hex "ff") = false.
Proof. vm_compute. repeat split. Qed.

(* hypotheses of the replacement theorems are met by a concrete chain *)
Example ex_chain :
  exists j0 j1, new toy [] (str "example.com") [] = Ok j0 /\
    with_local toy j0 (str "juliet") = (j1, ENone) /\ with_resource toy j1 (str "balcony") = (juliet, ENone).
Proof.
  exists (new_unsafe [] (str "example.com") []), (new_unsafe (str "juliet") (str "example.com") []).
  vm_compute. repeat split.
Qed.

(* the history of seeded change C11-m6 on the model of the code as it is: the
   bare value shares the array of the full one (same array, nothing allocated),
   and both WithResource results leave every earlier value alone *)
Definition demo_prog : list hop :=
  [HNew (str "juliet") (str "example.com") (str "balcony"); HBare 0;
   HWithR 1 (str "orchard"); HWithR 1 (str "chamber")].

Example ex_history_views :
  map string_of (views (h_run toy (fun n => n) st0 demo_prog)) =
  [str "juliet@example.com/balcony"; str "juliet@example.com";
   str "juliet@example.com/orchard"; str "juliet@example.com/chamber"].
Proof. vm_compute. reflexivity. Qed.

Example ex_bare_shares_the_array :
  let st := h_run toy (fun n => n) st0 demo_prog in
  s_arr (h_data (hreg st 1)) = s_arr (h_data (hreg st 0)) /\
  s_cap (h_data (hreg st 1)) = 24 /\ s_len (h_data (hreg st 1)) = 17.
Proof. vm_compute. repeat split. Qed.

Example ex_history_clean :
  clean_from [] demo_prog (st_errs (h_run toy (fun n => n) st0 demo_prog)) = [true; true; true; true].
Proof. vm_compute. reflexivity. Qed.

(* the heap layer is able to express the defect: WithResource as in the seeded
   change (append straight onto the bare slice when the receiver is bare)
   overwrites the resourcepart of the value the bare one was taken from *)
Definition h_with_resource_inplace (X : ext) (slack : nat -> nat) (h : heap) (j : hjid) (r : bytes)
  : heap * (hjid * jerr) :=
  let b := h_bare j in
  if negb (s_len (h_data j) =? s_len (h_data b)) then h_with_resource X slack h j r
  else if is_nil r then (h, (b, ENone))
  else match x_opaque X r with
       | None => (h, (hzero, EPrecis))
       | Some r' => let '(h2, data2) := sl_append slack h (h_data b) r' in
                    (h2, (mkh data2 (h_ll j) (h_dl j), resource_checks r'))
       end.

Example ex_inplace_design_breaks_independence :
  let st := h_run toy (fun n => n) st0 [HNew (str "juliet") (str "example.com") (str "balcony"); HBare 0] in
  let '(h', _) := h_with_resource_inplace toy (fun n => n) (st_heap st) (hreg st 1) (str "orchard") in
  string_of (view (st_heap st) (hreg st 0)) = str "juliet@example.com/balcony" /\
  string_of (view h' (hreg st 0)) = str "juliet@example.com/orchard" /\
  ~ pres (st_heap st) h'.
Proof.
  vm_compute. split; [reflexivity | split; [reflexivity|]].
  intros [_ P]. specialize (P 0 (le_n 1)). discriminate P.
Qed.
