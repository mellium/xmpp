(* C07/Properties.v — the property theorems of C07.
   "Every incoming get/set IQ is answered exactly once; replies are never answered."

   Vocabulary: [his] is handleInputStream on one top-level element with an
   arbitrary handler tree; an invocation [v] records the start tag shown
   ([v_name], [v_attrs]), what the handler wrote ([v_hw]), what the session
   added ([v_auto]) and how the invocation ended ([v_ret], None = no error).
   [reply_tree id t]: t is an iq element (no name space or a content name space)
   whose id is [id] and whose type is not get or set — exactly what the session
   counts as the handler's reply (a missing or unknown type counts too).
   [default_tree id to] is the service-unavailable error reply.

   Outstanding requests of the session itself (SendIQ, SendMessage, SendPresence
   calls waiting for their response) are part of every statement: [tb] is the
   table of these registrations at the moment the element arrives, an arbitrary
   [ptable]; in a whole run other goroutines change it arbitrarily between any
   two elements ([env]). [his_p] is handleInputStream with that table; its
   result is [PH h] (the element was handled as [his] does, [h = HRInv v] for a
   handler invocation) or [PDiv d] (the element was handed to the waiter of an
   outstanding request instead). *)
From XV Require Import lib.Bytes lib.Xml gen.Serve C08.Model C08.Case C08.Proofs C08.Loop C07.Model C07.Proofs C07.Pending.

(* An incoming get/set IQ, whatever requests of our own are outstanding (any
   table [tb], also one holding the very id of the request): the handler is
   invoked on it (it is never handed to a waiter; the table is left alone), and
   if the invocation ends without error then: if the handler wrote a reply (a
   top-level element that counts as one) the session adds nothing; otherwise it
   adds exactly one element, the service-unavailable error with the request's
   id, which itself counts as the reply, addressed to the (parsed) sender when
   the request named one and unaddressed otherwise — never both. Handlers are
   arbitrary; what they wrote is any forest [f]. *)
Theorem C07_exactly_one_reply :
  forall (c : cfg) (fuel : nat) (tb : ptable) (hf : handlers) (pd : N) (n : name) (a : list attr)
         (l : list token) (f : list tree),
  clean (c_ws c) (TStart n a) = true -> length l < fuel ->
  let a' := shown_attrs c n a in
  let id := fst (get_id_typ a') in
  let from := attr_get s_from a' in
  is_iq n = true -> needs_resp (snd (get_id_typ a')) = true ->
  exists v p', his_p c fuel tb hf (mkp (TStart n a :: l) pd false) = (PH (HRInv v), p', tb) /\
    v_name v = n /\ v_attrs v = a' /\
    (v_ret v = None -> v_hw v = tokens_of_forest f ->
      (existsb (reply_tree id) f = true -> v_auto v = []) /\
      (existsb (reply_tree id) f = false ->
         exists j, v_auto v = tokens_of_tree (default_tree id j) /\
                   reply_tree id (default_tree id j) = true /\
                   (from = [] -> j = []) /\ (from <> [] -> c_jp c from = Some j))).
Proof.
  intros c fuel tb hf pd n a l f Hc Hl a' id from Hiq Hneed.
  destruct (scan (c_ws c) 0 l) as [pre e] eqn:Hs.
  destruct (his_elem c fuel hf pd n a l pre e Hc Hs) as [v [p' [E [Hv _]]]].
  exists v, p'. split.
  - rewrite (his_p_not_diverted c fuel tb hf pd n a l Hc (request_not_diverted tb n a' Hneed)), E. reflexivity.
  - destruct (inv_spec_shown Hv) as [V1 V2]. split; [exact V1|]. split; [exact V2|].
    exact (reply_rule c n a pd pre e v p' f Hv Hiq Hneed).
Qed.
Print Assumptions C07_exactly_one_reply.

(* Elements with another id, of type get or set, outside the iq name, or nested
   inside other elements do not count: the default reply is still added. *)
Theorem C07_other_ids_dont_count :
  forall (c : cfg) (fuel : nat) (tb : ptable) (hf : handlers) (pd : N) (n : name) (a : list attr) (l : list token)
         (v : inv) (p' : pst) (tb' : ptable) (f : list tree),
  clean (c_ws c) (TStart n a) = true -> length l < fuel ->
  his_p c fuel tb hf (mkp (TStart n a :: l) pd false) = (PH (HRInv v), p', tb') ->
  let a' := shown_attrs c n a in
  let id := fst (get_id_typ a') in
  is_iq n = true -> needs_resp (snd (get_id_typ a')) = true ->
  v_ret v = None -> v_hw v = tokens_of_forest f ->
  (forall t, In t f -> match t with
                       | Elem m b _ => is_iq_empty m = false \/ fst (get_id_typ b) <> id
                                       \/ needs_resp (snd (get_id_typ b)) = true
                       | _ => True
                       end) ->
  exists j, v_auto v = tokens_of_tree (default_tree id j).
Proof.
  intros c fuel tb hf pd n a l v p' tb' f Hc Hl H a' id Hiq Hneed Hret Hhw Hall.
  destruct (his_p_PH_inversion c fuel tb hf pd n a l _ p' tb' Hc H) as [Hh _].
  destruct (his_inv_spec c fuel hf pd n a l v p' Hc Hh) as [pre [e Hv]].
  destruct (reply_rule c n a pd pre e v p' f Hv Hiq Hneed Hret Hhw) as [_ R2].
  assert (Hex : existsb (reply_tree id) f = false).
  { apply not_true_is_false. intro Hex. apply existsb_exists in Hex. destruct Hex as [[m b k|b|k b] [Hin Ht]]; try discriminate.
    destruct (reply_start_inversion _ _ _ Ht) as [H1 [H2 H3]]. destruct (Hall _ Hin) as [H0|[H0|H0]]; congruence. }
  destruct (R2 Hex) as [j [J1 _]]. exists j. exact J1.
Qed.
Print Assumptions C07_other_ids_dont_count.

(* Whatever method of the TokenReadEncoder the handler writes through —
   EncodeToken token by token, xmlstream.Copy into it, Encode(v), or
   EncodeElement(v, start), which replaces the outermost start and end tag — the
   tokens go through the same detector ([run_h] of [h_write m ts k] is [run_h] of
   [k] with the checker advanced over [method_tokens m ts]), the element that
   reaches it is [method_tree m t], and a top-level element so written is
   counted as the reply exactly when that element is one ([reply_tree]). With
   C07_exactly_one_reply: a reply written by ANY method suppresses the default
   reply, and one that is none does not (several elements written in one call:
   [method_tokens_forest], C07/Proofs.v). That the code funnels every method
   into EncodeToken is read from the source (C07_tables: [sv_rc_*]). *)
Theorem C07_reply_detected_by_every_method :
  (forall ws id m ts k s w seen,
     run_h ws id (h_write m ts k) s w seen = run_h ws id k s (enc_all id (method_tokens m ts) w) seen) /\
  (forall m n0 a0 kids,
     method_tokens m (tokens_of_tree (Elem n0 a0 kids)) = tokens_of_tree (method_tree m (Elem n0 a0 kids))) /\
  (forall id m n0 a0 kids,
     w_wrote (enc_all id (method_tokens m (tokens_of_tree (Elem n0 a0 kids))) w0)
     = reply_tree id (method_tree m (Elem n0 a0 kids))) /\
  (forall id m f, w_wrote (enc_all id (tokens_of_forest (map (method_tree m) f)) w0)
                  = existsb (reply_tree id) (map (method_tree m) f)).
Proof.
  split; [intros; apply run_h_writes|]. split; [exact method_tokens_tree|]. split.
  - intros id m n0 a0 kids. rewrite method_tokens_tree. apply wrote_tree.
  - intros id m f. apply wrote_forest.
Qed.
Print Assumptions C07_reply_detected_by_every_method.

(* IQs of type result or error (or any type other than get/set) and elements
   that are not IQs never get an automatic reply, however the invocation ends
   and whatever is outstanding. *)
Theorem C07_no_auto_reply_otherwise :
  forall (c : cfg) (fuel : nat) (tb : ptable) (hf : handlers) (pd : N) (n : name) (a : list attr) (l : list token)
         (v : inv) (p' : pst) (tb' : ptable),
  clean (c_ws c) (TStart n a) = true -> length l < fuel ->
  his_p c fuel tb hf (mkp (TStart n a :: l) pd false) = (PH (HRInv v), p', tb') ->
  is_iq n = false \/ needs_resp (snd (get_id_typ (shown_attrs c n a))) = false ->
  v_auto v = [].
Proof.
  intros c fuel tb hf pd n a l v p' tb' Hc Hl H Hor.
  destruct (his_p_PH_inversion c fuel tb hf pd n a l _ p' tb' Hc H) as [Hh _].
  destruct (his_inv_spec c fuel hf pd n a l v p' Hc Hh) as [pre [e Hv]].
  apply (no_auto_reply c n a pd pre e v p' Hv Hor).
Qed.
Print Assumptions C07_no_auto_reply_otherwise.

(* Only responses are ever handed to waiters: an element that goes to the waiter
   of an outstanding request instead of the handler has type result or error
   (so it is no request and needs no reply), the table held an entry with its id
   whose registered name accepts the element's name, and the only effect on the
   table is that a waiter that took its response is no longer registered.
   Nothing is written for such an element ([dinv] has no output). *)
Theorem C07_only_responses_reach_waiters :
  forall (c : cfg) (fuel : nat) (tb : ptable) (hf : handlers) (pd : N) (n : name) (a : list attr) (l : list token)
         (d : dinv) (p' : pst) (tb' : ptable),
  clean (c_ws c) (TStart n a) = true -> length l < fuel ->
  his_p c fuel tb hf (mkp (TStart n a :: l) pd false) = (PDiv d, p', tb') ->
  let a' := shown_attrs c n a in
  (d_name d = n /\ d_attrs d = a' /\
   (snd (get_id_typ a') = sv_iq_result \/ snd (get_id_typ a') = sv_iq_error) /\
   needs_resp (snd (get_id_typ a')) = false /\
   exists e, In e tb /\ pe_id e = fst (get_id_typ a') /\ d_id d = pe_id e /\
             name_accepts (pe_name e) n = true /\ d_taken d = pe_live e) /\
  tb' = (if d_taken d then pt_remove (d_id d) tb else tb).
Proof.
  intros c fuel tb hf pd n a l d p' tb' Hc Hl H.
  destruct (diverted_to tb n (shown_attrs c n a)) as [e0|] eqn:Hd.
  - destruct (his_p_diverted c fuel tb hf pd n a l e0 Hc Hd) as [seen [ret [p1 [E _]]]].
    rewrite E in H. inversion H; subst. split; [exact (diverted_div_spec c _ _ _ _ _ _ Hd)|reflexivity].
  - rewrite (his_p_not_diverted c fuel tb hf pd n a l Hc Hd) in H. discriminate.
Qed.
Print Assumptions C07_only_responses_reach_waiters.

(* The whole run of Serve on any script, any handlers, any initial table of
   outstanding requests and any interference [env] of other goroutines with that
   table: every event is a handler invocation meeting the per-invocation
   specification (hence the rules above) or a response handed to a waiter; if
   Serve returns nil all of them ended without error (so every request among
   them was answered exactly once); otherwise only the last one can have failed
   and Serve returns an error — the stream is terminated. In particular a
   handler returning a bare EOF does not end Serve silently (C08_resync: an
   invocation never ends with EOF). *)
Theorem C07_answered_or_stream_terminated :
  forall (c : cfg) (env : nat -> ptable -> ptable) (hf : nat -> handlers) (tb : ptable)
         (toks : list token) (base : list name),
  ends_match base toks = true ->
  let r := serve_all_p c env hf tb toks in
  Forall (fun ev => match ev with
                    | EvInv v => exists n a pre e p', clean (c_ws c) (TStart n a) = true /\ inv_spec c n a 0%N pre e v p'
                    | EvDiv d => exists tb0 n a, clean (c_ws c) (TStart n a) = true /\ div_spec c tb0 n a d
                    end) (sp_events r) /\
  (sp_ret r = None -> Forall (fun ev => ev_ret ev = None) (sp_events r)) /\
  (forall ev, In ev (removelast (sp_events r)) -> ev_ret ev = None).
Proof.
  intros c env hf tb toks base Hm r. apply (follows_p_events c env 0 tb toks). unfold r, serve_all_p.
  apply (serve_p_follows c env hf (S (length toks)) 0 0 tb toks base Hm). apply Nat.lt_succ_diag_r.
Qed.
Print Assumptions C07_answered_or_stream_terminated.

(* With nothing outstanding and nobody registering anything the loop is the
   plain one of C08 (so the C08 theorems speak about the same function). *)
Theorem C07_nothing_outstanding_is_plain_serve :
  forall (c : cfg) (hf : nat -> handlers) (fuel idx k : nat) (p : pst),
  let r := serve_p c fuel env_id hf idx k [] p in
  sp_ret r = s_ret (serve c fuel hf idx p) /\ sp_events r = map EvInv (s_invs (serve c fuel hf idx p)) /\
  sp_rest r = s_rest (serve c fuel hf idx p).
Proof.
  intros c hf. exact (serve_p_nil c env_id hf (fun _ => eq_refl)).
Qed.
Print Assumptions C07_nothing_outstanding_is_plain_serve.

(* The multiplexer (repaired iqRouter) with no handler registered: a get/set IQ
   — with a payload element, with text, with whitespace only or with nothing at
   all — gets exactly the fallback's service-unavailable reply and nothing from
   the session; the only alternative is that the element could not be read and
   the invocation fails. ([q] is stanza.NewIQ's reading of the start tag; it
   agrees with the session's reading of id and type when attributes are
   unqualified.) *)
Theorem C07_mux_fallback :
  forall (c : cfg) (fuel mf : nat) (m : muxcfg) (tb : ptable) (pd : N) (n : name) (a : list attr) (l : list token)
         (v : inv) (p' : pst) (tb' : ptable) (q : iqv),
  m_regs m = [] -> m_fixed m = true ->
  clean (c_ws c) (TStart n a) = true -> length l < fuel ->
  let a' := shown_attrs c n a in
  let id := fst (get_id_typ a') in
  his_p c fuel tb (mux_handler m (c_jp c) mf) (mkp (TStart n a :: l) pd false) = (PH (HRInv v), p', tb') ->
  is_iq n = true -> stanza_is n (m_ns m) && bytes_eqb (nlocal n) s_iq = true ->
  needs_resp (snd (get_id_typ a')) = true ->
  new_iq (c_jp c) n a' = Some q -> q_id q = id -> q_typ q = snd (get_id_typ a') ->
  (v_hw v = tokens_of_tree (fallback_tree q) /\ reply_tree id (fallback_tree q) = true /\ v_auto v = []) \/
  (v_hw v = [] /\ v_auto v = [] /\ v_ret v <> None).
Proof.
  intros c fuel mf m tb pd n a l v p' tb' q Hr Hf Hc Hl a' id H.
  intros Hiq Hst Hneed Hq Hid Htyp.
  destruct (his_p_PH_inversion c fuel tb _ pd n a l _ p' tb' Hc H) as [Hh _].
  destruct (scan (c_ws c) 0 l) as [pre e] eqn:Hs.
  destruct (his_elem c fuel (mux_handler m (c_jp c) mf) pd n a l pre e Hc Hs) as [v0 [p0 [E0 [Hv Hrun]]]].
  rewrite Hh in E0. injection E0 as <- <-.
  destruct (Hrun _ (mux_fallback_writes (c_jp c) mf m n a' q Hr Hf Hst Hq)) as [ret [Hw Hret]].
  destruct (fallback_counts q) as [Hfb Hrep];
    [rewrite Htyp; exact Hneed|rewrite (new_iq_from_name _ _ _ _ _ Hq); exact Hiq|]. rewrite Hid in Hrep.
  destruct Hw as [Hw|[Hw Hfail]].
  - left. rewrite Hw. split; [exact Hfb|]. split; [exact Hrep|].
    apply (inv_spec_no_auto Hv). unfold wanted. fold a'. fold id.
    rewrite Hw, Hfb, wrote_tree, Hrep. apply andb_false_r.
  - right. destruct (Hret Hfail) as [H1 H2]. split; [exact Hw|]. split; assumption.
Qed.
Print Assumptions C07_mux_fallback.

(* The multiplexer before its repair (4499470, 55a95ba: iqRouter returned io.EOF
   for an IQ without payload): the conclusion above fails for it ([m_fixed =
   false], the other variant of the model) — <iq type='get' id='x'/> is not
   answered at all. (With the session's repair 6cac915 the stream is then
   terminated with an error; before it Serve returned nil.) *)
Theorem C07_mux_fallback_pinned_refuted :
  exists toks, ends_match [stream_root] toks = true /\
    let r := serve_all ex_cfg (fun _ => mux_handler (mkmux sv_ns_client false []) (c_jp ex_cfg) 10) toks in
    written r = [] /\ s_ret r = Some EUnexpectedEOF /\
    exists v, s_invs r = [v] /\ is_iq (v_name v) = true /\ get_id_typ (v_attrs v) = (str "x", sv_iq_get).
Proof.
  exists ex_empty_iq. split; [vm_compute; reflexivity|]. intro r.
  pose proof pinned_mux_run as H. cbv zeta in H. fold r in H. clearbody r. injection H as H1 H2 H3.
  split; [exact H1|]. split; [exact H2|].
  destruct (s_invs r) as [|v [|v' t]]; try discriminate H3. injection H3 as H4 H5.
  exists v. split; [reflexivity|]. split; assumption.
Qed.
Print Assumptions C07_mux_fallback_pinned_refuted.

(* The rule depends on these constants and conditions of the source (regenerated
   on every run): which types are requests; the iq names; and the condition under
   which handleInputStream consults the table of outstanding requests — a
   disjunction of comparisons of the type with "result" and "error" and nothing
   else (in particular not "any IQ"), at the single place where the table is
   used — so that no type that needs a reply ever consults it. *)
Theorem C07_tables :
  (needs_resp sv_iq_get = true /\ needs_resp sv_iq_set = true) /\
  (needs_resp sv_iq_error = false /\ needs_resp sv_iq_result = false) /\
  (is_iq (mkname sv_ns_client s_iq) = true /\ is_iq (mkname sv_ns_server s_iq) = true /\
   is_iq_empty (mkname [] s_iq) = true /\ is_iq (mkname [] s_iq) = false) /\
  (sv_lookup_any_iq = false /\ sv_lookup_unrecognised = 0 /\ sv_lookup_sites = 1 /\ sv_lookup_uses = 1) /\
  sv_lookup_types = [sv_iq_result; sv_iq_error] /\
  (sv_needs_resp_any_iq = false /\ sv_needs_resp_unrecognised = 0 /\ sv_needs_resp_types = [sv_iq_get; sv_iq_set]) /\
  (forall b typ, needs_resp typ = true -> consults b typ = false) /\
  (* responseChecker: besides EncodeToken the handler can write through Encode and
     EncodeElement; both hand the checker itself to the encoder, the embedded
     writer is mentioned nowhere outside EncodeToken and once in it *)
  (sv_rc_write_methods = [str "Encode"; str "EncodeElement"] /\ sv_rc_funnelled = 2 /\
   sv_rc_direct_uses = 0 /\ sv_rc_delegations = 1).
Proof.
  split; [vm_compute; split; reflexivity|]. split; [vm_compute; split; reflexivity|].
  split; [vm_compute; repeat split|]. split; [exact tbl_lookup_shape|]. split; [exact tbl_lookup_types|].
  split; [vm_compute; repeat split|]. split; [exact consults_not_requests|]. exact tbl_rc_funnel.
Qed.
Print Assumptions C07_tables.
