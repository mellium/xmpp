(* C07/Examples.v — non-vacuity: instances of the hypotheses of the C07 theorems
   and worked runs (the serveTests cases 2-4 and 6, and the multiplexer). *)
From XV Require Import lib.Bytes lib.Xml gen.Serve C08.Model C08.Case C08.Examples C07.Model.

Definition iq_get : list token :=
  [TStart (cl "iq") [at' "type" "get"; at' "id" "1234"; at' "from" "a@example.net/r"];
   TStart (mkname (str "unknown") (str "unknownpayload")) []; TEnd (mkname (str "unknown") (str "unknownpayload"));
   TEnd (cl "iq"); TEnd stream_root].

Definition reply (typ id : string) : list token :=
  [TStart (mkname [] s_iq) [at' "type" typ; at' "id" id]; TEnd (mkname [] s_iq)].

Definition run (p : list hop) : sres := serve_all ex_c (prog_handlers [p]) iq_get.

Example ex_hyps :
  ends_match [stream_root] iq_get = true /\ is_iq (cl "iq") = true /\
  get_id_typ [at' "type" "get"; at' "id" "1234"; at' "from" "a@example.net/r"] = (str "1234", sv_iq_get) /\
  needs_resp sv_iq_get = true.
Proof. vm_compute. repeat split; reflexivity. Qed.

(* no reply written: exactly the default reply, addressed to the sender *)
Example ex_default : written (run []) = default_reply (str "1234") (str "a@example.net/r") /\ s_ret (run []) = None.
Proof. vm_compute. split; reflexivity. Qed.

(* the handler's own reply: nothing is added *)
Example ex_own_reply : written (run [OWrite (reply "result" "1234")]) = reply "result" "1234".
Proof. vm_compute. reflexivity. Qed.

(* another id, or a get: the default reply is added after what the handler wrote *)
Example ex_wrong_id :
  written (run [OWrite (reply "result" "wrongid")]) = reply "result" "wrongid" ++ default_reply (str "1234") (str "a@example.net/r").
Proof. vm_compute. reflexivity. Qed.
Example ex_get_no_reply :
  written (run [OWrite (reply "get" "1234")]) = reply "get" "1234" ++ default_reply (str "1234") (str "a@example.net/r").
Proof. vm_compute. reflexivity. Qed.

(* what counts: as trees *)
Example ex_reply_trees :
  reply_tree (str "1234") (Elem (mkname [] s_iq) [at' "type" "result"; at' "id" "1234"] []) = true /\
  reply_tree (str "1234") (Elem (mkname [] s_iq) [at' "id" "1234"] []) = true /\
  reply_tree (str "1234") (Elem (mkname [] s_iq) [at' "type" "set"; at' "id" "1234"] []) = false /\
  reply_tree (str "1234") (Elem (mkname [] (str "wrap")) [] [Elem (mkname [] s_iq) [at' "type" "result"; at' "id" "1234"] []]) = false /\
  reply_tree (str "1234") (Elem (mkname [] s_iq) [mkattr (mkname (str "urn:x") s_id) (str "1234"); at' "type" "result"] []) = false.
Proof. vm_compute. repeat split; reflexivity. Qed.

(* a handler that returns EOF does not end Serve silently *)
Example ex_handler_eof : s_ret (run [ORet REOF]) = Some EUnexpectedEOF /\ written (run [ORet REOF]) = [].
Proof. vm_compute. split; reflexivity. Qed.

(* type result: never answered *)
Example ex_result_unanswered :
  written (serve_all ex_c (prog_handlers [[]])
             [TStart (cl "iq") [at' "type" "result"; at' "id" "1"]; TEnd (cl "iq"); TEnd stream_root]) = [].
Proof. vm_compute. reflexivity. Qed.

(* the multiplexer's hypotheses: NewIQ's reading agrees with the session's *)
Example ex_new_iq :
  let a := [at' "type" "get"; at' "id" "1234"; at' "from" "a@example.net/r"] in
  exists q, new_iq (c_jp ex_c) (cl "iq") a = Some q /\ q_id q = fst (get_id_typ a) /\ q_typ q = snd (get_id_typ a)
            /\ stanza_is (cl "iq") sv_ns_client && bytes_eqb (nlocal (cl "iq")) s_iq = true.
Proof. eexists. vm_compute. repeat split; reflexivity. Qed.

Example ex_mux_fallback :
  written (serve_all ex_c (fun _ => mux_handler (mkmux sv_ns_client true []) (c_jp ex_c) 10) iq_get)
  = fallback_reply (mkiqv (cl "iq") (str "1234") sv_iq_get [] (str "a@example.net/r") []).
Proof. vm_compute. reflexivity. Qed.

(* our own request with id 1234 is waiting while the peer's get with the same id, then the
   response, then a set with that id arrive *)
Definition ex_waiter : pentry :=
  mkpe (str "1234") (mkname [] s_iq) true (compile [ORead 1 false; OReadRet 40]).

Definition ex_collide : list token :=
  [TStart (cl "iq") [at' "type" "get"; at' "id" "1234"; at' "from" "a@example.net/r"]; TEnd (cl "iq");
   TStart (cl "iq") [at' "type" "result"; at' "id" "1234"]; TStart (cl "q") []; TEnd (cl "q"); TEnd (cl "iq");
   TStart (cl "iq") [at' "type" "set"; at' "id" "1234"]; TEnd (cl "iq");
   TEnd stream_root].

Definition run_p : sres_p := serve_all_p ex_c env_id (prog_handlers [[]]) [ex_waiter] ex_collide.

(* the request is handled and answered, the response goes to the waiter (start
   tag, payload, end tag together with EOF), the later request with the same id
   is handled again: the registration is gone *)
Example ex_collide_run :
  ends_match [stream_root] ex_collide = true /\
  sp_ret run_p = None /\
  map (fun ev => match ev with EvInv v => (true, snd (get_id_typ (v_attrs v))) | EvDiv d => (false, snd (get_id_typ (d_attrs d))) end)
      (sp_events run_p) = [(true, sv_iq_get); (false, sv_iq_result); (true, sv_iq_set)] /\
  written_p run_p = default_reply (str "1234") (str "a@example.net/r") ++ default_reply (str "1234") [] /\
  map d_seen (divs_of (sp_events run_p)) =
    [[ok_res (TStart (cl "iq") [at' "type" "result"; at' "id" "1234"]); ok_res (TStart (cl "q") []); ok_res (TEnd (cl "q"));
      (Some (TEnd (cl "iq")), Some EEOF)]].
Proof. vm_compute. repeat split; reflexivity. Qed.

(* the lookup that decides a hand-over: a response with a registered id and an
   accepted name, and nothing else *)
Example ex_diverted_to :
  diverted_to [ex_waiter] (cl "iq") [at' "type" "result"; at' "id" "1234"] = Some ex_waiter /\
  diverted_to [ex_waiter] (cl "iq") [at' "type" "get"; at' "id" "1234"] = None /\
  diverted_to [ex_waiter] (cl "message") [at' "type" "error"; at' "id" "1234"] = None /\
  diverted_to [ex_waiter] (cl "iq") [at' "type" "error"; at' "id" "other"] = None.
Proof. vm_compute. repeat split; reflexivity. Qed.

(* a waiter whose context is done leaves the response to nobody; Serve goes on *)
Example ex_cancelled_waiter :
  let r := serve_all_p ex_c env_id (prog_handlers [[]])
             [mkpe (str "1234") (mkname [] s_iq) false (HRet None)] ex_collide in
  map d_taken (divs_of (sp_events r)) = [false] /\ length (invs_of (sp_events r)) = 2 /\ sp_ret r = None.
Proof. vm_compute. repeat split; reflexivity. Qed.
