(* C07/Proofs.v — the response checker on trees and forests, the reply rule for one
   invocation, the multiplexer's IQ path. *)
From XV Require Import lib.Bytes lib.Xml gen.Serve C08.Model C08.Proofs C08.Loop C07.Model C07.Pending.
From Coq Require Import ZArith Lia.

Lemma enc_all_app id x y w : enc_all id (x ++ y) w = enc_all id y (enc_all id x w).
Proof. unfold enc_all. apply fold_left_app. Qed.

(* induction on forests: the children of the first tree, then its siblings *)
Lemma forest_ind (P : list tree -> Prop) :
  P [] -> (forall n a kids f, P kids -> P f -> P (Elem n a kids :: f)) ->
  (forall b f, P f -> P (Text b :: f)) -> (forall k b f, P f -> P (Misc k b :: f)) ->
  forall f, P f.
Proof.
  intros H0 HE HT HM.
  assert (Ht : forall t f, P f -> P (t :: f)).
  { induction t as [n a kids IH|b|k b] using tree_ind_kids; intros f Hf; [|apply HT, Hf|apply HM, Hf].
    apply HE; [|exact Hf]. induction IH as [|k ks Hk _ IHk]; [exact H0|apply Hk, IHk]. }
  induction f as [|t f IH]; [exact H0|apply Ht, IH].
Qed.

(* complete elements leave the level where it was, and count only at the top level *)
Lemma enc_forest id : forall f w, (0 <= w_level w)%Z ->
  w_level (enc_all id (tokens_of_forest f) w) = w_level w /\
  w_wrote (enc_all id (tokens_of_forest f) w) = w_wrote w || ((w_level w <? 1)%Z && existsb (reply_tree id) f).
Proof.
  induction f as [|n a kids f IHk IHf|b f IH|k b f IH] using forest_ind; intros w Hl;
    [split; [reflexivity|cbn; rewrite andb_false_r, orb_false_r; reflexivity]|
    |exact (IH (rc_encode id (TChar b) w) Hl)|exact (IH (rc_encode id (TMisc k b) w) Hl)].
  change (tokens_of_forest (Elem n a kids :: f))
    with ([TStart n a] ++ (tokens_of_forest kids ++ [TEnd n]) ++ tokens_of_forest f).
  rewrite !enc_all_app. set (w1 := enc_all id [TStart n a] w).
  assert (H1 : w_level w1 = (w_level w + 1)%Z /\ w_wrote w1 = w_wrote w || ((w_level w <? 1)%Z && reply_start id n a)).
  { unfold w1, enc_all, reply_start. cbn [fold_left rc_encode].
    destruct (get_id_typ a) as [i ty]. cbn [w_level w_wrote fst snd]. split; [reflexivity|].
    rewrite !andb_assoc. reflexivity. }
  destruct H1 as [L1 W1]. destruct (IHk w1) as [L2 W2]; [lia|].
  (* inside the element the level is at least 1: nothing counts *)
  assert (Hlt : (w_level w1 <? 1)%Z = false) by (apply Z.ltb_ge; lia). rewrite Hlt, orb_false_r in W2.
  set (w2 := enc_all id (tokens_of_forest kids) w1) in *.
  destruct (IHf (enc_all id [TEnd n] w2)) as [L3 W3]; [cbn; lia|].
  split; [rewrite L3; cbn; lia|]. rewrite W3. cbn [enc_all fold_left rc_encode w_level w_wrote existsb reply_tree].
  rewrite W2, W1, L2, L1. replace (w_level w + 1 - 1)%Z with (w_level w) by lia.
  rewrite andb_orb_distrib_r, orb_assoc. reflexivity.
Qed.

Lemma wrote_forest id f : w_wrote (enc_all id (tokens_of_forest f) w0) = existsb (reply_tree id) f.
Proof. apply (enc_forest id f w0). discriminate. Qed.

Lemma wrote_tree id t : w_wrote (enc_all id (tokens_of_tree t) w0) = reply_tree id t.
Proof.
  rewrite <- (app_nil_r (tokens_of_tree t)). change (w_wrote (enc_all id (tokens_of_forest [t]) w0) = reply_tree id t).
  rewrite wrote_forest. apply orb_false_r.
Qed.

Lemma wanted_forest n a' f :
  wanted n a' (tokens_of_forest f)
  = is_iq n && needs_resp (snd (get_id_typ a')) && negb (existsb (reply_tree (fst (get_id_typ a'))) f).
Proof. unfold wanted. rewrite wrote_forest. reflexivity. Qed.

Lemma reply_start_inversion id n a : reply_start id n a = true ->
  is_iq_empty n = true /\ fst (get_id_typ a) = id /\ needs_resp (snd (get_id_typ a)) = false.
Proof.
  unfold reply_start. intro H. apply andb_true_iff in H. destruct H as [H H3].
  apply andb_true_iff in H. destruct H as [H1 H2]. apply bytes_eqb_eq in H2. apply negb_true_iff in H3. auto.
Qed.

Lemma run_h_writes ws id ts k : forall s w seen,
  run_h ws id (fold_right HWr k ts) s w seen = run_h ws id k s (enc_all id ts w) seen.
Proof.
  induction ts as [|t ts IH]; intros s w seen; [reflexivity|].
  cbn [fold_right run_h]. rewrite IH. reflexivity.
Qed.

(* marshal.outerWriter below its first start tag leaves complete elements alone *)
Lemma outer_forest n a : forall f d rest,
  outer_from n a (S d) (tokens_of_forest f ++ rest) = tokens_of_forest f ++ outer_from n a (S d) rest.
Proof.
  induction f as [|m b kids f IHk IHf|b f IH|k b f IH] using forest_ind; intros d rest;
    [reflexivity| |cbn [tokens_of_forest flat_map tokens_of_tree app outer_from]; f_equal; apply IH ..].
  change (tokens_of_forest (Elem m b kids :: f)) with (TStart m b :: (tokens_of_forest kids ++ [TEnd m]) ++ tokens_of_forest f).
  cbn [app outer_from]. rewrite <- !app_assoc, IHk. cbn [app outer_from]. rewrite IHf. reflexivity.
Qed.

Lemma outer_el_tree n a n0 a0 kids rest :
  outer_from n a 0 (tokens_of_tree (Elem n0 a0 kids) ++ rest)
  = tokens_of_tree (Elem n (a ++ filter not_xmlns a0) kids) ++ outer_from n a 0 rest.
Proof.
  cbn [tokens_of_tree app outer_from]. f_equal. rewrite <- !app_assoc.
  rewrite (outer_forest n a kids). reflexivity.
Qed.

(* the element that reaches the detector when [t] is written by method [m] *)
Definition method_tree (m : wmethod) (t : tree) : tree :=
  match m, t with
  | MEncodeElement n a, Elem _ a0 kids => Elem n (a ++ filter not_xmlns a0) kids
  | _, _ => t
  end.

(* a sequence of elements written in one call: EncodeElement replaces the outer tags of each *)
Lemma method_tokens_forest m f : method_tokens m (tokens_of_forest f) = tokens_of_forest (map (method_tree m) f).
Proof.
  destruct m as [| | |n a]; try (rewrite (map_ext _ (fun t => t)), map_id; reflexivity).
  unfold method_tokens, outer_el, tokens_of_forest. induction f as [|t f IH]; [reflexivity|].
  cbn [map flat_map]. destruct t as [n0 a0 kids|b|k b].
  - rewrite outer_el_tree, IH. reflexivity.
  - cbn [tokens_of_tree app outer_from method_tree]. rewrite IH. reflexivity.
  - cbn [tokens_of_tree app outer_from method_tree]. rewrite IH. reflexivity.
Qed.

Lemma method_tokens_tree m n0 a0 kids :
  method_tokens m (tokens_of_tree (Elem n0 a0 kids)) = tokens_of_tree (method_tree m (Elem n0 a0 kids)).
Proof.
  pose proof (method_tokens_forest m [Elem n0 a0 kids]) as H. unfold tokens_of_forest in H.
  cbn [map flat_map] in H. rewrite !app_nil_r in H. exact H.
Qed.

(* the receiver-call structure of session.go responseChecker (what it means: C07_tables) *)
Lemma tbl_rc_funnel :
  sv_rc_write_methods = [str "Encode"; str "EncodeElement"] /\ sv_rc_funnelled = 2 /\
  sv_rc_direct_uses = 0 /\ sv_rc_delegations = 1.
Proof. vm_compute. repeat split. Qed.

(* the default reply is one element and the checker itself would count it as the reply *)
Definition default_tree (id to : bytes) : tree :=
  Elem (mkname [] s_iq)
       ([mk_attr s_type sv_iq_error] ++ (if is_nil to then [] else [mk_attr s_to to])
        ++ (if is_nil id then [] else [mk_attr s_id id]))
       [Elem (mkname [] s_error) [mk_attr s_type sv_err_cancel]
          [Elem (mkname sv_ns_stanza_error sv_cond_service_unavailable) [] []]].

Lemma default_reply_tree id to : default_reply id to = tokens_of_tree (default_tree id to).
Proof. reflexivity. Qed.

Lemma default_reply_is_reply id to : reply_tree id (default_tree id to) = true.
Proof.
  unfold reply_tree, default_tree, reply_start.
  assert (H : get_id_typ ([mk_attr s_type sv_iq_error] ++ (if is_nil to then [] else [mk_attr s_to to])
        ++ (if is_nil id then [] else [mk_attr s_id id])) = (id, sv_iq_error)).
  { destruct to as [|t0 to]; destruct id as [|i0 id]; reflexivity. }
  rewrite H. cbn [fst snd]. rewrite bytes_eqb_refl. reflexivity.
Qed.

Section Rule.
Variable c : cfg.

Lemma reply_rule n a pd pre e v p' f :
  inv_spec c n a pd pre e v p' ->
  let a' := shown_attrs c n a in
  let id := fst (get_id_typ a') in
  let from := attr_get s_from a' in
  is_iq n = true -> needs_resp (snd (get_id_typ a')) = true ->
  v_ret v = None -> v_hw v = tokens_of_forest f ->
  (existsb (reply_tree id) f = true -> v_auto v = []) /\
  (existsb (reply_tree id) f = false ->
     exists j, v_auto v = tokens_of_tree (default_tree id j) /\
               reply_tree id (default_tree id j) = true /\
               (from = [] -> j = []) /\ (from <> [] -> c_jp c from = Some j)).
Proof.
  intros Hv a' id from Hiq Hneed Hret Hhw.
  destruct (inv_spec_reply Hv Hret) as [j [J1 [J2 J3]]].
  fold a' in J1, J2, J3. fold id in J3. fold from in J1, J2.
  rewrite Hhw, wanted_forest, Hiq, Hneed in J1, J2, J3. fold id in J1, J2, J3. cbn [andb] in J1, J2, J3.
  split; intro Hex; rewrite Hex in J1, J2, J3; cbn [negb] in J1, J2, J3; [exact J3|].
  exists j. split; [rewrite J3; apply default_reply_tree|]. split; [apply default_reply_is_reply|]. split.
  - intro Hf. apply J2. right. exact Hf.
  - intro Hf. apply J1; [reflexivity|exact Hf].
Qed.

Lemma no_auto_reply n a pd pre e v p' :
  inv_spec c n a pd pre e v p' ->
  is_iq n = false \/ needs_resp (snd (get_id_typ (shown_attrs c n a))) = false ->
  v_auto v = [].
Proof.
  intros Hv Hor. apply (inv_spec_no_auto Hv). unfold wanted.
  destruct Hor as [-> | ->]; [reflexivity|]. rewrite andb_false_r. reflexivity.
Qed.

End Rule.

Lemma writes_then_ret ts e : forall Q : list token -> option err -> Prop, Q ts e -> writes Q (then_ret ts e).
Proof. induction ts as [|t ts IH]; intros Q H; [exact H|]. apply (IH (fun ts => Q (t :: ts))), H. Qed.

(* reading through TrimLeftSpace(Inner(.)) writes nothing: it runs out of fuel, or goes on with the continuation *)
Lemma writes_ti (Q : list token -> option err -> Prop) : Q [] (Some EFuel) -> forall fuel st kf,
  (forall r st', writes Q (kf r st')) -> writes Q (ti_read fuel st kf).
Proof.
  intros HF. induction fuel as [|f IH]; intros st kf H; cbn [ti_read];
    (destruct (in_count st) as [c0|]; [|apply H]); intros [ot oe]; cbn [fst snd];
    destruct (tr_found st); destruct ot as [[n a|n|b|k b]|]; try destruct c0 as [|c1]; cbv beta iota zeta; cbn [fst snd];
    try apply H; destruct (is_ws b); try apply H; destruct oe; try apply H.
  (* every combination of (element seen yet, kind of token, depth, error) hands the result to the
     continuation, except one: white-space text without error before the first element, which
     is skipped: that is the next read ([IH]), or the end of the fuel *)
  all: first [exact HF | apply IH, H].
Qed.

Lemma fallback_id_typ q :
  bytes_eqb (q_typ q) sv_iq_error || bytes_eqb (q_typ q) sv_iq_result = false ->
  exists a r, fallback_reply q = TStart (mkname (nspace (q_name q)) s_iq) a :: r /\
              get_id_typ a = (q_id q, sv_iq_error).
Proof.
  intro H. unfold fallback_reply. rewrite H. eexists. eexists. split; [reflexivity|].
  destruct (q_from q), (q_to q), (q_id q), (q_lang q); reflexivity.
Qed.

Lemma fallback_name_counts n : is_iq n = true -> is_iq_empty (mkname (nspace n) s_iq) = true.
Proof.
  unfold is_iq, is_iq_empty, in_list. cbn [nspace nlocal existsb sv_is_iq_locals sv_is_iq_spaces sv_is_iq_empty_locals sv_is_iq_empty_spaces].
  intro H. apply andb_true_iff in H. destruct H as [_ H2].
  (* [hex "6971"] is "iq" as the generated table [sv_is_iq_empty_locals] spells it *)
  replace (bytes_eqb s_iq (hex "6971")) with true by reflexivity. cbn [orb andb].
  rewrite !orb_false_r in H2. rewrite !orb_false_r.
  apply orb_true_iff in H2. destruct H2 as [-> | ->]; [rewrite orb_true_r; reflexivity|rewrite !orb_true_r; reflexivity].
Qed.

(* the fallback's reply is one element *)
Definition fallback_tree (q : iqv) : tree :=
  Elem (mkname (nspace (q_name q)) s_iq)
       ([mk_attr s_type sv_iq_error]
        ++ (if is_nil (q_from q) then [] else [mk_attr s_to (q_from q)])
        ++ (if is_nil (q_to q) then [] else [mk_attr s_from (q_to q)])
        ++ (if is_nil (q_id q) then [] else [mk_attr s_id (q_id q)])
        ++ (if is_nil (q_lang q) then [] else [mkattr (mkname xml_ns s_lang) (q_lang q)]))
       [Elem (mkname [] s_error) [mk_attr s_type sv_err_cancel]
          [Elem (mkname sv_ns_stanza_error sv_cond_service_unavailable) [] []]].

Lemma fallback_reply_tree q :
  bytes_eqb (q_typ q) sv_iq_error || bytes_eqb (q_typ q) sv_iq_result = false ->
  fallback_reply q = tokens_of_tree (fallback_tree q).
Proof. intro H. unfold fallback_reply. rewrite H. reflexivity. Qed.

Lemma fallback_is_reply q :
  bytes_eqb (q_typ q) sv_iq_error || bytes_eqb (q_typ q) sv_iq_result = false ->
  is_iq (q_name q) = true -> reply_tree (q_id q) (fallback_tree q) = true.
Proof.
  intros Hnr Hiq. destruct (fallback_id_typ q Hnr) as [a [r [E G]]].
  rewrite (fallback_reply_tree q Hnr) in E. cbn [tokens_of_tree fallback_tree] in E. injection E as <- _.
  unfold reply_tree, fallback_tree, reply_start. cbn [app].
  rewrite G, (fallback_name_counts _ Hiq). cbn [fst snd]. rewrite bytes_eqb_refl. reflexivity.
Qed.

Lemma new_iq_from_name jp sp : forall a v q, new_iq_from jp sp a v = Some q -> q_name q = q_name v.
Proof.
  induction a as [|x a IH]; intros v q H; cbn [new_iq_from] in H.
  - inversion H; reflexivity.
  - repeat match type of H with
           | (if ?b then _ else _) = _ => destruct b
           | match ?o with Some _ => _ | None => _ end = _ => destruct o; [|discriminate]
           end; apply IH in H; exact H.
Qed.

(* With the repaired multiplexer and no handler registered, whatever the request's payload
   (none, whitespace, text, elements), the handler either writes exactly the fallback's
   service-unavailable reply, or the element could not be read (the stream is broken) and it
   writes nothing and fails. *)
Lemma mux_fallback_writes jp fuel m n a q :
  m_regs m = [] -> m_fixed m = true ->
  stanza_is n (m_ns m) && bytes_eqb (nlocal n) s_iq = true ->
  new_iq jp n a = Some q ->
  writes (fun ts e => ts = fallback_reply q \/ (ts = [] /\ e <> None)) (mux_handler m jp fuel n a).
Proof.
  intros Hregs Hfix Hst Hq. unfold mux_handler. rewrite Hst. unfold iq_router. rewrite Hq.
  assert (Hd : forall p st, writes (fun ts e => ts = fallback_reply q \/ (ts = [] /\ e <> None)) (dispatch m fuel q p st)).
  { intros p st. unfold dispatch, iq_handler. rewrite Hregs. apply writes_then_ret. left. reflexivity. }
  apply writes_ti; [right; split; [reflexivity|discriminate]|].
  intros [ot [e|]] st; cbn [fst snd].
  - destruct (err_eqb e EEOF); [|right; split; [reflexivity|discriminate]].
    destruct (bytes_eqb (q_typ q) sv_iq_result); [apply Hd|]. rewrite Hfix. apply writes_then_ret. left. reflexivity.
  - destruct ot as [[pn pa|pn|b|k b]|]; try apply Hd; rewrite Hfix; apply writes_then_ret; left; reflexivity.
Qed.

Lemma fallback_counts q :
  needs_resp (q_typ q) = true -> is_iq (q_name q) = true ->
  fallback_reply q = tokens_of_tree (fallback_tree q) /\ reply_tree (q_id q) (fallback_tree q) = true.
Proof.
  intros Hneed Hiq.
  assert (Hnr : bytes_eqb (q_typ q) sv_iq_error || bytes_eqb (q_typ q) sv_iq_result = false).
  { unfold needs_resp in Hneed. apply orb_true_iff in Hneed.
    destruct Hneed as [H|H]; apply bytes_eqb_eq in H; rewrite H; reflexivity. }
  split; [exact (fallback_reply_tree q Hnr)|exact (fallback_is_reply q Hnr Hiq)].
Qed.

(* the whole run: if Serve returns nil every invocation completed (so every request in it was
   answered by the rule above); otherwise only the last invocation can have failed, and Serve
   returns an error: the stream is terminated *)
Lemma c07_serve c hf toks base : ends_match base toks = true ->
  let r := serve_all c hf toks in
  Forall (fun v => exists n a pre e p', clean (c_ws c) (TStart n a) = true /\ inv_spec c n a 0%N pre e v p') (s_invs r) /\
  (s_ret r = None -> Forall (fun v => v_ret v = None) (s_invs r)) /\
  (forall v, In v (removelast (s_invs r)) -> v_ret v = None).
Proof. intros Hm r. apply (follows_invs c toks). apply (serve_all_follows c hf toks base Hm). Qed.

(* the multiplexer before its repair ([m_fixed = false]): an IQ without payload is not answered
   at all (read fuel 10 of [mux_handler] is more than the script's three tokens) *)
Definition ex_cfg : cfg := mkcfg false sv_ns_client (str "me@example.net") (fun s => Some s) false.
Definition ex_empty_iq : list token :=
  [TStart (mkname sv_ns_client s_iq) [mk_attr s_type sv_iq_get; mk_attr s_id (str "x")];
   TEnd (mkname sv_ns_client s_iq); TEnd stream_root].

Lemma pinned_mux_run :
  let r := serve_all ex_cfg (fun _ => mux_handler (mkmux sv_ns_client false []) (c_jp ex_cfg) 10) ex_empty_iq in
  (written r, s_ret r, map (fun v => (is_iq (v_name v), get_id_typ (v_attrs v))) (s_invs r))
  = ([], Some EUnexpectedEOF, [(true, (str "x", sv_iq_get))]).
Proof. vm_compute. reflexivity. Qed.

(* ... and with the repaired one it is, by the fallback *)
Lemma c07_mux_fixed_example :
  let r := serve_all ex_cfg (fun _ => mux_handler (mkmux sv_ns_client true []) (c_jp ex_cfg) 10) ex_empty_iq in
  written r = tokens_of_tree (fallback_tree (mkiqv (mkname sv_ns_client s_iq) (str "x") sv_iq_get [] [] [])).
Proof. vm_compute. reflexivity. Qed.
