(* C07/Pending.v — when the table of outstanding requests is consulted (table read from
   the source), so what an element handed to a waiter is, and the events of a whole run of
   the loop (C08/Loop.v) summed up. *)
From XV Require Import lib.Bytes lib.Xml gen.Serve C08.Model C08.Proofs C08.Loop.
From Coq Require Import ZArith Lia.

(* session.go handleInputStream: the condition guarding the sentStanzas lookup is a disjunction
   of comparisons of typ with string constants; there is one guarded lookup and no other use of
   the table in the function *)
Lemma tbl_lookup_shape :
  sv_lookup_any_iq = false /\ sv_lookup_unrecognised = 0 /\ sv_lookup_sites = 1 /\ sv_lookup_uses = 1.
Proof. vm_compute. repeat split. Qed.

Lemma tbl_lookup_types : sv_lookup_types = [sv_iq_result; sv_iq_error].
Proof. vm_compute. reflexivity. Qed.

Lemma consults_only_responses b typ : consults b typ = true -> typ = sv_iq_result \/ typ = sv_iq_error.
Proof.
  unfold consults. destruct tbl_lookup_shape as [-> _]. rewrite tbl_lookup_types. cbn [andb orb in_list existsb].
  intro H. apply orb_true_iff in H. destruct H as [H|H].
  - left. apply bytes_eqb_eq. exact H.
  - apply orb_true_iff in H. destruct H as [H|H]; [|discriminate]. right. apply bytes_eqb_eq. exact H.
Qed.

Lemma consults_not_requests b typ : needs_resp typ = true -> consults b typ = false.
Proof.
  intro H. destruct (consults b typ) eqn:E; [|reflexivity].
  destruct (consults_only_responses b typ E) as [-> | ->]; vm_compute in H; discriminate.
Qed.

Lemma request_not_diverted tb n a' : needs_resp (snd (get_id_typ a')) = true -> diverted_to tb n a' = None.
Proof. intro H. unfold diverted_to. rewrite (consults_not_requests _ _ H). reflexivity. Qed.

Lemma pt_find_in id : forall tb e, pt_find id tb = Some e -> In e tb /\ pe_id e = id.
Proof.
  induction tb as [|x r IH]; intros e H; cbn [pt_find] in H; [discriminate|].
  destruct (bytes_eqb (pe_id x) id) eqn:E.
  - inversion H; subst. split; [left; reflexivity|]. apply bytes_eqb_eq. exact E.
  - destruct (IH e H) as [H1 H2]. split; [right; exact H1|exact H2].
Qed.

Lemma diverted_spec tb n a' e : diverted_to tb n a' = Some e ->
  (snd (get_id_typ a') = sv_iq_result \/ snd (get_id_typ a') = sv_iq_error) /\
  needs_resp (snd (get_id_typ a')) = false /\
  In e tb /\ pe_id e = fst (get_id_typ a') /\ name_accepts (pe_name e) n = true.
Proof.
  unfold diverted_to. destruct (consults (is_iq n) (snd (get_id_typ a'))) eqn:Ec; [|discriminate].
  destruct (pt_find (fst (get_id_typ a')) tb) as [x|] eqn:Ef; [|discriminate].
  destruct (name_accepts (pe_name x) n) eqn:En; [|discriminate].
  intro H. inversion H; subst x. clear H.
  pose proof (consults_only_responses _ _ Ec) as Ht.
  destruct (pt_find_in _ _ _ Ef) as [Hin Hid].
  split; [exact Ht|]. split; [|split; [exact Hin|split; [exact Hid|exact En]]].
  destruct Ht as [-> | ->]; vm_compute; reflexivity.
Qed.

Section Inner.
Variable ws : bool.

Lemma in_fin pd0 l : in_token ws (fin pd0 l false) = ((None, Some EEOF), fin pd0 l false).
Proof. reflexivity. Qed.

End Inner.

Section Run.
Context {A : Type} (P : A -> Prop) (ret : A -> option err).

(* the shape of a run, whatever its events are: all but the last ended without error *)
Definition run_ok (l : list A) (r : option err) : Prop :=
  Forall P l /\ (r = None -> Forall (fun x => ret x = None) l) /\ (forall x, In x (removelast l) -> ret x = None).

Lemma run_ok_nil r : run_ok [] r.
Proof. split; [constructor|]. split; [intros; constructor|intros x []]. Qed.

Lemma run_ok_last x e : P x -> run_ok [x] (Some e).
Proof. intro H. split; [constructor; [exact H|constructor]|]. split; [discriminate|intros y []]. Qed.

Lemma run_ok_cons x l r : P x -> ret x = None -> run_ok l r -> run_ok (x :: l) r.
Proof.
  intros Hx Hr [I1 [I2 I3]]. split; [constructor; assumption|].
  split; [intro H; constructor; [exact Hr|exact (I2 H)]|].
  intros y Hin. destruct l as [|z l']; [destruct Hin|].
  cbn [removelast] in Hin. destruct Hin as [<-|Hin]; [exact Hr|exact (I3 y Hin)].
Qed.
End Run.

Section ServeP.
Variable c : cfg.
Notation ws := (c_ws c).

(* an element handed to a waiter: it is a response (type result or error), the
   table held an entry with its id and a name that accepts it *)
Definition div_spec (tb : ptable) (n : name) (a : list attr) (d : dinv) : Prop :=
  let a' := shown_attrs c n a in
  d_name d = n /\ d_attrs d = a' /\
  (snd (get_id_typ a') = sv_iq_result \/ snd (get_id_typ a') = sv_iq_error) /\
  needs_resp (snd (get_id_typ a')) = false /\
  exists e, In e tb /\ pe_id e = fst (get_id_typ a') /\ d_id d = pe_id e /\
            name_accepts (pe_name e) n = true /\ d_taken d = pe_live e.

Definition ev_ret (ev : event) : option err := match ev with EvInv v => v_ret v | EvDiv d => d_ret d end.

Lemma diverted_div_spec tb n a e0 seen ret : diverted_to tb n (shown_attrs c n a) = Some e0 ->
  div_spec tb n a (mkdinv n (shown_attrs c n a) (pe_id e0) (pe_live e0) seen ret).
Proof.
  intro Hd. destruct (diverted_spec _ _ _ _ Hd) as [S1 [S2 [S3 [S4 S5]]]].
  unfold div_spec. cbn [d_name d_attrs d_id d_taken]. repeat (split; [reflexivity || assumption|]).
  exists e0. repeat split; assumption.
Qed.

Lemma follows_p_events env k tb l evs r : follows_p c env k tb l evs r ->
  run_ok (fun ev => match ev with
                    | EvInv v => exists n a pre e p', clean ws (TStart n a) = true /\ inv_spec c n a 0%N pre e v p'
                    | EvDiv d => exists tb n a, clean ws (TStart n a) = true /\ div_spec tb n a d
                    end) ev_ret evs r.
Proof.
  induction 1.
  - apply run_ok_nil.
  - exact IHfollows_p.
  - apply run_ok_last. do 5 eexists. split; eassumption.
  - apply run_ok_cons; [do 5 eexists; split; eassumption|exact Hr|exact IHfollows_p].
  - apply run_ok_last. exists (env k tb), n, a. split; [exact Hc|apply diverted_div_spec; exact Hd].
  - apply run_ok_cons; [exists (env k tb), n, a; split; [exact Hc|apply diverted_div_spec; exact Hd]|reflexivity|exact IHfollows_p].
Qed.

Lemma follows_invs l invs r : follows c l invs r ->
  run_ok (fun v => exists n a pre e p', clean (c_ws c) (TStart n a) = true /\ inv_spec c n a 0%N pre e v p')
         v_ret invs r.
Proof.
  induction 1 as [l e Ht|b l invs r Hb Hf IH|n a l pre e v p' er Hc Hs Hv Hr|n a l pre rest v invs r Hc Hs Hv Hr Hf IH].
  - apply run_ok_nil.
  - exact IH.
  - apply run_ok_last. do 5 eexists. split; eassumption.
  - apply run_ok_cons; [do 5 eexists; split; eassumption|exact Hr|exact IH].
Qed.
End ServeP.
