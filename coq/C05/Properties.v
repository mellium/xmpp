(* C05/Properties.v — property C05: each transmit call puts exactly its own
   element on the wire, whole. The theorems are put together here from the
   lemmas of Proofs.v and Scoping.v, which carry the arguments (C05_ids_nonempty
   has its own induction on the sequence of calls).
   Vocabulary: Model.v (the executable model), Spec.v (trees, spec_top, denotes,
   seq_log). *)
From Coq Require Import ZArith.
From XV Require Import lib.Bytes lib.ListAux lib.Lts gen.SessOut C05.Model C05.Spec C05.Proofs C05.Scoping.
Open Scope Z_scope.

(* Element layer. Writing the tokens of a well-formed element at the top level
   of the stream (depth 0) through the stanza encoder and the Encoder puts the
   tokens of [spec_top] of that element into the encoder log, every token is
   accepted, and depth, element stack and closed bit are as before; the fresh id
   is consumed exactly when the element is a stanza without a non-empty id. *)
Theorem C05_element_denotation : forall c ab e st lg cl ids,
  is_elem e -> wf_tree e ->
  exec_prims c (mkost 0 st lg cl ids) (map PTok (tokens_of e)) ab =
  (mkost 0 st (lg ++ map EvTok (tokens_of (spec_top c (hd_id ids) e))) cl (pop_if (needs_id e) ids),
   repeat ROk (length (tokens_of e))).
Proof.
  intros c ab e st lg cl ids _ Hwf.
  rewrite <- (map_length PTok). apply (emit_top c ab cl PTok (fun _ _ _ _ _ => eq_refl)). exact Hwf.
Qed.
Print Assumptions C05_element_denotation.

(* What spec_top is for a stanza, for EVERY stream: whatever the content name
   space of our output stream (p_out_ns), the default name space of the peer's
   header (p_in_ns: another content name space, or the WebSocket framing name
   space) and the framing (p_framing), the stanza keeps its local name, gets the
   content name space of OUR OUTPUT stream if it had none, a non-empty id, the
   local address as from when the output stream is jabber:server - and on every
   other stream nothing but the id is added -, keeps the caller's attributes in
   order minus empty id/from (and minus xmlns if the element is namespaced), and
   its children unchanged up to the xmlns rule. *)
Theorem C05_completion : forall p id n a kids,
  id <> [] -> is_stanza_name n = true ->
  exists n1 a1 extra,
    spec_top (cfg_of p) id (Elem n a kids) = Elem n1 a1 (map strip_tree kids) /\
    nlocal n1 = nlocal n /\
    (nspace n = [] -> nspace n1 = p_out_ns p) /\ (nspace n <> [] -> n1 = n) /\
    has_nonempty s_id a1 = true /\
    (p_out_ns p = so_ns_server -> p_local p <> [] -> has_nonempty s_from a1 = true) /\
    a1 = strip_xmlns n1 (filter (fun x => negb (dropped x)) a ++ extra) /\
    incl extra [from_attr (p_local p); id_attr id] /\
    (p_out_ns p <> so_ns_server -> incl extra [id_attr id]).
Proof.
  intros p id n a kids Hid Hs.
  destruct (completion_spec (cfg_of p) id n a kids Hid Hs)
    as (n1 & a1 & extra & H1 & H2 & H3 & H4 & H5 & H6 & H7 & H8 & H9).
  rewrite cfg_of_ns in H3. exists n1, a1, extra.
  destruct (list_eq_dec byte_eq_dec (p_out_ns p) so_ns_server) as [Hsrv|Hne].
  - rewrite (cfg_of_from_server p Hsrv) in *. repeat split; auto. contradiction.
  - rewrite (cfg_of_from_other p Hne) in *. repeat split; auto. apply incl_tl. auto.
Qed.
Print Assumptions C05_completion.

(* The same for an arbitrary stanza encoder configuration (name space, from). *)
Theorem C05_completion_encoder : forall c id n a kids,
  id <> [] -> is_stanza_name n = true ->
  exists n1 a1 extra,
    spec_top c id (Elem n a kids) = Elem n1 a1 (map strip_tree kids) /\
    nlocal n1 = nlocal n /\
    (nspace n = [] -> nspace n1 = c_ns c) /\ (nspace n <> [] -> n1 = n) /\
    has_nonempty s_id a1 = true /\
    (c_from c <> [] -> has_nonempty s_from a1 = true) /\
    a1 = strip_xmlns n1 (filter (fun x => negb (dropped x)) a ++ extra) /\
    incl extra [from_attr (c_from c); id_attr id].
Proof.
  intros c id n a kids Hid Hs.
  destruct (completion_spec c id n a kids Hid Hs) as (n1 & a1 & extra & H). exists n1, a1, extra.
  decompose [and] H. repeat split; assumption.
Qed.
Print Assumptions C05_completion_encoder.

(* Elements that are not stanzas are unchanged up to the xmlns rule. *)
Theorem C05_non_stanza_unchanged : forall c id n a kids,
  is_stanza_name n = false ->
  spec_top c id (Elem n a kids) = Elem n (strip_xmlns n a) (map strip_tree kids).
Proof. intros c id n a kids H. cbn [spec_top]. rewrite H. reflexivity. Qed.
Print Assumptions C05_non_stanza_unchanged.

(* SendElement / EncodeElement: the supplied start element is the outermost tag
   of the element the call denotes. *)
Theorem C05_start_is_outermost : forall cl e k sn sa,
  denotes cl e k ->
  (exists r, cl = CSendElement r sn sa) \/ (exists v, cl = CEncodeElement v sn sa) ->
  exists extra kids, e = Elem sn (sa ++ extra) kids.
Proof.
  intros cl e k sn sa Hd [[r ->]|[v ->]]; inversion Hd; subst.
  - (* D_send_element *) exists [], f. rewrite app_nil_r. reflexivity.
  - (* D_encel_reader *) eexists. eexists. reflexivity.
  - (* D_encel_struct *) eexists. eexists. reflexivity.
  - (* D_encel_writerto *) eexists. eexists. reflexivity.
Qed.
Print Assumptions C05_start_is_outermost.

(* Every entry point, run on an open session between two elements, appends
   exactly the block of the element its arguments denote and succeeds. *)
Theorem C05_call_writes_its_element : forall c cl e k st lg ids,
  denotes cl e k -> wf_tree e ->
  exists rg xs, compile cl = Region rg /\
    exec_region c (mkost 0 st lg false ids) rg =
      (mkost 0 st (lg ++ block c ids e k) false (pop_if (needs_id e) ids), xs) /\
    allok xs = true.
Proof.
  intros c cl e k st lg ids Hd Hwf. destruct (denotes_region c cl e k Hd Hwf) as [rg [Hc Hb]].
  destruct (Hb st lg ids) as [xs [He Hok]]. exists rg, xs. auto.
Qed.
Print Assumptions C05_call_writes_its_element.

(* Flushing. Full statement: when a successful call returns its element has
   reached the connection. *)
Definition C05_call_is_flushed_statement : Prop := forall c cl e k st lg ids,
  denotes cl e k -> wf_tree e ->
  exists rg xs o', compile cl = Region rg /\
    exec_region c (mkost 0 st lg false ids) rg = (o', xs) /\ allok xs = true /\
    wire o' = wire_of [] lg ++ map WTok (pending_of [] lg ++ tokens_of (spec_top c (hd_id ids) e)).

(* It holds for every call except Encode / EncodeElement of a WriterTo value. *)
Theorem C05_call_is_flushed_partial : forall c cl e k st lg ids,
  denotes cl e k -> wf_tree e ->
  (forall toks werr, cl <> CEncode (VWriterTo toks werr)) ->
  (forall toks werr sn sa, cl <> CEncodeElement (VWriterTo toks werr) sn sa) ->
  exists rg xs o', compile cl = Region rg /\
    exec_region c (mkost 0 st lg false ids) rg = (o', xs) /\ allok xs = true /\
    wire o' = wire_of [] lg ++ map WTok (pending_of [] lg ++ tokens_of (spec_top c (hd_id ids) e)).
Proof.
  intros c cl e k st lg ids Hd Hwf H1 H2.
  destruct (C05_call_writes_its_element c cl e k st lg ids Hd Hwf) as [rg [xs [Hc [He Hok]]]].
  exists rg, xs. eexists. split; [exact Hc|]. split; [exact He|]. split; [exact Hok|].
  destruct k as [|k]; [|apply block_flushed].
  (* no flush: D_encode_writerto, D_encel_writerto *)
  exfalso. inversion Hd; subst; [eapply H1|eapply H2]; reflexivity.
Qed.
Print Assumptions C05_call_is_flushed_partial.

(* ... and fails for those (the model mirrors marshal.EncodeXML, which returns
   before flushing): Encode of a WriterTo returns nil with nothing on the wire. *)
Theorem C05_call_is_flushed_refuted : ~ C05_call_is_flushed_statement.
Proof.
  intro H. pose (m := mkname [] (str "message")).
  assert (Hwf : wf_tree (Elem m [] [])) by (split; [discriminate|exact I]).
  destruct (H (mkcfg so_ns_client []) _ _ _ [] [] [str "id1"] (D_encode_writerto m [] []) Hwf)
    as [rg [xs [o' [Hc [He [_ Hw]]]]]].
  cbn [compile] in Hc. injection Hc as <-.
  vm_compute in He. injection He as <- _. vm_compute in Hw. discriminate.
Qed.
Print Assumptions C05_call_is_flushed_refuted.

(* Schedule layer. In the transition system threads perform the primitives of
   their regions one at a time and primitive steps do not test the lock; still,
   under every schedule, whoever performs a primitive holds the lock ... *)
Theorem C05_emitter_is_lock_holder : forall c ids ths tr g i th p rest ab,
  Forall (fun th => t_cur th = None) ths ->
  run (step c) (ginit ids ths) tr = Some g ->
  nth_error (g_threads g) i = Some th -> t_cur th = Some (p :: rest, ab) ->
  g_lock g = Some i.
Proof.
  intros c ids ths tr g i th p rest ab H0 Hrun Hi Hc.
  apply (sch_mutex _ _ _ _ (sched_run c ids ths tr g H0 Hrun)). unfold cur_at. rewrite (view_nth _ _ _ _ _ Hi), Hc. discriminate.
Qed.
Print Assumptions C05_emitter_is_lock_holder.

(* ... and whenever the lock is free the output state (log, depth, stack, closed
   bit, ids) and all results are those of running the regions one after the
   other in the order of lock acquisition: every schedule is serialisable. *)
Theorem C05_serialisable : forall c ids ths tr g,
  Forall (fun th => t_cur th = None) ths ->
  run (step c) (ginit ids ths) tr = Some g -> g_lock g = None ->
  (g_out g, g_rlog g) = exec_acq c (ost0 ids) (g_acq g).
Proof. intros c ids ths tr g H0 Hrun. exact (sched_free c ids ths g (sched_run c ids ths tr g H0 Hrun)). Qed.
Print Assumptions C05_serialisable.

(* For any number of threads each making one call that denotes a well-formed
   element, through any mix of entry points, under every complete schedule:
   every call held the lock exactly once; the encoder log is the concatenation,
   in lock order, of the calls' complete blocks (never interleaved); the stanza
   encoder is back at depth 0 with no open element; every call succeeded. *)
Theorem C05_atomic_under_all_schedules : forall c ids calls elems tr g,
  Forall2 (fun cl ek => denotes cl (fst ek) (snd ek) /\ wf_tree (fst ek)) calls elems ->
  run (step c) (ginit ids (map call_thread calls)) tr = Some g ->
  finished g = true ->
  NoDup (map fst (g_acq g)) /\
  (forall i, In i (map fst (g_acq g)) <-> (i < length calls)%nat) /\
  o_log (g_out g) = seq_log c ids (map (fun i => nth i elems no_elem) (map fst (g_acq g))) /\
  o_depth (g_out g) = 0 /\ o_stack (g_out g) = [] /\ o_closed (g_out g) = false /\
  allok (map snd (g_rlog g)) = true.
Proof.
  intros c ids calls elems tr g HF Hrun Hfin.
  pose proof (sched_run c ids _ tr g (call_threads_idle calls) Hrun) as HS.
  destruct (sched_finished c ids _ g HS Hfin) as [Hs Hacq].
  destruct (acq_once (length calls) (fun j rg => appends_block c rg (nth j elems no_elem)) (g_acq g))
    as [Hnd [Hcov Hreg]].
  { intro j. rewrite Hacq. exact (denoting_program c calls elems j HF). }
  split; [exact Hnd|]. split; [exact Hcov|].
  destruct (exec_acq_blocks c (fun j => nth j elems no_elem) _ Hreg [] [] ids) as [rs [Hrs Hrok]].
  unfold ost0 in Hs. rewrite Hrs in Hs. injection Hs as -> ->. rewrite map_map. repeat split. exact Hrok.
Qed.
Print Assumptions C05_atomic_under_all_schedules.

(* The log of a sequence of calls consists of the blocks of spec_top with
   non-empty ids, provided attr.RandomID returns non-empty ids: with
   C05_completion every top-level stanza start carries a non-empty id. *)
Theorem C05_ids_nonempty : forall c es ids,
  Forall (fun i => i <> []) ids ->
  exists idl, length idl = length es /\ Forall (fun i => i <> []) idl /\
              seq_log c ids es = blocks_with c es idl.
Proof.
  intro c. induction es as [|[e k] r IH]; intros ids Hids.
  - exists []. repeat split. constructor.
  - destruct (IH _ (pop_if_Forall _ (needs_id e) ids Hids)) as [idl [Hl [Hne Heq]]].
    exists (hd_id ids :: idl). repeat split.
    + cbn [length]. rewrite Hl. reflexivity.
    + constructor; [apply hd_id_nonempty; exact Hids|exact Hne].
    + cbn [seq_log blocks_with]. unfold block. rewrite Heq. reflexivity.
Qed.
Print Assumptions C05_ids_nonempty.

(* The same at the connection: under every complete schedule what has reached
   the connection plus what the encoder still buffers is the concatenation, in
   lock order, of the tokens of the calls' elements (nothing lost, duplicated or
   reordered between encoder and connection) — and if every call is one that
   flushes (all but Encode/EncodeElement of a WriterTo value) the connection
   holds exactly those complete elements. *)
Theorem C05_wire_under_all_schedules : forall c ids calls elems tr g,
  Forall2 (fun cl ek => denotes cl (fst ek) (snd ek) /\ wf_tree (fst ek)) calls elems ->
  run (step c) (ginit ids (map call_thread calls)) tr = Some g ->
  finished g = true ->
  let es := map (fun i => nth i elems no_elem) (map fst (g_acq g)) in
  map WTok (seq_tokens c ids es) = wire (g_out g) ++ map WTok (pending_of [] (o_log (g_out g))) /\
  (Forall (fun ek => (1 <= snd ek)%nat) elems -> wire (g_out g) = map WTok (seq_tokens c ids es)).
Proof.
  intros c ids calls elems tr g HF Hrun Hfin es.
  destruct (C05_atomic_under_all_schedules c ids calls elems tr g HF Hrun Hfin) as [_ [Hin [Hlog _]]].
  unfold wire. rewrite Hlog. fold es.
  destruct (wire_seq_log c ids es) as [H1 H2]. split; [exact H1|].
  intro Hk. apply H2. unfold es. apply Forall_forall. intros ek Hek.
  apply in_map_iff in Hek. destruct Hek as [i [<- Hi]].
  apply Hin in Hi. rewrite (Forall2_len _ _ _ HF) in Hi.
  rewrite Forall_forall in Hk. apply Hk. apply nth_In. exact Hi.
Qed.
Print Assumptions C05_wire_under_all_schedules.

(* The constants the model shares with the source (coq/gen/SessOut.v is written
   by the translator from session.go, session_message.go, session_presence.go,
   stanza/stanza.go, internal/ns/ns.go and internal/attr/idgen.go on every run):
   the elements the stanza encoder completes are iq / message / presence in no
   name space or a content name space; SendIQ / SendMessage / SendPresence accept
   the same names; the encoder looks at the attributes id, from and xmlns; the
   content name spaces are non-empty and distinct; generated ids have positive
   length. An edit of the source that changes one of them breaks this proof. *)
Theorem C05_source_tables :
  so_stanza_locals = map kind_local [KIQ; KMessage; KPresence] /\
  same_set so_stanza_spaces [[]; so_ns_client; so_ns_server] = true /\
  length so_kind_tables = 3%nat /\
  forallb (fun pk => list_eqb bytes_eqb (fst (fst pk)) [kind_local (snd pk)] && same_set (snd (fst pk)) so_stanza_spaces)
          (combine so_kind_tables [KIQ; KMessage; KPresence]) = true /\
  so_se_literals = [s_id; s_from; s_xmlns] /\
  so_ns_xml = str "http://www.w3.org/XML/1998/namespace" /\
  so_ns_client <> [] /\ so_ns_server <> [] /\ so_ns_client <> so_ns_server /\
  (0 < so_id_len)%nat.
Proof. repeat apply conj; try (vm_compute; reflexivity); try discriminate. apply Nat.lt_0_succ. Qed.
Print Assumptions C05_source_tables.

(* SendIQ / SendMessage / SendPresence (and their Element / Encode variants)
   hand SendElement the caller's start element with nothing changed but the
   unqualified id: every other attribute is kept, in order, and afterwards
   there is a non-empty unqualified id (the one the response is tracked by). *)
Theorem C05_sendx_touches_only_the_id : forall a newid,
  filter (fun x => negb (plain_is s_id x)) (fill_id a newid) = filter (fun x => negb (plain_is s_id x)) a /\
  (newid <> [] -> has_nonempty s_id (fill_id a newid) = true).
Proof. intros a newid. split; [apply fill_id_others|apply fill_id_has_id]. Qed.
Print Assumptions C05_sendx_touches_only_the_id.

(* Marshaled values. Encode / EncodeElement re-read encoding/xml's text as raw
   tokens, whose attribute names carry prefixes; [resolve_raw] is the binding
   stack of rawTokenReader (push on start, pop on end, innermost match). Over
   the tokens of EVERY raw forest - any nesting, any re-use of a prefix on
   siblings, any shadowing in nested elements, declarations before or after
   their use - it yields exactly the tokens of [scoped_tree]: every attribute
   gets the name space of the nearest enclosing declaration of its prefix, a
   declaration never reaches a sibling or anything after its element, xml: is
   the XML name space, element names, unprefixed attributes, text and the
   shape of the forest are untouched, the declarations themselves disappear. *)
Theorem C05_prefix_scoping : forall f,
  resolve_raw 0 [] (forest_tokens f) = forest_tokens (map (scoped_tree []) f).
Proof.
  intro f. pose proof (scoping_forest f 0 [] [] (Forall_nil _)) as H.
  rewrite !app_nil_r in H. exact H.
Qed.
Print Assumptions C05_prefix_scoping.

(* Element names. The full meaning of a raw forest also resolves prefixed
   element names ([meaning_tree]); rawTokenReader does not. Full statement: *)
Definition C05_marshaled_meaning_statement : Prop := forall f,
  resolve_raw 0 [] (forest_tokens f) = forest_tokens (map (meaning_tree []) f).

(* It holds for every forest whose element names carry no prefix - everything
   encoding/xml writes by itself ... *)
Theorem C05_marshaled_meaning_partial : forall f,
  Forall unprefixed_elems f ->
  resolve_raw 0 [] (forest_tokens f) = forest_tokens (map (meaning_tree []) f).
Proof.
  intros f H. rewrite C05_prefix_scoping. f_equal. apply map_ext_in. intros t Ht.
  symmetry. apply meaning_unprefixed. rewrite Forall_forall in H. exact (H t Ht).
Qed.
Print Assumptions C05_marshaled_meaning_partial.

(* ... and fails for text copied from an ",innerxml" field that uses prefixed
   element names: <p:a xmlns:p="urn:1"/> is sent as an element named a in the
   name space "p" (known finding). *)
Theorem C05_marshaled_meaning_refuted : ~ C05_marshaled_meaning_statement.
Proof.
  intro H.
  specialize (H [Elem (mkname (str "p") (str "a")) [mkattr (mkname s_xmlns (str "p")) (str "urn:1")] []]).
  vm_compute in H. discriminate.
Qed.
Print Assumptions C05_marshaled_meaning_refuted.

(* Hence a marshaled value whose raw view is the element rt denotes what rt
   means, through Encode and (under the supplied start) through EncodeElement;
   with C05_call_writes_its_element that element is what reaches the encoder. *)
Theorem C05_marshaled_value_denotes_its_meaning : forall n a kids,
  let rt := Elem n a kids in
  denotes (CEncode (VStruct (tokens_of rt) false)) (scoped_tree [] rt) 1 /\
  forall sn sa, denotes (CEncodeElement (VStruct (tokens_of rt) false) sn sa)
                        (Elem sn (merged_attrs sa (top_attrs_of (scoped_tree [] rt))) (kids_of (scoped_tree [] rt))) 1.
Proof.
  intros n a kids rt.
  assert (H : resolve_raw 0 [] (tokens_of rt) = tokens_of (scoped_tree [] rt)).
  { pose proof (C05_prefix_scoping [rt]) as H. cbn [forest_tokens map] in H. rewrite !app_nil_r in H. exact H. }
  split; [|intros sn sa]; [apply (D_encode_struct _ n)|apply (D_encel_struct _ n)]; exact H.
Qed.
Print Assumptions C05_marshaled_value_denotes_its_meaning.

(* The stack discipline facts [resolve_raw] mirrors, read from
   rawTokenReader.Token in internal/marshal/encode.go on every run: a start
   element increments the depth before it pushes its declarations (tagged with
   the new depth); a prefix is looked up from the innermost binding outwards; an
   end element pops every binding whose depth is >= the current depth and
   decrements the depth after (a reordering of pop and decrement, another
   comparison or another lookup direction breaks this proof). *)
Theorem C05_raw_reader_tables :
  so_raw_push_after_inc = true /\ so_raw_lookup_innermost = true /\
  so_raw_pop_before_dec = true /\ so_raw_pop_cmp = str ">=" /\ so_raw_pop_rhs_is_depth = true.
Proof. repeat apply conj; vm_compute; reflexivity. Qed.
Print Assumptions C05_raw_reader_tables.

(* How negotiateSession configures the stanza encoder ([cfg_of]): the name space
   is that of the OUTPUT stream, the from address is the local address exactly
   when the output stream is jabber:server. Read from session.go on every run:
   taking the name space from the input stream's header (which differs on a
   WebSocket session, or when the peer answers with the other content name
   space) breaks this proof. *)
Theorem C05_encoder_setup_tables :
  so_se_ns_field = str "s.out.Info.XMLNS" /\
  so_se_from_cond = str "s.out.Info.XMLNS == stanza.NSServer" /\
  so_se_from_value = str "s.LocalAddr()".
Proof. repeat apply conj; vm_compute; reflexivity. Qed.
Print Assumptions C05_encoder_setup_tables.
