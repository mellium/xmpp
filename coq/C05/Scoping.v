(* C05/Scoping.v — the binding stack of rawTokenReader (push the declarations
   of a start element tagged with its depth, pop on the end element everything
   tagged with that depth, look a prefix up innermost first) implements XML
   name space scoping: over the tokens of ANY raw forest, [resolve_raw] yields
   the tokens of [scoped_tree]. *)
From Coq Require Import ZArith Lia.
From XV Require Import lib.Bytes C05.Model C05.Spec C05.Proofs.
Open Scope Z_scope.

Lemma lookup_prefix_env : forall (bs : list binding) p, lookup_prefix bs p = lookup_env (map snd bs) p.
Proof.
  induction bs as [|[d [q u]] r IH]; intro p; [reflexivity|].
  cbn [lookup_prefix map snd lookup_env]. rewrite IH. reflexivity.
Qed.

Lemma resolve_attr_scoped bs x : resolve_attr bs x = scoped_attr (map snd bs) x.
Proof. unfold resolve_attr, scoped_attr. rewrite lookup_prefix_env. reflexivity. Qed.

Lemma decls_of_env d a : map snd (decls_of d a) = decls_env a.
Proof.
  unfold decls_of, decls_env. induction a as [|x r IH]; [reflexivity|].
  cbn [flat_map]. rewrite map_app, IH. destruct (bytes_eqb (nspace (aname x)) s_xmlns); reflexivity.
Qed.

Lemma decls_of_depth d a : Forall (fun b : binding => fst b = d) (decls_of d a).
Proof.
  unfold decls_of. induction a as [|x r IH]; [constructor|].
  cbn [flat_map]. destruct (bytes_eqb (nspace (aname x)) s_xmlns); cbn [app]; [constructor; [reflexivity|exact IH]|exact IH].
Qed.

(* popping at depth d + 1 removes exactly what was pushed at that depth,
   provided everything underneath was pushed at a smaller depth *)
Lemma pop_pushed d : forall (l bs : list binding),
  Forall (fun b => fst b = d + 1) l -> Forall (fun b => fst b <= d) bs ->
  pop_bindings (d + 1) (l ++ bs) = bs.
Proof.
  induction l as [|[d' b] r IH]; intros bs Hl Hbs.
  - cbn [app]. destruct bs as [|[d' b] r]; [reflexivity|].
    cbn [pop_bindings]. apply Forall_inv in Hbs. cbn [fst] in Hbs.
    destruct (d + 1 <=? d') eqn:E; [apply Z.leb_le in E; lia|reflexivity].
  - pose proof (Forall_inv Hl) as H1. apply Forall_inv_tail in Hl. cbn [fst] in H1. subst d'.
    cbn [app pop_bindings]. rewrite Z.leb_refl. apply IH; assumption.
Qed.

Lemma scoping_forest : forall f d bs rest,
  Forall (fun b : binding => fst b <= d) bs ->
  resolve_raw d bs (forest_tokens f ++ rest) =
  forest_tokens (map (scoped_tree (map snd bs)) f) ++ resolve_raw d bs rest.
Proof.
  refine (forest_ind'
    (fun t => forall d bs rest, Forall (fun b : binding => fst b <= d) bs ->
       resolve_raw d bs (tokens_of t ++ rest) = tokens_of (scoped_tree (map snd bs) t) ++ resolve_raw d bs rest)
    _ _ _ _ _ _).
  - intros n a kids IH d bs rest Hbs.
    cbn [scoped_tree]. rewrite !tokens_of_elem. cbn [app resolve_raw].
    set (bs' := rev (decls_of (d + 1) a) ++ bs).
    assert (Henv : map snd bs' = rev (decls_env a) ++ map snd bs).
    { unfold bs'. rewrite map_app, map_rev, decls_of_env. reflexivity. }
    assert (Hbs' : Forall (fun b : binding => fst b <= d + 1) bs').
    { apply Forall_app. split; [apply Forall_rev; generalize (decls_of_depth (d + 1) a)|generalize Hbs];
        apply Forall_impl; cbn; lia. }
    rewrite <- Henv, (flat_map_ext _ _ (resolve_attr_scoped bs') a).
    f_equal. rewrite <- !app_assoc. rewrite (IH (d + 1) bs' ([TEnd n] ++ rest) Hbs').
    f_equal. cbn [app resolve_raw]. f_equal. rewrite Z.add_simpl_r.
    unfold bs'. rewrite pop_pushed; [reflexivity|apply Forall_rev, decls_of_depth|exact Hbs].
  - intros b d bs rest _. reflexivity.
  - intros k x y d bs rest _. reflexivity.
  - intros d bs rest _. reflexivity.
  - intros t r IHt IHr d bs rest Hbs. cbn [forest_tokens map]. rewrite <- !app_assoc.
    rewrite (IHt d bs _ Hbs), (IHr d bs rest Hbs). reflexivity.
Qed.

(* element names: [resolve_raw] leaves them as they are, which is their meaning
   exactly when they carry no prefix *)
Lemma meaning_unprefixed : forall t e, unprefixed_elems t -> meaning_tree e t = scoped_tree e t.
Proof.
  apply (tree_forest_ind
    (fun t => forall e, unprefixed_elems t -> meaning_tree e t = scoped_tree e t)
    (fun f => forall e, (fix all (ks : list tree) : Prop :=
                           match ks with [] => True | k :: r => unprefixed_elems k /\ all r end) f ->
                        map (meaning_tree e) f = map (scoped_tree e) f)).
  - intros n a kids IH e [Hn Hk]. cbn [meaning_tree scoped_tree].
    unfold meaning_name. rewrite Hn. cbn [is_empty]. rewrite (IH _ Hk). reflexivity.
  - reflexivity.
  - reflexivity.
  - reflexivity.
  - intros t r IHt IHr e [Ht Hr]. cbn [map]. rewrite (IHt e Ht), (IHr e Hr). reflexivity.
Qed.
