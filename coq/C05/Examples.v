(* C05/Examples.v — non-vacuity: concrete instances of the hypotheses of the
   C05 theorems, and a few examples run through the model. *)
From Coq Require Import ZArith.
From XV Require Import lib.Bytes lib.Lts gen.SessOut C05.Model C05.Spec.
Open Scope Z_scope.

Definition nm (s l : string) : name := mkname (str s) (str l).
Definition at_ (s l v : string) : attr := mkattr (nm s l) (str v).

Definition c2s : cfg := mkcfg so_ns_client [].
Definition s2s : cfg := mkcfg so_ns_server (str "example.net").

(* <message to="a@b" id="" xmlns="jabber:client"><body xmlns="jabber:client">hi</body><message/></message> *)
Definition ex_msg : tree :=
  Elem (nm "" "message") [at_ "" "to" "a@b"; at_ "" "id" ""; at_ "" "xmlns" "jabber:client"]
    [Elem (nm "jabber:client" "body") [at_ "" "xmlns" "jabber:client"] [Text (str "hi")];
     Elem (nm "" "message") [] []].

Example ex_msg_wf : wf_tree ex_msg.
Proof. cbn. repeat split; discriminate. Qed.

Example ex_msg_is_stanza : is_stanza_name (nm "" "message") = true.
Proof. reflexivity. Qed.

(* the completion on a server-to-server stream: name space, from, id; the empty
   id and the xmlns attributes of namespaced elements are gone; the nested
   message is untouched *)
Example ex_spec_s2s :
  spec_top s2s (str "ID") ex_msg =
  Elem (nm "jabber:server" "message") [at_ "" "to" "a@b"; at_ "" "from" "example.net"; at_ "" "id" "ID"]
    [Elem (nm "jabber:client" "body") [] [Text (str "hi")]; Elem (nm "" "message") [] []].
Proof. vm_compute. reflexivity. Qed.

Example ex_den_send : denotes (CSend (mkreader (tokens_of ex_msg ++ [TText (str "junk")]) true)) ex_msg 1.
Proof. apply D_send. Qed.

Example ex_den_sendx : denotes (CSendX KMessage (mkreader (tokens_of ex_msg ++ []) false) (str "N"))
  (Elem (nm "" "message") (fill_id [at_ "" "to" "a@b"; at_ "" "id" ""; at_ "" "xmlns" "jabber:client"] (str "N"))
        (kids_of ex_msg)) 1.
Proof. apply D_sendx. reflexivity. Qed.

Example ex_fill_id :
  fill_id [at_ "" "to" "a@b"; at_ "" "id" ""; at_ "" "xmlns" "jabber:client"] (str "N") =
  [at_ "" "to" "a@b"; at_ "" "id" "N"; at_ "" "xmlns" "jabber:client"].
Proof. vm_compute. reflexivity. Qed.

(* a marshaled value: RawToken view of
   <message xmlns="jabber:client" xml:lang="en" xmlns:_="urn:a" _:k="v"><body _:n="w"></body></message> *)
Definition ex_raw : list token :=
  [TStart (nm "" "message") [at_ "" "xmlns" "jabber:client"; at_ "xml" "lang" "en"; at_ "xmlns" "_" "urn:a"; at_ "_" "k" "v"];
   TStart (nm "" "body") [at_ "_" "n" "w"]; TEnd (nm "" "body"); TEnd (nm "" "message")].

Definition ex_raw_tree : tree :=
  Elem (nm "" "message")
    [at_ "" "xmlns" "jabber:client"; mkattr (mkname so_ns_xml (str "lang")) (str "en"); at_ "urn:a" "k" "v"]
    [Elem (nm "" "body") [at_ "urn:a" "n" "w"] []].

Example ex_resolve_raw : resolve_raw 0 [] ex_raw = tokens_of ex_raw_tree.
Proof. vm_compute. reflexivity. Qed.

Example ex_den_struct : denotes (CEncode (VStruct ex_raw false)) ex_raw_tree 1.
Proof. apply (D_encode_struct ex_raw (nm "" "message")). exact ex_resolve_raw. Qed.

Example ex_den_encel : denotes (CEncodeElement (VStruct ex_raw false) (nm "" "presence") [at_ "" "to" "x"])
  (Elem (nm "" "presence")
        (merged_attrs [at_ "" "to" "x"] [at_ "" "xmlns" "jabber:client"; mkattr (mkname so_ns_xml (str "lang")) (str "en"); at_ "urn:a" "k" "v"])
        [Elem (nm "" "body") [at_ "urn:a" "n" "w"] []]) 1.
Proof. apply (D_encel_struct ex_raw (nm "" "message")). exact ex_resolve_raw. Qed.

(* Encode of that value on a client stream: the wire holds one message with
   xml:lang and the attribute in urn:a, a generated id, and it is flushed *)
Example ex_encode_struct_wire :
  wire (fst (run_call c2s (ost0 [str "ID"]) (CEncode (VStruct ex_raw false)))) =
  map WTok
    [TStart (nm "jabber:client" "message")
       [mkattr (mkname so_ns_xml (str "lang")) (str "en"); at_ "urn:a" "k" "v"; at_ "" "id" "ID"];
     TStart (nm "" "body") [at_ "urn:a" "n" "w"]; TEnd (nm "" "body"); TEnd (nm "jabber:client" "message")].
Proof. vm_compute. reflexivity. Qed.

(* two threads, one Send and one TokenWriter, under the schedule in which
   thread 1 acquires first and thread 0 tries in between (its acquire step is
   simply not enabled while the lock is held) *)
Definition ex_small : tree := Elem (nm "" "iq") [at_ "" "type" "result"] [].
Definition ex_calls : list call :=
  [CSend (mkreader (tokens_of ex_small ++ []) false); CTokenWriter (map TwTok (tokens_of ex_small))].

Example ex_blocked_while_held :
  exists g, run (step c2s) (ginit [str "A"; str "B"] (map call_thread ex_calls)) [1%nat; 1%nat] = Some g /\
            step c2s g 0%nat = None /\ g_lock g = Some 1%nat.
Proof. eexists. split; [vm_compute; reflexivity|]. split; vm_compute; reflexivity. Qed.

Definition ex_schedule : list nat := [1; 1; 1; 1; 1; 0; 0; 0; 0; 0; 0]%nat.

Example ex_schedule_finishes :
  match run (step c2s) (ginit [str "A"; str "B"] (map call_thread ex_calls)) ex_schedule with
  | Some g => finished g = true /\ map fst (g_acq g) = [1; 0]%nat
  | None => False
  end.
Proof. vm_compute. split; reflexivity. Qed.

Example ex_calls_denote :
  Forall2 (fun cl ek => denotes cl (fst ek) (snd ek) /\ wf_tree (fst ek)) ex_calls [(ex_small, 1%nat); (ex_small, 1%nat)].
Proof.
  constructor; [split|constructor; [split|constructor]].
  - apply (D_send (nm "" "iq") [at_ "" "type" "result"] [] [] false).
  - split; [discriminate|exact I].
  - apply (D_tokenwriter (nm "" "iq") [at_ "" "type" "result"] []).
  - split; [discriminate|exact I].
Qed.

(* after send_test.go (its message case, less the type attribute): Send of
   <message to="..."></message> without id on a client stream gets name space
   and id *)
Example ex_send_test :
  o_log (fst (run_call c2s (ost0 [str "123"])
    (CSend (mkreader [TStart (nm "" "message") [at_ "" "to" "test@example.net"]; TEnd (nm "" "message")] false)))) =
  [EvTok (TStart (nm "jabber:client" "message") [at_ "" "to" "test@example.net"; at_ "" "id" "123"]);
   EvTok (TEnd (nm "jabber:client" "message")); EvFlush].
Proof. vm_compute. reflexivity. Qed.

(* a start element without a name is rejected and leaves the encoder at depth 0:
   the next stanza is still completed *)
Example ex_rejected_first_token :
  let '(o, rs) := run_calls c2s (ost0 [str "I"])
     [CSend (mkreader [TStart (nm "" "") []; TEnd (nm "" "")] false);
      CSend (mkreader [TStart (nm "" "presence") []; TEnd (nm "" "presence")] false)] in
  rs = [[RErr EEncoder]; [ROk]] /\
  o_log o = [EvTok (TStart (nm "jabber:client" "presence") [at_ "" "id" "I"]);
             EvTok (TEnd (nm "jabber:client" "presence")); EvFlush].
Proof. vm_compute. split; reflexivity. Qed.

(* attributes that only share the local name of id / from / xmlns are left
   alone: the stanza still gets its id and from, {urn:a}xmlns survives on a
   namespaced element *)
Example ex_namespaced_lookalikes :
  spec_top s2s (str "ID")
    (Elem (nm "jabber:server" "presence") [at_ "urn:a" "id" "x"; at_ "urn:a" "from" ""; at_ "urn:a" "xmlns" "v"; at_ "" "xmlns" "jabber:server"] []) =
  Elem (nm "jabber:server" "presence")
    [at_ "urn:a" "id" "x"; at_ "urn:a" "from" ""; at_ "urn:a" "xmlns" "v"; at_ "" "from" "example.net"; at_ "" "id" "ID"] [].
Proof. vm_compute. reflexivity. Qed.

(* under ex_schedule the connection holds the two complete iq elements,
   thread 1's first *)
Example ex_wire_schedule :
  match run (step c2s) (ginit [str "A"; str "B"] (map call_thread ex_calls)) ex_schedule with
  | Some g => wire (g_out g) =
      map WTok (tokens_of (spec_top c2s (str "A") ex_small) ++ tokens_of (spec_top c2s (str "B") ex_small))
  | None => False
  end.
Proof. vm_compute. reflexivity. Qed.

(* the last hypothesis of C05_wire_under_all_schedules: the two calls of
   ex_calls both flush *)
Example ex_all_flush : Forall (fun ek : tree * nat => (1 <= snd ek)%nat) [(ex_small, 1%nat); (ex_small, 1%nat)].
Proof. repeat constructor. Qed.

(* Encode of a WriterTo value leaves its element in the encoder's buffer (what
   C05_call_is_flushed_refuted computes, there for <message/>), and the next
   call flushes it *)
Example ex_writerto_pending :
  let o1 := fst (run_call c2s (ost0 [str "A"; str "B"]) (CEncode (VWriterTo (tokens_of ex_small) false))) in
  wire o1 = [] /\ pending_of [] (o_log o1) = tokens_of (spec_top c2s (str "A") ex_small) /\
  wire (fst (run_call c2s o1 (CSend (mkreader (tokens_of ex_small ++ []) false)))) =
    map WTok (tokens_of (spec_top c2s (str "A") ex_small) ++ tokens_of (spec_top c2s (str "B") ex_small)).
Proof. vm_compute. repeat split; reflexivity. Qed.

(* prefix scoping: <m><a xmlns:p="urn:1" p:k="1"><b xmlns:p="urn:2" p:k="2"/><c p:k="3"/></a><d p:k="4" xmlns:p="urn:3"/><e p:k="5"/></m>
   - b shadows p, c sees a's binding again, d re-uses p on a sibling (declared
   after its use), e has no binding in scope (its attribute is left as it is) *)
Definition ex_scope_raw : tree :=
  Elem (nm "" "m") []
    [Elem (nm "" "a") [at_ "xmlns" "p" "urn:1"; at_ "p" "k" "1"]
       [Elem (nm "" "b") [at_ "xmlns" "p" "urn:2"; at_ "p" "k" "2"] []; Elem (nm "" "c") [at_ "p" "k" "3"] []];
     Elem (nm "" "d") [at_ "p" "k" "4"; at_ "xmlns" "p" "urn:3"] [];
     Elem (nm "" "e") [at_ "p" "k" "5"] []].

Example ex_scope_meaning :
  scoped_tree [] ex_scope_raw =
  Elem (nm "" "m") []
    [Elem (nm "" "a") [at_ "urn:1" "k" "1"]
       [Elem (nm "" "b") [at_ "urn:2" "k" "2"] []; Elem (nm "" "c") [at_ "urn:1" "k" "3"] []];
     Elem (nm "" "d") [at_ "urn:3" "k" "4"] [];
     Elem (nm "" "e") [at_ "p" "k" "5"] []].
Proof. vm_compute. reflexivity. Qed.

Example ex_scope_stack :
  resolve_raw 0 [] (tokens_of ex_scope_raw) = tokens_of (scoped_tree [] ex_scope_raw).
Proof. vm_compute. reflexivity. Qed.

(* a WebSocket client session: the peer's header is in the framing name space,
   stanzas still go out in jabber:client, without from *)
Definition ex_ws : stream_params :=
  mkparams so_ns_client (str "urn:ietf:params:xml:ns:xmpp-framing") true (str "me@example.net").

Example ex_ws_completion :
  spec_top (cfg_of ex_ws) (str "ID") (Elem (nm "" "message") [] []) =
  Elem (nm "jabber:client" "message") [at_ "" "id" "ID"] [].
Proof. vm_compute. reflexivity. Qed.

(* a server-to-server stream whose peer answered with jabber:client *)
Definition ex_mixed : stream_params := mkparams so_ns_server so_ns_client false (str "example.net").

Example ex_mixed_completion :
  spec_top (cfg_of ex_mixed) (str "ID") (Elem (nm "" "presence") [] []) =
  Elem (nm "jabber:server" "presence") [at_ "" "from" "example.net"; at_ "" "id" "ID"] [].
Proof. vm_compute. reflexivity. Qed.
