(* C05/Proofs.v — the arguments behind C05/Properties.v, by the layers of Model.v.
   Element layer: the stanza encoder's completion of a start element is the
   function of Spec.v ([complete_start_spec]), and writing the tokens of a
   well-formed tree appends the tokens of what Spec.v says it becomes, by
   induction on trees at any depth ([emit_tree]; [appends] composes runs of
   primitives that all succeed). Region layer: a call that denotes an element
   compiles to that element's tokens and its flushes ([denotes_compile]).
   Schedule layer: the invariant [Sched], kept by every step ([sched_step]).
   Last, what reaches the connection ([wire_plus_pending]) and the id handling
   of SendIQ / SendMessage / SendPresence ([fill_id_cases]). *)
From Coq Require Import ZArith Lia.
From XV Require Import lib.Bytes lib.ListAux lib.Lts gen.SessOut C05.Model C05.Spec.
From XV Require lib.Heap.
Open Scope Z_scope.

Lemma is_empty_true b : is_empty b = true <-> b = [].
Proof. destruct b; simpl; split; intro H; congruence. Qed.

Lemma is_empty_false b : b <> [] -> is_empty b = false.
Proof. destruct b; [congruence|reflexivity]. Qed.

Lemma name_eqb_refl n : name_eqb n n = true.
Proof. unfold name_eqb. rewrite !bytes_eqb_refl. reflexivity. Qed.

Lemma name_eqb_eq a b : name_eqb a b = true <-> a = b.
Proof.
  split; [|intros ->; apply name_eqb_refl].
  unfold name_eqb. intro H. apply andb_true_iff in H. destruct H as [H1 H2].
  apply bytes_eqb_eq in H1. apply bytes_eqb_eq in H2. destruct a, b. simpl in *. congruence.
Qed.

Lemma tokens_of_elem n a kids :
  tokens_of (Elem n a kids) = TStart n a :: forest_tokens kids ++ [TEnd n].
Proof. reflexivity. Qed.

Lemma forest_tokens_app f g : forest_tokens (f ++ g) = forest_tokens f ++ forest_tokens g.
Proof. induction f as [|k r IH]; [reflexivity|]. cbn [forest_tokens app]. rewrite IH, app_assoc. reflexivity. Qed.

Lemma wf_tree_elem n a kids : wf_tree (Elem n a kids) <-> nlocal n <> [] /\ wf_forest kids.
Proof. reflexivity. Qed.

Lemma tree_forest_ind (P : tree -> Prop) (Q : list tree -> Prop) :
  (forall n a kids, Q kids -> P (Elem n a kids)) ->
  (forall b, P (Text b)) -> (forall k x y, P (Misc k x y)) ->
  Q [] -> (forall t r, P t -> Q r -> Q (t :: r)) ->
  forall t, P t.
Proof.
  intros HE HT HM HQ0 HQ1.
  fix IH 1. intros [n a kids|b|k x y]; [|apply HT|apply HM].
  apply HE. induction kids as [|t r IHr]; [exact HQ0|]. apply HQ1; [apply IH|exact IHr].
Qed.

(* facts about token lists are proved for forests, a tree being the forest of one *)
Lemma forest_ind' (P : tree -> Prop) (Q : list tree -> Prop) :
  (forall n a kids, Q kids -> P (Elem n a kids)) ->
  (forall b, P (Text b)) -> (forall k x y, P (Misc k x y)) ->
  Q [] -> (forall t r, P t -> Q r -> Q (t :: r)) ->
  forall f, Q f.
Proof.
  intros HE HT HM HQ0 HQ1 f. induction f as [|t r IH]; [exact HQ0|].
  apply HQ1; [|exact IH]. apply (tree_forest_ind P Q); assumption.
Qed.

Lemma s_id_from_diff : bytes_eqb s_from s_id = false.
Proof. reflexivity. Qed.

Lemma plain_id_not_from x : plain_is s_id x = true -> plain_is s_from x = false.
Proof.
  unfold plain_is. intro H. apply andb_true_iff in H. destruct H as [_ H].
  apply bytes_eqb_eq in H. rewrite H. apply andb_false_r.
Qed.

Lemma idfrom_filter_spec a :
  idfrom_filter a = (filter (fun x => negb (dropped x)) a, (has_nonempty s_id a, has_nonempty s_from a)).
Proof.
  induction a as [|x r IH]; [reflexivity|].
  cbn [idfrom_filter filter has_nonempty existsb]. rewrite IH.
  unfold dropped, has_nonempty.
  destruct (plain_is s_id x) eqn:Eid.
  - rewrite (plain_id_not_from x Eid). destruct (is_empty (aval x)); reflexivity.
  - destruct (plain_is s_from x) eqn:Ef; destruct (is_empty (aval x)); reflexivity.
Qed.

Lemma complete_start_spec c id n a :
  complete_start c id n a =
  (if is_empty (nspace n) then mkname (c_ns c) (nlocal n) else n,
   spec_attrs c id a, negb (has_nonempty s_id a)).
Proof.
  unfold complete_start, spec_attrs. rewrite idfrom_filter_spec.
  destruct (negb (is_empty (c_from c)) && negb (has_nonempty s_from a));
    destruct (has_nonempty s_id a); cbn [negb]; rewrite <- ?app_assoc, ?app_nil_r; reflexivity.
Qed.

Lemma has_nonempty_app l a b : has_nonempty l (a ++ b) = has_nonempty l a || has_nonempty l b.
Proof. apply existsb_app. Qed.

Lemma has_nonempty_plain l v r : v <> [] -> has_nonempty l (mkattr (mkname [] l) v :: r) = true.
Proof.
  intro Hv. unfold has_nonempty, plain_is. cbn [existsb aname nlocal nspace aval is_empty andb].
  rewrite bytes_eqb_refl, (is_empty_false v Hv). reflexivity.
Qed.

Lemma existsb_filter_kept {A} (P Q : A -> bool) l :
  (forall x, P x = true -> Q x = true) -> existsb P (filter Q l) = existsb P l.
Proof.
  intro H. induction l as [|x r IH]; [reflexivity|].
  cbn [filter existsb]. destruct (Q x) eqn:E; cbn [existsb]; rewrite IH; [reflexivity|].
  destruct (P x) eqn:F; [|reflexivity]. apply H in F. congruence.
Qed.

Lemma has_nonempty_filter_kept l a :
  has_nonempty l (filter (fun x => negb (dropped x)) a) = has_nonempty l a.
Proof.
  apply existsb_filter_kept. intros x H. apply andb_true_iff in H. destruct H as [_ H].
  unfold dropped. destruct (is_empty (aval x)); [discriminate|]. rewrite andb_false_r. reflexivity.
Qed.

Lemma has_nonempty_strip l n a :
  bytes_eqb l s_xmlns = false -> has_nonempty l (strip_xmlns n a) = has_nonempty l a.
Proof.
  intro Hl. unfold strip_xmlns. destruct (is_empty (nspace n)); [reflexivity|].
  apply existsb_filter_kept. intros x H. apply andb_true_iff in H. destruct H as [H _].
  unfold is_xmlns_attr, plain_is in *. apply andb_true_iff in H. destruct H as [_ H].
  apply bytes_eqb_eq in H. rewrite H, Hl, andb_false_r. reflexivity.
Qed.

Lemma spec_attrs_has_id c id a : id <> [] -> has_nonempty s_id (spec_attrs c id a) = true.
Proof.
  intro Hid. unfold spec_attrs. rewrite !has_nonempty_app, has_nonempty_filter_kept.
  destruct (has_nonempty s_id a); [reflexivity|].
  unfold id_attr. rewrite (has_nonempty_plain s_id id [] Hid). apply orb_true_r.
Qed.

Lemma spec_attrs_has_from c id a : c_from c <> [] -> has_nonempty s_from (spec_attrs c id a) = true.
Proof.
  intro Hf. unfold spec_attrs. rewrite !has_nonempty_app, has_nonempty_filter_kept.
  destruct (has_nonempty s_from a); [reflexivity|].
  rewrite (is_empty_false _ Hf). cbn [negb andb]. unfold from_attr.
  rewrite (has_nonempty_plain s_from (c_from c) [] Hf). apply orb_true_r.
Qed.

Lemma spec_attrs_shape c id a :
  exists extra, spec_attrs c id a = filter (fun x => negb (dropped x)) a ++ extra /\
    incl extra [from_attr (c_from c); id_attr id] /\ (c_from c = [] -> incl extra [id_attr id]).
Proof.
  unfold spec_attrs. eexists. split; [reflexivity|]. split.
  - apply incl_app; [destruct (_ && _)|destruct (has_nonempty s_id a)]; intros x Hx; cbn in Hx |- *; tauto.
  - intros ->. cbn [is_empty negb andb app]. destruct (has_nonempty s_id a); [apply incl_nil_l|apply incl_refl].
Qed.

Lemma strip_xmlns_no_xmlns n a x :
  nspace n <> [] -> In x (strip_xmlns n a) -> is_xmlns_attr x = false.
Proof.
  intros Hn Hin. unfold strip_xmlns in Hin.
  destruct (is_empty (nspace n)) eqn:E; [apply is_empty_true in E; congruence|].
  apply filter_In in Hin. destruct Hin as [_ H]. destruct (is_xmlns_attr x); [discriminate|reflexivity].
Qed.

Definition name_at (c : cfg) (top : bool) (n : name) : name :=
  if top && is_empty (nspace n) && is_stanza_name n then mkname (c_ns c) (nlocal n) else n.

Definition attrs_at (c : cfg) (top : bool) (id : bytes) (n : name) (a : list attr) : list attr :=
  strip_xmlns (name_at c top n) (if top && is_stanza_name n then spec_attrs c id a else a).

(* what a tree written at the top level, or below it, becomes *)
Definition spec_at (c : cfg) (id : bytes) (top : bool) (t : tree) : tree :=
  match t with
  | Elem n a kids => Elem (name_at c top n) (attrs_at c top id n a) (map strip_tree kids)
  | _ => t
  end.

Lemma spec_at_top c id t : spec_at c id true t = spec_top c id t.
Proof.
  destruct t as [n a kids| |]; [|reflexivity|reflexivity].
  unfold spec_at, spec_top, attrs_at, name_at. cbn [andb].
  destruct (is_stanza_name n); [rewrite andb_true_r|rewrite andb_false_r]; reflexivity.
Qed.

Lemma spec_at_deep c id t : spec_at c id false t = strip_tree t.
Proof. destruct t; reflexivity. Qed.

(* C05_completion and C05_completion_encoder are instances of this *)
Lemma completion_spec c id n a kids :
  id <> [] -> is_stanza_name n = true ->
  exists n1 a1 extra,
    spec_top c id (Elem n a kids) = Elem n1 a1 (map strip_tree kids) /\
    nlocal n1 = nlocal n /\
    (nspace n = [] -> nspace n1 = c_ns c) /\ (nspace n <> [] -> n1 = n) /\
    has_nonempty s_id a1 = true /\
    (c_from c <> [] -> has_nonempty s_from a1 = true) /\
    a1 = strip_xmlns n1 (filter (fun x => negb (dropped x)) a ++ extra) /\
    incl extra [from_attr (c_from c); id_attr id] /\
    (c_from c = [] -> incl extra [id_attr id]).
Proof.
  intros Hid Hs. destruct (spec_attrs_shape c id a) as [extra [Hsh [Hincl Hnofrom]]].
  exists (name_at c true n), (attrs_at c true id n a), extra. rewrite <- spec_at_top.
  unfold spec_at, attrs_at, name_at. rewrite Hs, andb_true_r. cbn [andb]. repeat split.
  - destruct (is_empty (nspace n)); reflexivity.
  - intro H. rewrite H. reflexivity.
  - intro H. destruct (nspace n) eqn:E; [congruence|reflexivity].
  - rewrite has_nonempty_strip by reflexivity. apply spec_attrs_has_id. exact Hid.
  - intro Hf. rewrite has_nonempty_strip by reflexivity. apply spec_attrs_has_from. exact Hf.
  - rewrite Hsh. reflexivity.
  - exact Hincl.
  - exact Hnofrom.
Qed.

Lemma allok_repeat n : allok (repeat ROk n) = true.
Proof. induction n; [reflexivity|exact IHn]. Qed.

Lemma allok_app a b : allok (a ++ b) = allok a && allok b.
Proof. apply forallb_app. Qed.

Lemma first_err_allok xs : allok xs = true -> first_err xs = ROk.
Proof.
  induction xs as [|x r IH]; [reflexivity|]. cbn [allok forallb]. intro H.
  apply andb_true_iff in H. destruct H as [H1 H2]. destruct x; [apply IH; exact H2|discriminate].
Qed.

Lemma exec_prims_app c o p1 p2 ab o1 x1 :
  exec_prims c o p1 ab = (o1, x1) -> allok x1 = true ->
  exec_prims c o (p1 ++ p2) ab = let '(o2, x2) := exec_prims c o1 p2 ab in (o2, x1 ++ x2).
Proof.
  revert o o1 x1. induction p1 as [|p r IH]; intros o o1 x1 H Hok.
  - cbn [exec_prims] in H. injection H as <- <-. cbn [app]. destruct (exec_prims c o p2 ab); reflexivity.
  - cbn [exec_prims app] in H |- *. destruct (pstep c o p) as [oa x] eqn:Ep.
    destruct (ab && is_err x) eqn:Eab.
    + injection H as <- <-. cbn [allok forallb] in Hok.
      apply andb_true_iff in Eab. destruct Eab as [_ Ee]. rewrite Ee in Hok. discriminate.
    + destruct (exec_prims c oa r ab) as [ob xs] eqn:Er. injection H as <- <-.
      cbn [allok forallb] in Hok. apply andb_true_iff in Hok. destruct Hok as [_ Hok].
      rewrite (IH oa ob xs Er Hok). destruct (exec_prims c ob p2 ab); reflexivity.
Qed.

(* The stanza encoder looks at the depth only to tell the top level of the
   stream from the rest: a start element is at the top when the depth before it
   is 0, an end element when the depth after it is. *)
Lemma top_eqb d : (d + 1 =? 1) = (d =? 0).
Proof. destruct (Z.eqb_spec d 0) as [->|H]; [reflexivity|apply Z.eqb_neq; lia]. Qed.

Lemma emit_start c d st lg cl ids n a :
  let top := d =? 0 in nlocal n <> [] ->
  emit c (mkost d st lg cl ids) (TStart n a) =
  (mkost (d + 1) (name_at c top n :: st)
         (lg ++ [EvTok (TStart (name_at c top n) (attrs_at c top (hd_id ids) n a))]) cl
         (pop_if (is_stanza_name n && negb (has_nonempty s_id a) && top) ids), ROk).
Proof.
  intros top Hn. unfold emit, se_token, attrs_at, name_at. cbn [o_depth o_stack o_log o_closed o_ids].
  rewrite top_eqb. fold top. unfold next_id. cbn [o_ids]. fold (hd_id ids).
  destruct top; cbn [andb]; [rewrite andb_true_r|rewrite andb_false_r].
  - destruct (is_stanza_name n) eqn:Es; [rewrite complete_start_spec, andb_true_r|rewrite andb_false_r]; cbn [andb enc_accept].
    + destruct (is_empty (nspace n)); cbn [nlocal]; rewrite (is_empty_false _ Hn); reflexivity.
    + rewrite (is_empty_false _ Hn). reflexivity.
  - cbn [enc_accept]. rewrite (is_empty_false _ Hn). reflexivity.
Qed.

Lemma emit_end c d st lg cl ids n :
  let top := d =? 0 in
  emit c (mkost (d + 1) (name_at c top n :: st) lg cl ids) (TEnd n) =
  (mkost d st (lg ++ [EvTok (TEnd (name_at c top n))]) cl ids, ROk).
Proof.
  intro top. unfold emit, se_token, name_at. cbn [o_depth o_stack o_log o_closed o_ids].
  rewrite top_eqb, Z.add_simpl_r. cbn [enc_accept]. rewrite name_eqb_refl. reflexivity.
Qed.

Lemma emit_text c d st lg cl ids b :
  emit c (mkost d st lg cl ids) (TText b) = (mkost d st (lg ++ [EvTok (TText b)]) cl ids, ROk).
Proof. reflexivity. Qed.

Lemma emit_misc c d st lg cl ids k x y :
  emit c (mkost d st lg cl ids) (TMisc k x y) = (mkost d st (lg ++ [EvTok (TMisc k x y)]) cl ids, ROk).
Proof. reflexivity. Qed.

(* Sequences of primitives that all succeed. K and F stand for the two ways of
   writing a token and of flushing: directly (PTok, PFlush, whatever the closed
   bit cl) or through the locked writer (PLwcTok, PLwcFlush, on an open session:
   cl = false). *)
Section Appends.
Variables (c : cfg) (ab cl : bool) (K : token -> prim) (F : prim).
Hypothesis HK : forall d st lg ids t, pstep c (mkost d st lg cl ids) (K t) = emit c (mkost d st lg cl ids) t.
Hypothesis HF : forall d st lg ids, pstep c (mkost d st lg cl ids) F = flush (mkost d st lg cl ids).

(* where the encoder stands: depth, stack of open elements, id supply *)
Definition enc_pos : Type := Z * list name * list bytes.

(* from a the primitives ps all succeed, append evs to the log and lead to b *)
Definition appends (a : enc_pos) (ps : list prim) (b : enc_pos) (evs : list ev) : Prop :=
  let '(d, st, ids) := a in let '(d', st', ids') := b in forall lg,
  exec_prims c (mkost d st lg cl ids) ps ab = (mkost d' st' (lg ++ evs) cl ids', repeat ROk (length ps)).

Lemma appends_nil a : appends a [] a [].
Proof. destruct a as [[d st] ids]. intro lg. cbn [exec_prims]. rewrite app_nil_r. reflexivity. Qed.

Lemma appends_cons d st ids p r d1 st1 ids1 e b evs :
  (forall lg, pstep c (mkost d st lg cl ids) p = (mkost d1 st1 (lg ++ [e]) cl ids1, ROk)) ->
  appends (d1, st1, ids1) r b evs -> appends (d, st, ids) (p :: r) b (e :: evs).
Proof.
  destruct b as [[d2 st2] ids2]. intros Hp Hr lg. cbn [exec_prims]. rewrite Hp. cbn [is_err]. rewrite andb_false_r, Hr, <- app_assoc. reflexivity.
Qed.

Lemma appends_app a p1 a1 e1 p2 b e2 :
  appends a p1 a1 e1 -> appends a1 p2 b e2 -> appends a (p1 ++ p2) b (e1 ++ e2).
Proof.
  destruct a as [[d st] ids], a1 as [[d1 st1] ids1], b as [[d2 st2] ids2]. intros H1 H2 lg. rewrite (exec_prims_app c _ _ _ ab _ _ (H1 lg) (allok_repeat _)), H2.
  rewrite app_assoc, app_length, repeat_app. reflexivity.
Qed.

(* Writing a well-formed tree at any depth: at the top level it becomes spec_top
   of itself and may take an id, below it strip_tree of itself. *)
Lemma emit_tree : forall t, wf_tree t -> forall d st ids, 0 <= d -> let top := d =? 0 in
  appends (d, st, ids) (map K (tokens_of t)) (d, st, pop_if (needs_id t && top) ids)
          (map EvTok (tokens_of (spec_at c (hd_id ids) top t))).
Proof.
  refine (tree_forest_ind _
    (fun f => wf_forest f -> forall d st ids, 1 <= d ->
       appends (d, st, ids) (map K (forest_tokens f)) (d, st, ids) (map EvTok (forest_tokens (map strip_tree f))))
    _ _ _ _ _).
  - intros n a kids IHk [Hn Hk] d st ids Hd top. cbn [spec_at]. rewrite !tokens_of_elem. cbn [map]. rewrite !map_app.
    eapply appends_cons; [intro lg; rewrite HK; apply emit_start; exact Hn|].
    eapply appends_app; [apply (IHk Hk); lia|].
    eapply appends_cons; [intro lg; rewrite HK; apply emit_end|apply appends_nil].
  - intros b _ d st ids _ top. eapply appends_cons; [intro lg; rewrite HK; apply emit_text|apply appends_nil].
  - intros k x y _ d st ids _ top. eapply appends_cons; [intro lg; rewrite HK; apply emit_misc|apply appends_nil].
  - intros _ d st ids _. apply appends_nil.
  - intros t r IHt IHr [Ht Hr] d st ids Hd. cbn [forest_tokens map]. rewrite !map_app.
    specialize (IHt Ht d st ids ltac:(lia)). cbn zeta in IHt.
    replace (d =? 0) with false in IHt by (symmetry; apply Z.eqb_neq; lia). rewrite andb_false_r, spec_at_deep in IHt.
    eapply appends_app; [exact IHt|apply IHr; assumption].
Qed.

(* C05_element_denotation, for either writer and any tree *)
Lemma emit_top t st ids :
  wf_tree t ->
  appends (0, st, ids) (map K (tokens_of t)) (0, st, pop_if (needs_id t) ids)
          (map EvTok (tokens_of (spec_top c (hd_id ids) t))).
Proof.
  intro Hwf. rewrite <- spec_at_top, <- (andb_true_r (needs_id t)). exact (emit_tree t Hwf 0 st ids (Z.le_refl 0)).
Qed.

Lemma appends_flushes d st ids k : appends (d, st, ids) (repeat F k) (d, st, ids) (repeat EvFlush k).
Proof.
  induction k as [|k IH]; [apply appends_nil|]. eapply appends_cons; [|exact IH]. intro lg. apply HF.
Qed.

Lemma emit_block e k st ids :
  wf_tree e ->
  appends (0, st, ids) (map K (tokens_of e) ++ repeat F k) (0, st, pop_if (needs_id e) ids) (block c ids e k).
Proof. intro Hwf. eapply appends_app; [apply emit_top; exact Hwf|apply appends_flushes]. Qed.
End Appends.

Lemma inner_forest : forall f d rest,
  inner d (forest_tokens f ++ rest) = forest_tokens f ++ inner d rest /\
  inner_complete d (forest_tokens f ++ rest) = inner_complete d rest.
Proof.
  refine (forest_ind'
    (fun t => forall d rest, inner d (tokens_of t ++ rest) = tokens_of t ++ inner d rest /\
                             inner_complete d (tokens_of t ++ rest) = inner_complete d rest) _ _ _ _ _ _).
  - intros n a kids IH d rest. rewrite tokens_of_elem. cbn [app inner inner_complete].
    rewrite <- app_assoc. destruct (IH (S d) ([TEnd n] ++ rest)) as [H1 H2].
    rewrite H1, H2. cbn [app inner inner_complete]. split; [|reflexivity].
    rewrite <- app_assoc. reflexivity.
  - intros b d rest. split; reflexivity.
  - intros k x y d rest. split; reflexivity.
  - intros d rest. split; reflexivity.
  - intros t r IHt IHr d rest. cbn [forest_tokens]. rewrite <- app_assoc.
    destruct (IHt d (forest_tokens r ++ rest)) as [H1 H2]. destruct (IHr d rest) as [H3 H4].
    rewrite H1, H2, H3, H4. split; [rewrite app_assoc; reflexivity|reflexivity].
Qed.

Lemma inner_elem_rest kids n junk :
  inner 0 (forest_tokens kids ++ [TEnd n] ++ junk) = forest_tokens kids /\
  inner_complete 0 (forest_tokens kids ++ [TEnd n] ++ junk) = true.
Proof.
  destruct (inner_forest kids 0%nat ([TEnd n] ++ junk)) as [H1 H2]. rewrite H1, H2.
  cbn [app inner inner_complete]. rewrite app_nil_r. split; reflexivity.
Qed.

Lemma replace_outer_forest sn sa : forall f d rest, 1 <= d ->
  replace_outer sn sa d (forest_tokens f ++ rest) = forest_tokens f ++ replace_outer sn sa d rest.
Proof.
  refine (forest_ind'
    (fun t => forall d rest, 1 <= d ->
       replace_outer sn sa d (tokens_of t ++ rest) = tokens_of t ++ replace_outer sn sa d rest) _ _ _ _ _ _).
  - intros n a kids IH d rest Hd. rewrite tokens_of_elem. cbn [app replace_outer].
    replace (d =? 0) with false by (symmetry; apply Z.eqb_neq; lia).
    rewrite <- app_assoc, (IH (d + 1) ([TEnd n] ++ rest) ltac:(lia)).
    cbn [app replace_outer]. rewrite Z.add_simpl_r.
    replace (d =? 0) with false by (symmetry; apply Z.eqb_neq; lia).
    rewrite <- app_assoc. reflexivity.
  - intros b d rest _. reflexivity.
  - intros k x y d rest _. reflexivity.
  - intros d rest _. reflexivity.
  - intros t r IHt IHr d rest Hd. cbn [forest_tokens]. rewrite <- app_assoc.
    rewrite (IHt d _ Hd), (IHr d _ Hd), app_assoc. reflexivity.
Qed.

Lemma replace_outer_elem sn sa n a kids :
  replace_outer sn sa 0 (tokens_of (Elem n a kids)) = tokens_of (Elem sn (merged_attrs sa a) kids).
Proof.
  rewrite !tokens_of_elem. cbn [replace_outer]. change (0 =? 0) with true. cbn iota.
  rewrite (replace_outer_forest sn sa kids (0 + 1) [TEnd n] ltac:(lia)).
  cbn [replace_outer]. change (0 + 1 - 1 =? 0) with true. cbn iota. reflexivity.
Qed.

Lemma denotes_elem cl e k : denotes cl e k -> is_elem e.
Proof. intro H. destruct H; exact I. Qed.

Lemma compile_send_elem n a kids junk fail :
  compile_send (mkreader (tokens_of (Elem n a kids) ++ junk) fail) =
  check_open :: map PTok (tokens_of (Elem n a kids)) ++ [PFlush].
Proof.
  unfold compile_send. cbn [r_toks r_fail]. rewrite tokens_of_elem. cbn [app map]. rewrite <- app_assoc.
  destruct (inner_elem_rest kids n junk) as [H1 H2]. rewrite H1, H2.
  unfold body_prims. cbn [negb andb]. rewrite map_app, <- app_assoc. reflexivity.
Qed.

Lemma denotes_compile cl e k : denotes cl e k ->
  compile cl = Region (check_open :: map PTok (tokens_of e) ++ repeat PFlush k, true) \/
  compile cl = Region (map PLwcTok (tokens_of e) ++ repeat PLwcFlush k, false).
Proof.
  intro Hd. destruct Hd.
  (* D_send .. D_encel_writerto write directly; D_tokenwriter and D_reply go
     through the locked writer *)
  1-9: left. 10-11: right.
  - (* D_send *) cbn [compile]. rewrite compile_send_elem. reflexivity.
  - (* D_send_element *) cbn [compile]. unfold compile_send_element, body_prims. cbn [r_toks r_fail negb andb].
    rewrite tokens_of_elem. cbn [map app]. rewrite map_app, <- app_assoc. reflexivity.
  - (* D_sendx *) cbn [compile r_toks r_fail]. rewrite tokens_of_elem at 1. cbn [app]. rewrite H.
    exact (f_equal (fun ps => Region (ps, true)) (compile_send_elem n (fill_id a newid) kids junk fail)).
  - (* D_encode_reader *) reflexivity.
  - (* D_encode_struct *)
    cbn [compile]. unfold compile_encode. cbn [value_merr value_tokens value_tail]. rewrite H. reflexivity.
  - (* D_encode_writerto *) reflexivity.
  - (* D_encel_reader *)
    cbn [compile]. unfold compile_encode_element. cbn [value_merr value_tokens value_tail r_toks r_fail].
    rewrite replace_outer_elem. reflexivity.
  - (* D_encel_struct *) cbn [compile]. unfold compile_encode_element. cbn [value_merr value_tokens value_tail].
    rewrite H, replace_outer_elem. reflexivity.
  - (* D_encel_writerto *) cbn [compile]. unfold compile_encode_element. cbn [value_merr value_tokens value_tail].
    rewrite replace_outer_elem. reflexivity.
  - (* D_tokenwriter *) cbn [compile]. rewrite map_map. reflexivity.
  - (* D_reply *) reflexivity.
Qed.

Definition appends_block (c : cfg) (rg : region) (ek : tree * nat) : Prop := forall st lg ids,
  exists xs, exec_region c (mkost 0 st lg false ids) rg =
               (mkost 0 st (lg ++ block c ids (fst ek) (snd ek)) false (pop_if (needs_id (fst ek)) ids), xs) /\
             allok xs = true.

Lemma denotes_region c cl e k :
  denotes cl e k -> wf_tree e -> exists rg, compile cl = Region rg /\ appends_block c rg (e, k).
Proof.
  intros Hd Hwf.
  destruct (denotes_compile cl e k Hd) as [Hc|Hc]; eexists; (split; [exact Hc|]); intros st lg ids; eexists; split.
  - unfold exec_region. cbn [fst snd exec_prims pstep check_open o_closed is_err andb].
    rewrite (emit_block c true false PTok PFlush (fun _ _ _ _ _ => eq_refl) (fun _ _ _ _ => eq_refl)
               e k st ids Hwf lg). reflexivity.
  - apply (allok_repeat (S _)).
  - apply (emit_block c false false PLwcTok PLwcFlush (fun _ _ _ _ _ => eq_refl) (fun _ _ _ _ => eq_refl)
             e k st ids Hwf lg).
  - apply allok_repeat.
Qed.

Lemma pop_if_Forall (P : bytes -> Prop) b ids : Forall P ids -> Forall P (pop_if b ids).
Proof. intro H. destruct b; [|exact H]. destruct H; [constructor|assumption]. Qed.

(* the default id stands in when the supply is exhausted *)
Lemma hd_id_nonempty ids : Forall (fun i => i <> []) ids -> hd_id ids <> [].
Proof. intro H. destruct H; [discriminate|assumption]. Qed.

(* ek j: the element of thread j *)
Lemma exec_acq_blocks c (ek : nat -> tree * nat) : forall acq,
  (forall j rg, In (j, rg) acq -> appends_block c rg (ek j)) ->
  forall st lg ids,
  exists rs, exec_acq c (mkost 0 st lg false ids) acq =
    (mkost 0 st (lg ++ seq_log c ids (map (fun x => ek (fst x)) acq)) false
           (seq_ids ids (map (fun x => ek (fst x)) acq)), rs) /\
    allok (map snd rs) = true.
Proof.
  induction acq as [|[i rg] r IH]; intros H st lg ids.
  - exists []. cbn [exec_acq seq_log seq_ids map allok forallb]. rewrite app_nil_r. split; reflexivity.
  - destruct (H i rg (or_introl eq_refl) st lg ids) as [xs [He Hok]]. cbn [map fst]. destruct (ek i) as [e k].
    cbn [fst snd] in He.
    destruct (IH (fun j rg' Hj => H j rg' (or_intror Hj)) st (lg ++ block c ids e k) (pop_if (needs_id e) ids))
      as [rs [Hrs Hrok]].
    exists (map (pair i) xs ++ rs). cbn [exec_acq seq_log seq_ids]. rewrite He, Hrs. split.
    + rewrite <- app_assoc. reflexivity.
    + rewrite map_app, map_map. cbn [snd]. rewrite map_id. rewrite allok_app, Hok, Hrok. reflexivity.
Qed.

Lemma set_nth_length {A} (l : list A) i x : length (set_nth l i x) = length l.
Proof. apply Heap.set_nth_length. Qed.

Lemma exec_acq_snoc c o acq i rg :
  exec_acq c o (acq ++ [(i, rg)]) =
  let '(o1, r1) := exec_acq c o acq in
  let '(o2, xs) := exec_region c o1 rg in (o2, r1 ++ map (pair i) xs).
Proof.
  revert o. induction acq as [|[j rg'] r IH]; intro o.
  - cbn [app exec_acq]. destruct (exec_region c o rg) as [o2 xs]. rewrite app_nil_r. reflexivity.
  - cbn [app exec_acq]. destruct (exec_region c o rg') as [o1 xs1]. rewrite IH.
    destruct (exec_acq c o1 r) as [o2 r2]. destruct (exec_region c o2 rg) as [o3 xs].
    rewrite app_assoc. reflexivity.
Qed.

(* What thread j of a thread vector shows of itself (f of it; d where there is
   no thread j, so that statements over all j need no bound on j). A step of
   thread i changes what i shows and nothing else. *)
Section View.
Context {T A : Type} (f : T -> A) (d : A).

Definition view (ths : list T) (j : nat) : A :=
  match nth_error ths j with Some th => f th | None => d end.

Lemma view_nth ths j th : nth_error ths j = Some th -> view ths j = f th.
Proof. intro H. unfold view. rewrite H. reflexivity. Qed.

Lemma view_set_nth ths i th th' j : nth_error ths i = Some th ->
  view (set_nth ths i th') j = if Nat.eqb i j then f th' else view ths j.
Proof.
  intro H. unfold view. destruct (Nat.eqb_spec i j) as [<-|Hne].
  - rewrite (Heap.nth_error_set_nth_same _ _ _ _ H). reflexivity.
  - rewrite (Heap.nth_error_set_nth_other _ _ _ _ Hne). reflexivity.
Qed.
End View.

Fixpoint locked_of (segs : list segment) : list region :=
  match segs with
  | [] => []
  | SLocked rg :: r => rg :: locked_of r
  | SUnlocked _ :: r => locked_of r
  end.

(* the region thread j is inside of, if any; the regions it has still to enter *)
Definition cur_at : list thread -> nat -> option region := view t_cur None.
Definition locked_at : list thread -> nat -> list region := view (fun th => locked_of (t_todo th)) [].

(* thread i's share of the order of acquisition *)
Definition acq_of (i : nat) (acq : list (nat * region)) : list region :=
  map snd (filter (fun e => Nat.eqb (fst e) i) acq).

Lemma acq_of_app i a b : acq_of i (a ++ b) = acq_of i a ++ acq_of i b.
Proof. unfold acq_of. rewrite filter_app, map_app. reflexivity. Qed.

Lemma acq_of_cons i j rg r :
  acq_of i ((j, rg) :: r) = if Nat.eqb j i then rg :: acq_of i r else acq_of i r.
Proof. unfold acq_of. cbn [filter fst]. destruct (Nat.eqb j i); reflexivity. Qed.

Lemma acq_of_pairs i j rgs : acq_of j (map (pair i) rgs) = if Nat.eqb i j then rgs else [].
Proof.
  induction rgs as [|rg r IH]; [destruct (Nat.eqb i j); reflexivity|].
  cbn [map]. rewrite acq_of_cons, IH. destruct (Nat.eqb i j); reflexivity.
Qed.

Lemma acq_of_count i acq : length (acq_of i acq) = count_occ Nat.eq_dec (map fst acq) i.
Proof.
  induction acq as [|[j rg] r IH]; [reflexivity|]. cbn [map fst count_occ]. rewrite acq_of_cons.
  destruct (Nat.eq_dec j i) as [->|Hne]; [rewrite Nat.eqb_refl|rewrite (proj2 (Nat.eqb_neq j i) Hne)]; cbn [length]; rewrite IH; reflexivity.
Qed.

Lemma acq_of_In i rg acq : In (i, rg) acq -> In rg (acq_of i acq).
Proof.
  intro H. unfold acq_of. apply in_map_iff. exists (i, rg). split; [reflexivity|].
  apply filter_In. split; [exact H|]. cbn [fst]. apply Nat.eqb_refl.
Qed.

(* what the output state will be once the lock holder has finished its region *)
Definition finish (c : cfg) (g : gstate) : ost * list (nat * res) :=
  match g_lock g with
  | Some i =>
      match cur_at (g_threads g) i with
      | Some (ps, ab) => let '(o, xs) := exec_prims c (g_out g) ps ab in (o, g_rlog g ++ map (pair i) xs)
      | None => (g_out g, g_rlog g)
      end
  | None => (g_out g, g_rlog g)
  end.

(* How a state g reached from the thread programs ths refines the sequential
   machine [exec_acq]: a thread inside a region holds the lock; the output
   state, once the holder has finished, is that of running the acquired regions
   one after the other in the order of acquisition; and what thread j has
   acquired, in order, is what is gone from the front of its program. The
   converse of the first (the lock is held only from inside a region) is not
   needed: where the holder is outside a region [finish] is the present state,
   whatever the lock. *)
Record Sched (c : cfg) (ids : list bytes) (ths : list thread) (g : gstate) : Prop := mkSched {
  sch_mutex : forall j, cur_at (g_threads g) j <> None -> g_lock g = Some j;
  sch_serial : finish c g = exec_acq c (ost0 ids) (g_acq g);
  sch_order : forall j, locked_at ths j = acq_of j (g_acq g) ++ locked_at (g_threads g) j
}.

(* Mutual exclusion survives an update of thread i if afterwards i holds the
   lock when inside a region, and no other thread loses it. *)
Lemma mutex_update ths lk i th th' lk' :
  nth_error ths i = Some th ->
  (forall j, cur_at ths j <> None -> lk = Some j) ->
  (t_cur th' <> None -> lk' = Some i) ->
  (forall j, i <> j -> lk = Some j -> lk' = Some j) ->
  forall j, cur_at (set_nth ths i th') j <> None -> lk' = Some j.
Proof.
  intros Ei HM Hi Ho j. unfold cur_at. rewrite (view_set_nth _ _ _ _ _ _ j Ei).
  destruct (Nat.eqb_spec i j) as [<-|Hne]; [exact Hi|]. intro Hj. exact (Ho j Hne (HM j Hj)).
Qed.

(* The shares survive an update of thread i if the regions gone from the front
   of its program are those it has acquired in the step. *)
Lemma order_update (P : nat -> list region) ths acq i th th' rgs :
  nth_error ths i = Some th ->
  locked_of (t_todo th) = rgs ++ locked_of (t_todo th') ->
  (forall j, P j = acq_of j acq ++ locked_at ths j) ->
  forall j, P j = acq_of j (acq ++ map (pair i) rgs) ++ locked_at (set_nth ths i th') j.
Proof.
  intros Ei Hl HO j. unfold locked_at in *.
  rewrite acq_of_app, acq_of_pairs, (view_set_nth _ _ _ _ _ _ j Ei), (HO j).
  destruct (Nat.eqb_spec i j) as [<-|Hne].
  - rewrite (view_nth _ _ _ _ _ Ei), Hl, app_assoc. reflexivity.
  - rewrite app_nil_r. reflexivity.
Qed.

Lemma sched_init c ids ths :
  Forall (fun th => t_cur th = None) ths -> Sched c ids ths (ginit ids ths).
Proof.
  intro H. constructor; cbn [ginit g_threads g_lock g_acq g_out g_rlog]; [|reflexivity|reflexivity].
  intros j Hc. exfalso. apply Hc. unfold cur_at, view.
  destruct (nth_error ths j) as [th|] eqn:E; [|reflexivity].
  rewrite Forall_forall in H. apply H. eapply nth_error_In. exact E.
Qed.

(* In each of the four kinds of step the thread vector changes at i only
   (mutex_update, order_update; only the acquire step adds to the order and
   takes a region from a program); the serial field is kept because only the
   holder touches the output state. *)
Lemma sched_step c ids ths g i g' :
  Sched c ids ths g -> step c g i = Some g' -> Sched c ids ths g'.
Proof.
  intros [HM Hser HO] Hstep. unfold step in Hstep.
  destruct (nth_error (g_threads g) i) as [th|] eqn:Ei; [|discriminate].
  pose proof (view_nth t_cur None _ _ _ Ei : cur_at _ _ = _) as Hcur.
  destruct (t_cur th) as [[ps ab]|] eqn:Ecur.
  - (* inside a region: thread i is the lock holder *)
    assert (Hlock : g_lock g = Some i) by (apply HM; rewrite Hcur; discriminate).
    destruct ps as [|p rest].
    + (* release: i leaves its region and frees the lock *)
      injection Hstep as <-. constructor; cbn [g_threads g_lock g_acq g_out g_rlog].
      * apply (mutex_update _ _ _ _ _ _ Ei HM); cbn [t_cur].
        -- congruence.
        -- intros j Hne. rewrite Hlock. congruence.
      * rewrite <- Hser. unfold finish. rewrite Hlock, Hcur. cbn [exec_prims map]. rewrite app_nil_r. reflexivity.
      * rewrite <- (app_nil_r (g_acq g)). apply (order_update _ _ _ _ _ _ [] Ei); [reflexivity|exact HO].
    + (* one primitive: i stays inside its region, the lock is not touched *)
      destruct (pstep c (g_out g) p) as [o' x] eqn:Ep. injection Hstep as <-.
      constructor; cbn [g_threads g_lock g_acq g_out g_rlog].
      * apply (mutex_update _ _ _ _ _ _ Ei HM); cbn [t_cur].
        -- intros _. exact Hlock.
        -- auto.
      * rewrite <- Hser. unfold finish. cbn [g_threads g_lock g_out g_rlog]. rewrite Hlock, Hcur. unfold cur_at.
        rewrite (view_set_nth _ _ _ _ _ _ i Ei), Nat.eqb_refl. cbn [t_cur exec_prims]. rewrite Ep.
        destruct (ab && is_err x) eqn:Eab.
        -- cbn [exec_prims map]. rewrite <- app_assoc. reflexivity.
        -- destruct (exec_prims c o' rest ab) as [o2 xs]. cbn [map]. rewrite <- app_assoc. reflexivity.
      * rewrite <- (app_nil_r (g_acq g)). apply (order_update _ _ _ _ _ _ [] Ei); [reflexivity|exact HO].
  - destruct (t_todo th) as [|[rg|u] todo'] eqn:Etodo; [discriminate| |].
    + (* acquire: the lock was free; i takes it and enters its region *)
      destruct (g_lock g) as [k|] eqn:Elock; [discriminate|]. injection Hstep as <-.
      constructor; cbn [g_threads g_lock g_acq g_out g_rlog].
      * apply (mutex_update _ _ _ _ _ _ Ei HM); cbn [t_cur].
        -- reflexivity.
        -- discriminate.
      * rewrite exec_acq_snoc, <- Hser. unfold finish. cbn [g_threads g_lock g_out g_rlog]. unfold cur_at.
        rewrite Elock, (view_set_nth _ _ _ _ _ _ i Ei), Nat.eqb_refl. cbn [t_cur]. destruct rg as [ps ab]. reflexivity.
      * apply (order_update _ _ _ _ _ _ [rg] Ei); [exact (f_equal locked_of Etodo)|exact HO].
    + (* a step outside the lock: the output state is not touched, and thread i
         is inside no region before or after *)
      destruct (uguard (g_in g) u); [|discriminate].
      destruct (ustep (g_in g) u) as [i' x]. injection Hstep as <-.
      constructor; cbn [g_threads g_lock g_acq g_out g_rlog].
      * apply (mutex_update _ _ _ _ _ _ Ei HM); cbn [t_cur].
        -- congruence.
        -- auto.
      * rewrite <- Hser. unfold finish. cbn [g_threads g_lock g_out g_rlog].
        destruct (g_lock g) as [k|]; [|reflexivity]. unfold cur_at in *. rewrite (view_set_nth _ _ _ _ _ _ k Ei). cbn [t_cur].
        destruct (Nat.eqb_spec i k) as [<-|]; [rewrite Hcur|]; reflexivity.
      * rewrite <- (app_nil_r (g_acq g)). apply (order_update _ _ _ _ _ _ [] Ei); [exact (f_equal locked_of Etodo)|exact HO].
Qed.

(* every schedule is serialisable, by an interleaving of the threads' programs *)
Theorem sched_run c ids ths tr g :
  Forall (fun th => t_cur th = None) ths ->
  run (step c) (ginit ids ths) tr = Some g -> Sched c ids ths g.
Proof.
  intros H0. apply (invariant_run gstate nat (step c) (Sched c ids ths) _ (sched_init c ids ths H0)).
  intros s l s'. apply sched_step.
Qed.

Lemma sched_free c ids ths g : Sched c ids ths g -> g_lock g = None ->
  (g_out g, g_rlog g) = exec_acq c (ost0 ids) (g_acq g).
Proof. intros HS Hl. rewrite <- (sch_serial _ _ _ _ HS). unfold finish. rewrite Hl. reflexivity. Qed.

Lemma finished_views g : finished g = true ->
  forall j, cur_at (g_threads g) j = None /\ locked_at (g_threads g) j = [].
Proof.
  unfold finished, cur_at, locked_at, view. intros H j. rewrite forallb_forall in H.
  destruct (nth_error (g_threads g) j) as [th|] eqn:E; [|split; reflexivity].
  specialize (H th (nth_error_In _ _ E)).
  destruct (t_todo th); [|discriminate]. destruct (t_cur th); [discriminate|]. split; reflexivity.
Qed.

Lemma sched_finished c ids ths g : Sched c ids ths g -> finished g = true ->
  (g_out g, g_rlog g) = exec_acq c (ost0 ids) (g_acq g) /\ forall j, acq_of j (g_acq g) = locked_at ths j.
Proof.
  intros [_ Hser HO] Hfin. split.
  - rewrite <- Hser. unfold finish. destruct (g_lock g) as [j|]; [|reflexivity].
    rewrite (proj1 (finished_views g Hfin j)). reflexivity.
  - intro j. rewrite (HO j), (proj2 (finished_views g Hfin j)), app_nil_r. reflexivity.
Qed.

(* if each thread below n has acquired exactly one region and no other thread
   any, the order of acquisition is a permutation of 0 .. n-1, and what holds of
   thread j's region holds of every region acquired by j *)
Lemma acq_once n (R : nat -> region -> Prop) acq :
  (forall j, if Nat.ltb j n then exists rg, acq_of j acq = [rg] /\ R j rg else acq_of j acq = []) ->
  NoDup (map fst acq) /\ (forall i, In i (map fst acq) <-> (i < n)%nat) /\
  forall j rg, In (j, rg) acq -> R j rg.
Proof.
  intro H. split; [|split].
  - apply (NoDup_count_occ Nat.eq_dec). intro j. rewrite <- acq_of_count. specialize (H j).
    destruct (Nat.ltb j n); [destruct H as [rg [-> _]]|rewrite H]; cbn [length]; lia.
  - intro i. rewrite (count_occ_In Nat.eq_dec), <- acq_of_count. specialize (H i).
    destruct (Nat.ltb_spec i n); [destruct H as [rg [-> _]]|rewrite H]; cbn [length]; lia.
  - intros j rg Hin. apply acq_of_In in Hin. specialize (H j).
    destruct (Nat.ltb j n); [|rewrite H in Hin; destruct Hin].
    destruct H as [rg' [E HR]]. rewrite E in Hin. destruct Hin as [<-|[]]. exact HR.
Qed.

Lemma call_threads_idle calls : Forall (fun th => t_cur th = None) (map call_thread calls).
Proof.
  apply Forall_forall. intros th Hth. apply in_map_iff in Hth. destruct Hth as [cl [<- _]].
  unfold call_thread. destruct (compile cl); reflexivity.
Qed.

Lemma denoting_program c calls elems j :
  Forall2 (fun cl ek => denotes cl (fst ek) (snd ek) /\ wf_tree (fst ek)) calls elems ->
  if Nat.ltb j (length calls)
  then exists rg, locked_at (map call_thread calls) j = [rg] /\ appends_block c rg (nth j elems no_elem)
  else locked_at (map call_thread calls) j = [].
Proof.
  intro HF. unfold locked_at, view. rewrite nth_error_map. destruct (Nat.ltb_spec j (length calls)) as [Hj|Hj].
  - destruct (nth_error calls j) as [cl|] eqn:E; [|apply nth_error_None in E; lia].
    destruct (Forall2_nth_error _ _ _ j cl no_elem HF E) as [Hd Hwf]. destruct (nth j elems no_elem) as [e k].
    destruct (denotes_region c cl e k Hd Hwf) as [rg [Hc Hb]]. exists rg. split; [|exact Hb].
    cbn [option_map]. unfold call_thread. rewrite Hc. reflexivity.
  - rewrite (proj2 (nth_error_None _ _) Hj). reflexivity.
Qed.

Lemma wire_of_app : forall l1 buf l2,
  wire_of buf (l1 ++ l2) = wire_of buf l1 ++ wire_of (pending_of buf l1) l2.
Proof.
  induction l1 as [|e r IH]; intros buf l2; [reflexivity|].
  destruct e; cbn [app wire_of pending_of].
  - apply IH.
  - rewrite IH, app_assoc. reflexivity.
  - rewrite IH. reflexivity.
Qed.

Lemma wire_of_toks : forall toks buf rest,
  wire_of buf (map EvTok toks ++ rest) = wire_of (buf ++ toks) rest.
Proof.
  induction toks as [|t r IH]; intros buf rest.
  - cbn [map app]. rewrite app_nil_r. reflexivity.
  - cbn [map app wire_of]. rewrite IH, <- app_assoc. reflexivity.
Qed.

Lemma wire_of_flushes k : wire_of [] (repeat EvFlush k) = [].
Proof. induction k as [|k IH]; [reflexivity|]. cbn [repeat wire_of map app]. exact IH. Qed.

Lemma block_flushed c ids e k lg :
  wire_of [] (lg ++ block c ids e (S k)) =
  wire_of [] lg ++ map WTok (pending_of [] lg ++ tokens_of (spec_top c (hd_id ids) e)).
Proof.
  rewrite wire_of_app. f_equal. unfold block. cbn [repeat]. rewrite wire_of_toks.
  cbn [wire_of]. rewrite wire_of_flushes, app_nil_r. reflexivity.
Qed.

Lemma pending_of_app : forall l1 buf l2,
  pending_of buf (l1 ++ l2) = pending_of (pending_of buf l1) l2.
Proof.
  induction l1 as [|e r IH]; intros buf l2; [reflexivity|].
  destruct e; cbn [app pending_of]; apply IH.
Qed.

Lemma pending_of_toks : forall toks buf, pending_of buf (map EvTok toks) = buf ++ toks.
Proof.
  induction toks as [|t r IH]; intro buf; cbn [map pending_of].
  - rewrite app_nil_r. reflexivity.
  - rewrite IH, <- app_assoc. reflexivity.
Qed.

Lemma pending_of_flushes k buf : pending_of buf (repeat EvFlush (S k)) = [].
Proof. cbn [repeat pending_of]. induction k as [|k IH]; [reflexivity|]. cbn [repeat pending_of]. exact IH. Qed.

Definition log_tokens (l : list ev) : list token :=
  flat_map (fun x => match x with EvTok t => [t] | _ => [] end) l.

Lemma log_tokens_app l1 l2 : log_tokens (l1 ++ l2) = log_tokens l1 ++ log_tokens l2.
Proof. apply flat_map_app. Qed.

Lemma log_tokens_toks toks : log_tokens (map EvTok toks) = toks.
Proof. induction toks as [|t r IH]; [reflexivity|]. cbn. f_equal. exact IH. Qed.

Lemma log_tokens_flushes k : log_tokens (repeat EvFlush k) = [].
Proof. induction k as [|k IH]; [reflexivity|exact IH]. Qed.

(* nothing is lost or reordered between the encoder and the connection: what
   has been written plus what is still buffered are the accepted tokens *)
Lemma wire_plus_pending : forall l buf, ~ In EvClose l ->
  wire_of buf l ++ map WTok (pending_of buf l) = map WTok (buf ++ log_tokens l).
Proof.
  induction l as [|e r IH]; intros buf Hnc.
  - cbn [wire_of pending_of log_tokens flat_map app]. rewrite app_nil_r. reflexivity.
  - assert (Hr : ~ In EvClose r) by (intro H; apply Hnc; right; exact H).
    destruct e; cbn [wire_of pending_of log_tokens flat_map app].
    + rewrite (IH _ Hr), <- app_assoc. reflexivity.
    + rewrite <- app_assoc, (IH _ Hr), <- map_app. reflexivity.
    + exfalso. apply Hnc. left. reflexivity.
Qed.

Lemma seq_log_no_close c : forall es ids, ~ In EvClose (seq_log c ids es).
Proof.
  induction es as [|[e k] r IH]; intros ids Hx; [contradiction|].
  cbn [seq_log] in Hx. unfold block in Hx. rewrite !in_app_iff in Hx. destruct Hx as [[Hx|Hx]|Hx].
  - apply in_map_iff in Hx. destruct Hx as [t [Ht _]]. discriminate.
  - apply repeat_spec in Hx. discriminate.
  - exact (IH _ Hx).
Qed.

Lemma seq_log_tokens c : forall es ids, log_tokens (seq_log c ids es) = seq_tokens c ids es.
Proof.
  induction es as [|[e k] r IH]; intro ids; [reflexivity|].
  cbn [seq_log seq_tokens]. unfold block.
  rewrite !log_tokens_app, log_tokens_toks, log_tokens_flushes, IH, app_nil_r. reflexivity.
Qed.

Lemma seq_log_pending c : forall es ids buf,
  Forall (fun ek => (1 <= snd ek)%nat) es ->
  pending_of buf (seq_log c ids es) = match es with [] => buf | _ => [] end.
Proof.
  induction es as [|[e k] r IH]; intros ids buf Hk; [reflexivity|].
  inversion Hk as [|? ? Hk1 Hkr]; subst. cbn [snd] in Hk1.
  cbn [seq_log]. rewrite pending_of_app. unfold block. rewrite pending_of_app, pending_of_toks.
  destruct k as [|k]; [lia|]. rewrite pending_of_flushes.
  rewrite (IH _ [] Hkr). destruct r; reflexivity.
Qed.

Lemma wire_seq_log c ids es :
  map WTok (seq_tokens c ids es) =
    wire_of [] (seq_log c ids es) ++ map WTok (pending_of [] (seq_log c ids es)) /\
  (Forall (fun ek => (1 <= snd ek)%nat) es -> wire_of [] (seq_log c ids es) = map WTok (seq_tokens c ids es)).
Proof.
  pose proof (wire_plus_pending (seq_log c ids es) [] (seq_log_no_close c es ids)) as H1.
  rewrite seq_log_tokens in H1. cbn [app] in H1. split; [symmetry; exact H1|].
  intro Hk. rewrite (seq_log_pending c es ids [] Hk) in H1.
  destruct es; cbn [map] in H1; rewrite app_nil_r in H1; exact H1.
Qed.

(* the names SendIQ / SendMessage / SendPresence accept (isIQEmptySpace,
   isMessageEmptySpace, isPresenceEmptySpace) are names the stanza encoder completes *)
Lemma kind_name_table k n :
  is_kind_name k n = true -> is_stanza_name n = true.
Proof.
  unfold is_kind_name, is_stanza_name. intro H. apply andb_true_iff in H. destruct H as [H1 H2].
  rewrite H2, andb_true_r. apply bytes_eqb_eq in H1. rewrite H1. destruct k; reflexivity.
Qed.

(* what getIDTyp holds at any moment: no index yet, or the index of an
   unqualified id attribute together with that attribute's value *)
Definition points_at (a : list attr) (r : option nat * bytes) : Prop :=
  match fst r with
  | None => True
  | Some j => exists pre x post, a = pre ++ x :: post /\ j = length pre /\ plain_is s_id x = true /\ aval x = snd r
  end.

Lemma get_id_typ_points a : forall r pre idx id td,
  a = pre ++ r -> points_at a (idx, id) -> points_at a (get_id_typ r (length pre) idx id td).
Proof.
  induction r as [|x r IH]; intros pre idx id td Ha Hp; cbn [get_id_typ]; [exact Hp|].
  assert (Hrec : forall idx' id' td', points_at a (idx', id') ->
                   points_at a (get_id_typ r (S (length pre)) idx' id' td')).
  { intros idx' id' td'.
    replace (S (length pre)) with (length (pre ++ [x])) by (rewrite app_length; apply Nat.add_1_r).
    apply IH. rewrite <- app_assoc. exact Ha. }
  destruct (plain_is s_id x) eqn:E.
  - assert (Hx : points_at a (Some (length pre), aval x)) by (exists pre, x, r; auto).
    destruct (td || _); [exact Hx|apply Hrec, Hx].
  - destruct idx as [k|]; [destruct (td || _); [exact Hp|]|]; apply Hrec, Hp.
Qed.

Lemma set_val_at pre x post v : set_val (pre ++ x :: post) (length pre) v = pre ++ mkattr (aname x) v :: post.
Proof. induction pre as [|y r IH]; [reflexivity|]. cbn [app length set_val]. rewrite IH. reflexivity. Qed.

(* The id handling in one statement: there is no unqualified id and one is
   appended, or the one getIDTyp stopped at gets the new value if its own was
   empty. *)
Lemma fill_id_cases a newid :
  fill_id a newid = a ++ [id_attr newid] \/
  exists pre x post, a = pre ++ x :: post /\ plain_is s_id x = true /\
    fill_id a newid = pre ++ (if is_empty (aval x) then mkattr (aname x) newid else x) :: post.
Proof.
  unfold fill_id. pose proof (get_id_typ_points a a [] None [] false eq_refl I) as Hp. cbn [length] in Hp.
  destruct (get_id_typ a 0 None [] false) as [[j|] v]; [right|left; reflexivity].
  cbn [points_at fst snd] in Hp. destruct Hp as (pre & x & post & Ha & -> & Hx & <-).
  exists pre, x, post. split; [exact Ha|]. split; [exact Hx|].
  destruct (is_empty (aval x)); [rewrite Ha; apply set_val_at|exact Ha].
Qed.

Lemma fill_id_others a newid :
  filter (fun x => negb (plain_is s_id x)) (fill_id a newid) = filter (fun x => negb (plain_is s_id x)) a.
Proof.
  destruct (fill_id_cases a newid) as [->|(pre & x & post & Ha & Hx & ->)].
  - rewrite filter_app. apply app_nil_r.
  - rewrite Ha, !filter_app. cbn [filter]. rewrite Hx.
    destruct (is_empty (aval x)); [change (plain_is s_id (mkattr (aname x) newid)) with (plain_is s_id x)|]; rewrite Hx; reflexivity.
Qed.

Lemma fill_id_has_id a newid : newid <> [] -> has_nonempty s_id (fill_id a newid) = true.
Proof.
  intro Hne. destruct (fill_id_cases a newid) as [->|(pre & x & post & _ & Hx & ->)]; rewrite has_nonempty_app.
  - unfold id_attr. rewrite (has_nonempty_plain s_id newid [] Hne). apply orb_true_r.
  - unfold has_nonempty at 2. cbn [existsb]. destruct (is_empty (aval x)) eqn:Ev.
    + change (plain_is s_id (mkattr (aname x) newid)) with (plain_is s_id x).
      cbn [aval]. rewrite Hx, (is_empty_false _ Hne), orb_true_r. reflexivity.
    + rewrite Hx, Ev, orb_true_r. reflexivity.
Qed.

Lemma cfg_of_ns p : c_ns (cfg_of p) = p_out_ns p.
Proof. reflexivity. Qed.

Lemma cfg_of_from_server p : p_out_ns p = so_ns_server -> c_from (cfg_of p) = p_local p.
Proof. intro H. unfold cfg_of. cbn [c_from]. rewrite H, bytes_eqb_refl. reflexivity. Qed.

Lemma cfg_of_from_other p : p_out_ns p <> so_ns_server -> c_from (cfg_of p) = [].
Proof.
  intro H. unfold cfg_of. cbn [c_from].
  destruct (bytes_eqb (p_out_ns p) so_ns_server) eqn:E; [apply bytes_eqb_eq in E; contradiction|reflexivity].
Qed.
