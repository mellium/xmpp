(* C03/Examples.v — non-vacuity: runs that do satisfy the hypotheses of the
   soundness theorems (authn = true) along every path that can set the bit, and
   the adversarial shapes named in the property, evaluated in the model. *)
From XV Require Import lib.Bytes C03.Model C03.Proofs C03.Hist.

Definition xa : list mech := [mkMech (str "X-A") KScript].
Definition adv_xa : list (bool * bytes) := [(true, str "X-A")].
Definition cfg_xa : ccfg := mkCcfg xa adv_xa (mkCreds [] (str "test") []).
Definition ok_pay (d : bytes) : pay := mkPay (match d with [] => PNone | _ => PText end) (Some d).
Definition more (r : string) : sres := mkSres true (str r) MNone.
Definition fin : sres := mkSres false [] MNone.

(* client, PLAIN: one Step, <success/> *)
Example ex_client_plain :
  negotiate_client (env_of [] []) (mkCcfg [mkMech (str "PLAIN") KPlain] [(true, str "PLAIN")] (mkCreds [] (str "test") []))
                   [CSuccess (Some (mkPay PNone (Some [])))]
  = mkRes None [OAuth (str "PLAIN") (str "AHRlc3QA")]
          [EvStep (str "PLAIN") [] (mkSres false (x00 :: str "test" ++ [x00]) MNone)] 1.
Proof. vm_compute. reflexivity. Qed.

(* client, SCRAM-shaped: the mechanism completes on the data carried by <success/> *)
Example ex_client_completes_on_success :
  authn (negotiate_client (env_of [more "c1"; more "c2"; fin] []) cfg_xa
           [CChallenge (Some (ok_pay (str "s1"))); CSuccess (Some (ok_pay (str "v=sig")))]) = true.
Proof. vm_compute. reflexivity. Qed.

(* client: the mechanism completes on a <challenge/>, the <success/> follows (final read) *)
Example ex_client_completes_on_challenge :
  negotiate_client (env_of [more "a"; fin] []) cfg_xa
     [CChallenge (Some (ok_pay (str "x"))); CSuccess (Some (mkPay PNone (Some [])))]
  = mkRes None [OAuth (str "X-A") (str "YQ=="); OResponse (str "=")]
          [EvStep (str "X-A") [] (more "a"); EvStep (str "X-A") (str "x") fin] 2.
Proof. vm_compute. reflexivity. Qed.

(* ... and without the <success/> it is rejected: failure, challenge, nothing *)
Example ex_client_no_success :
  map (fun s => r_err (negotiate_client (env_of [more "a"; fin] []) cfg_xa (CChallenge (Some (ok_pay (str "x"))) :: s)))
      [[]; [CFailure (Some 10)]; [CChallenge (Some (ok_pay (str "y")))]; [CSuccess (Some (mkPay PEq None))]]
  = [Some EStream; Some (ESaslFailure 10); Some EUnexpected; Some EB64].
Proof. vm_compute. reflexivity. Qed.

(* premature success: the exchange goes on and still needs completion and a final <success/> *)
Example ex_client_premature_success :
  map (fun s => authn (negotiate_client (env_of [more "a"; more "b"; fin] []) cfg_xa s))
      [[CSuccess (Some (ok_pay (str "x")))];
       [CSuccess (Some (ok_pay (str "x"))); CSuccess (Some (ok_pay (str "y")))];
       [CSuccess (Some (ok_pay (str "x"))); CChallenge (Some (ok_pay (str "y")))]]
  = [false; true; false].
Proof. vm_compute. reflexivity. Qed.

(* a mechanism error, an unadvertised mechanism, a mechanism advertised outside the SASL namespace *)
Example ex_client_closed :
  (r_err (negotiate_client (env_of [more "a"; mkSres true (str "zz") MAuthn] []) cfg_xa [CSuccess (Some (ok_pay (str "x")))]),
   r_err (negotiate_client (env_of [fin] []) (mkCcfg xa [(true, str "X-B")] (mkCreds [] [] [])) [CSuccess (Some (ok_pay []))]),
   r_err (negotiate_client (env_of [fin] []) (mkCcfg xa [(false, str "X-A")] (mkCreds [] [] [])) [CSuccess (Some (ok_pay []))]))
  = (Some EMechAuthn, Some ENoMech, Some ENoMech).
Proof. vm_compute. reflexivity. Qed.

(* server, PLAIN accepted / refused (a payload that is not three fields: ex_server_closed) *)
Definition plain_srv : list mech := [mkMech (str "X-A") KScript; mkMech (str "PLAIN") KPlain].
Definition creds_pay : pay := ok_pay (x00 :: str "test" ++ x00 :: str "pass").

Example ex_server_plain_ok :
  negotiate_server (env_of [] [true]) plain_srv [SAuth (str "PLAIN") (Some creds_pay)]
  = mkRes None [OSuccess []]
      [EvPerm (str "test") (str "pass") [] true;
       EvStep (str "PLAIN") (x00 :: str "test" ++ x00 :: str "pass") fin] 1.
Proof. vm_compute. reflexivity. Qed.

Example ex_server_plain_refused :
  negotiate_server (env_of [] [false]) plain_srv [SAuth (str "PLAIN") (Some creds_pay)]
  = mkRes (Some EMechAuthn) [OFailure cond_not_authorized]
      [EvPerm (str "test") (str "pass") [] false;
       EvStep (str "PLAIN") (x00 :: str "test" ++ x00 :: str "pass") (mkSres false [] MAuthn)] 1.
Proof. vm_compute. reflexivity. Qed.

(* server, multi-step scripted mechanism; a second <auth/> restarts the exchange *)
Example ex_server_two_steps :
  authn (negotiate_server (env_of [more "c"; fin] []) plain_srv
           [SAuth (str "X-A") (Some (ok_pay (str "i"))); SResponse (Some (ok_pay (str "r")))]) = true.
Proof. vm_compute. reflexivity. Qed.

Example ex_server_reauth :
  negotiate_server (env_of [more "c"; fin] [true]) plain_srv
           [SAuth (str "X-A") (Some (ok_pay (str "i"))); SAuth (str "PLAIN") (Some creds_pay)]
  = mkRes None [OChallenge (str "Yw=="); OSuccess []]
      [EvStep (str "X-A") (str "i") (more "c");
       EvPerm (str "test") (str "pass") [] true;
       EvStep (str "PLAIN") (x00 :: str "test" ++ x00 :: str "pass") fin] 2.
Proof. vm_compute. reflexivity. Qed.

(* the adversarial shapes on the receiving side *)
Example ex_server_closed :
  map (fun s => r_err (negotiate_server (env_of [more "c"; fin] [true]) plain_srv s))
      [[SResponse (Some creds_pay)];
       [SAuth (str "UNKNOWN") (Some creds_pay)];
       [SAuth [] (Some creds_pay)];
       [SAuth (str "X-A") (Some (ok_pay (str "i"))); SAbort true];
       [SAuth (str "X-A") (Some (mkPay PText None))];
       [SAuth (str "X-A") (Some (ok_pay (str "i"))); SOther true];
       [SAuth (str "PLAIN") (Some (mkPay PEq None))];        (* "=": empty payload, not three fields *)
       [SFailure (Some 1)]; [SNonStart]; []]
  = [Some EUnexpected; Some ENoMech; Some ENoMech; Some ETerminated; Some EB64; Some EUnexpected;
     Some EMechOther; Some (ESaslFailure 1); Some EUnexpected; Some EStream].
Proof. vm_compute. reflexivity. Qed.

(* the hypotheses of the soundness theorems are satisfiable: the conclusions, instantiated *)
Example ex_client_sound_instance :
  exists m pre last,
    select_mech xa (parse_adv adv_xa) = Some m /\
    firstn 2 [CChallenge (Some (ok_pay (str "x"))); CSuccess (Some (mkPay PNone (Some [])))] = pre ++ [last] /\
    c_success last /\ Forall c_feedable pre.
Proof.
  exists (mkMech (str "X-A") KScript), [CChallenge (Some (ok_pay (str "x")))], (CSuccess (Some (mkPay PNone (Some [])))).
  split; [vm_compute; reflexivity|]. split; [reflexivity|].
  split; [exists (mkPay PNone (Some [])), []; split; reflexivity|].
  constructor; [|constructor]. exists (ok_pay (str "x")), (str "x"). split; [left; reflexivity | reflexivity].
Qed.

(* base64 encoder on the RFC 4648 vectors *)
Example ex_b64 :
  map b64_encode [str ""; str "f"; str "fo"; str "foo"; str "foob"; str "fooba"; str "foobar"]
  = [str ""; str "Zg=="; str "Zm8="; str "Zm9v"; str "Zm9vYg=="; str "Zm9vYmE="; str "Zm9vYmFy"].
Proof. vm_compute. reflexivity. Qed.

(* Go's append on the heap: a nil slice grows through capacities 1, 2, 4, so
   "a", "b" and "c" each allocate an array and "d" is written in place *)
Example ex_parse_growth :
  parse_names [] nil_slice [str "a"; str "b"; str "c"; str "d"]
  = ([[str "a"]; [str "a"; str "b"]; [str "a"; str "b"; str "c"; str "d"]], mkSlice (Some 2) 4 4).
Proof. vm_compute. reflexivity. Qed.

(* re-slicing to length 0 and appending writes into the array handed out before *)
Example ex_parse_reuse :
  let '(h1, d1) := parse_names [] nil_slice [str "X-A"; str "X-B"] in
  let '(h2, d2) := parse_names h1 d1 [str "PLAIN"] in
  (sl_read h1 d1, sl_read h2 d1, sl_read h2 d2)
  = ([str "X-A"; str "X-B"], [str "PLAIN"; str "X-B"], [str "PLAIN"]).
Proof. vm_compute. reflexivity. Qed.

(* two initiating connections and a receiving one on one feature value, lists
   parsed before either negotiates: under the source's decode target each
   authenticates (or not) as it does alone *)
Definition ex_hist : hist :=
  mkHist [mkMech (str "X-A") KScript; mkMech (str "PLAIN") KPlain] [] (str "pw")
    [HClient [(true, str "X-B")] (str "u0") [mkSres false [] MNone] [CSuccess (Some (mkPay PNone (Some [])))];
     HClient [(true, str "X-A"); (true, str "PLAIN")] (str "u1") [mkSres false (str "r") MNone] [CSuccess (Some (mkPay PNone (Some [])))];
     HServer [] [true] [SAuth (str "PLAIN") (Some creds_pay)]].

Example ex_hist_run :
  map (option_map authn) (st_res (hist_run src_target ex_hist [HParse 0; HParse 1; HNeg 2; HNeg 0; HNeg 1]))
  = [Some false; Some true; Some true] /\
  map (option_map authn) (st_res (hist_run PCaptured ex_hist [HParse 0; HParse 1; HNeg 2; HNeg 0; HNeg 1]))
  = [Some true; Some true; Some true].
Proof. split; vm_compute; reflexivity. Qed.

(* the hypotheses of the history theorems are satisfiable *)
Example ex_hist_instance :
  exists r, nth 1 (st_res (hist_run src_target ex_hist [HParse 1; HParse 0; HNeg 1])) None = Some r /\
            authn r = true /\ In (OAuth (str "X-A") (str "cg==")) (r_out r).
Proof. eexists. split; [vm_compute; reflexivity|]. split; [reflexivity | left; reflexivity]. Qed.
