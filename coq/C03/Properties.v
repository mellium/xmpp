(* C03/Properties.v — the theorems of C03, "The authenticated bit is only set
   by a completed, accepted SASL exchange." Their statements are the
   …_statement definitions of C03/Proofs.v (one connection) and
   C03/HistProofs.v (histories); C03_client_preference and
   C03_client_pinned_refuted are written out here. They quantify over every
   mechanism oracle and permission oracle (env), every mechanism list on either
   side, every advertised list and every finite peer script. *)
From XV Require Import lib.Bytes C03.Model C03.Proofs C03.Hist C03.HistProofs.

(* Initiating side. If negotiateClient returns Authn then: the mechanism used is
   the client's first preference among the advertised ones; the session read
   only decodable <challenge/>/<success/> elements and the last element it read
   is a well-formed <success/>; every Step was made on that mechanism, none
   returned an error, every Step but the last asked for more and the last one
   completed; and the mechanism had completed when, or before, that <success/>
   was read (no element is read after the completing Step except the
   <success/>). *)
Theorem C03_client_authn_sound : client_sound_statement.
Proof. exact client_sound. Qed.
Print Assumptions C03_client_authn_sound.

(* Receiving side. If negotiateServer returns Authn then: the session read
   feedable elements, then an <auth/> naming a (non-empty-named) mechanism of
   the server's own list, then only decodable <response/> elements; since that
   <auth/> exactly one Step per element was made, all on that mechanism, none
   failed, only the last reported completion; for PLAIN that exchange is the
   permission callback accepting exactly the credentials the <auth/> carried;
   and <success/> is the last element written, preceded by challenges only. *)
Theorem C03_server_authn_sound : server_sound_statement.
Proof. exact server_sound. Qed.
Print Assumptions C03_server_authn_sound.

(* A mechanism that both sides did not offer is never used — on every run,
   successful or not. Initiator: every Step and the <auth/> written name the
   selected mechanism, which is in the client's list and was advertised in the
   SASL namespace. *)
Theorem C03_no_unoffered_mechanism_client : client_offered_statement.
Proof.
  intros e c script r name ch s Huse.
  destruct (@client_names_selected e c script name) as [m [Sel [Nm F]]].
  { destruct Huse as [H | H]; [left; exists ch, s; exact H | right; exact H]. }
  exists m. split; [exact Sel|]. split; [symmetry; exact Nm | exact F].
Qed.
Print Assumptions C03_no_unoffered_mechanism_client.

(* Receiver: every Step is on a mechanism of the server's own list that an
   <auth/> of the script selected by name. *)
Theorem C03_no_unoffered_mechanism_server : server_offered_statement.
Proof.
  intros e mechs script name ch s H. unfold negotiate_server in H.
  destruct (server_loop_offered H) as [[p [m [Hin L]]] | [m [n [E _]]]]; [|discriminate].
  destruct (lookup_mech_spec L) as [A [B C]].
  exists p, m. repeat split; assumption.
Qed.
Print Assumptions C03_no_unoffered_mechanism_server.

(* The client's choice respects its own preference order: no mechanism earlier
   in its list is advertised. *)
Theorem C03_client_preference : forall mechs names m,
  select_mech mechs names = Some m ->
  exists l1 l2, mechs = l1 ++ m :: l2 /\ forall m', In m' l1 -> ~ In (m_name m') names.
Proof.
  intros mechs names m. unfold select_mech. destruct (find _ mechs) as [m'|] eqn:F; [|discriminate].
  destruct (m_name m') eqn:N; [discriminate|].
  intro H. inversion H; subst.
  destruct (find_first F) as [l1 [l2 [E G]]].
  exists l1, l2. split; [exact E|].
  intros x Hx Hin. rewrite forallb_forall in G. specialize (G x Hx).
  apply (ListAux.existsb_eqb_In _ bytes_eqb_eq) in Hin. rewrite Hin in G. discriminate.
Qed.
Print Assumptions C03_client_preference.

(* The property's wording, as contrapositives of the soundness theorems: one
   element that is not feedable anywhere in what was read (failure, abort,
   unknown element, undecodable or malformed payload, unknown or unoffered
   mechanism), a last element that is not a <success/> (so a challenge after
   completion), or a response before a mechanism was chosen, and there is no
   Authn. A premature <success/> alone does not authenticate either, but it
   does not end the exchange: it is fed to the mechanism, which may complete
   on a later one (Examples.v, ex_client_premature_success). The receiver
   writes <success/> exactly when it authenticates. *)
Theorem C03_adversarial_closed : adversarial_closed_statement.
Proof.
  split; [|split; [|split; [|split; [|split]]]].
  - intros e c script r [it [Hin Hn]]. apply Bool.not_true_is_false. intro A.
    exact (Hn (proj1 (Forall_forall _ _) (client_read_feedable e c script A) it Hin)).
  - intros e c script r Hn. apply Bool.not_true_is_false. intro A.
    destruct (client_read_last e c script A) as [last [E Hl]]. exact (Hn last E Hl).
  - intros e c script r A.
    destruct (client_sound e c script A) as [m [pre [last [_ [_ [Hu [_ [_ [_ [_ Hlen]]]]]]]]]].
    fold r in Hu, Hlen. rewrite Hu. destruct Hlen as [E | E]; rewrite E; auto.
  - intros e mechs script r [it [Hin Hn]]. apply Bool.not_true_is_false. intro A.
    exact (Hn (proj1 (Forall_forall _ _) (server_read_feedable e mechs script A) it Hin)).
  - intros e mechs script r Hn. apply Bool.not_true_is_false. intro A.
    destruct (server_first_auth A) as [name [p E]]. exact (Hn name p E).
  - exact server_success_iff.
Qed.
Print Assumptions C03_adversarial_closed.

(* The code at the pinned commit (before the repair) violated the initiator
   clause: witness (a two-step mechanism completing on a <challenge/>, no
   <success/> in the script); the repaired function rejects the same run. *)
Theorem C03_client_pinned_refuted :
  authn (negotiate_client_pinned pinned_env pinned_cfg pinned_script) = true /\
  (forall it, In it pinned_script -> ~ c_success it) /\
  authn (negotiate_client pinned_env pinned_cfg pinned_script) = false.
Proof.
  split; [vm_compute; reflexivity|]. split; [|vm_compute; reflexivity].
  intros it [E | []] [p [d [F _]]]. subst it. discriminate.
Qed.
Print Assumptions C03_client_pinned_refuted.

(* Facts read from sasl.go / internal/saslerr/errors.go by the translator on
   every run: the feature is eligible only on a secured, unauthenticated stream;
   Authn is only ever returned with a nil error and the mask is otherwise zero;
   the element names, namespace, failure conditions and the guard of the base64 decode
   are the ones the model uses. A source edit that changes any of them breaks
   this obligation. *)
Theorem C03_source_tables : tables_statement.
Proof. exact tables. Qed.
Print Assumptions C03_source_tables.

(* Non-vacuity at every length: a scripted mechanism that asks for more n
   times and then completes does authenticate against a peer that plays along
   (n challenges then <success/> carrying the last data; <auth/> then n
   responses). So the soundness theorems above constrain a model that can, and
   does, return Authn. *)
Theorem C03_client_honest_authenticates : client_honest_statement.
Proof.
  intros e c m chs p Sel K Hd Dp Hmore He Hm.
  assert (Ho : plays_along e 0 (S (length chs))).
  { split; [intros i Hi; apply Hmore, Nat.lt_succ_r, Hi | split; assumption]. }
  destruct (plays_along_S Ho) as [E0 [M0 Ho']].
  unfold negotiate_client, negotiate_client_gen.
  rewrite Sel, (do_step_script K E0), authn_add_evs, E0, authn_add_out, M0.
  exact (client_loop_honest e (c_creds c) m K p Dp chs 1 0 1 Hd Ho').
Qed.
Print Assumptions C03_client_honest_authenticates.

Theorem C03_server_honest_authenticates : server_honest_statement.
Proof.
  intros e mechs m name p0 ps L K D0 Hd Hmore He Hm.
  apply (server_loop_honest e mechs m K ps None 0 0 0 p0); try assumption.
  - split; [exact Hmore | split; assumption].
  - cbn [server_dispatch]. rewrite L. reflexivity.
Qed.
Print Assumptions C03_server_honest_authenticates.

(* Connections that share one SASL feature value (C03/Hist.v).
   A history is any list of connections (initiating and receiving) using the
   same StreamFeature value and any schedule of their Parse / Negotiate calls.
   The decode target of Parse is the one read from sasl.go in this run. *)

(* Every connection gets from Negotiate exactly the result it gets alone, with
   the list its own receiver advertised. *)
Theorem C03_history_sessions_independent : history_independent_statement.
Proof. exact history_independent. Qed.
Print Assumptions C03_history_sessions_independent.

(* What Parse returned for a connection still reads as its own receiver's list
   after any later Parse / Negotiate of any connection (heap of backing arrays). *)
Theorem C03_history_parse_result_stable : history_data_stable_statement.
Proof.
  unfold history_data_stable_statement. rewrite src_target_local. intros H ops i d Hd.
  exact (proj2 (proj1 (hist_run_local_ok H ops) i d Hd)).
Qed.
Print Assumptions C03_history_parse_result_stable.

(* A mechanism that THIS connection's receiver did not offer is never used. *)
Theorem C03_history_no_unoffered_mechanism : history_no_unoffered_statement.
Proof.
  intros H ops i adv user steps script r name S Hr Huse.
  rewrite (history_solo S Hr) in Huse.
  destruct (client_names_selected Huse) as [m [Sel [Nm [Hin [Hadv Hne]]]]].
  split; [exact Hadv|]. split; [exact Hne|]. exists m. split; [exact Sel|]. split; assumption.
Qed.
Print Assumptions C03_history_no_unoffered_mechanism.

(* Authn for a connection of a history implies the soundness clauses about that
   connection's own list, script, mechanism Steps and permission verdicts. *)
Theorem C03_history_authn_sound : history_authn_sound_statement.
Proof.
  intros H ops i s r S Hr A. rewrite (history_solo S Hr) in *.
  destruct s as [adv user steps script | steps verdicts script]; cbn [solo] in *.
  - destruct (client_sound _ _ _ A) as [m [pre [last [Sel [Hf [Hu [Hl [Hp [Hev [Hc _]]]]]]]]]].
    cbn [c_mechs c_adv] in Sel.
    destruct (select_mech_spec Sel) as [_ [Hadv _]]. apply parse_adv_spec in Hadv.
    exists m, pre, last. repeat split; assumption.
  - destruct (server_sound _ _ _ A)
      as [pre [name [p [resps [m [evs0 [evs1 [Hf [Hp [Hr' [_ [Hl [Hin [_ [_ [He [Ht [Hpl Hs]]]]]]]]]]]]]]]]]].
    exists pre, name, p, resps, m, evs0, evs1. repeat (split; [assumption|]). exact Hs.
Qed.
Print Assumptions C03_history_authn_sound.

(* The source fact src_target = PLocal (C03_feature_value_tables) is needed:
   with the decode target captured by the feature value and re-sliced per call,
   a connection offered only SCRAM-SHA-256 sends <auth mechanism='PLAIN'> and
   is authenticated. *)
Theorem C03_shared_parse_buffer_refuted : shared_buffer_refuted_statement.
Proof.
  eexists. eexists. split; [vm_compute; reflexivity|].
  split; [reflexivity|]. split; [left; reflexivity|].
  split; [|vm_compute; reflexivity].
  intros [E | []]. discriminate.
Qed.
Print Assumptions C03_shared_parse_buffer_refuted.

(* Facts of the source text behind the above, regenerated on every run: the
   decode target is declared in the call of Parse; newSASL has no variables but
   its parameters and its closures only read them; no package-level variable or
   parameter of sasl.go is written; both base64 decodes return their error. *)
Theorem C03_feature_value_tables : feature_value_tables_statement.
Proof. exact feature_value_tables. Qed.
Print Assumptions C03_feature_value_tables.
