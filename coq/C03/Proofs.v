(* C03/Proofs.v — the statements of the single-connection theorems of C03
   (…_statement) with the vocabulary they use, and the lemmas about
   negotiate_client / negotiate_server behind them. *)
From XV Require Import lib.Bytes lib.ListAux gen.Sasl C03.Model.

Definition ev_results (l : list ev) : list sres :=
  flat_map (fun x => match x with EvStep _ _ r => [r] | EvPerm _ _ _ _ => [] end) l.

(* permission events belong to the Step that follows *)
Definition ev_on (name : bytes) (x : ev) : Prop :=
  match x with EvStep n _ _ => n = name | EvPerm _ _ _ _ => True end.

Definition step_ok (r : sres) : Prop := s_err r = MNone.

Definition completed (l : list sres) : Prop :=
  exists pre s, l = pre ++ [s] /\ Forall (fun r => step_ok r /\ s_more r = true) pre /\
                step_ok s /\ s_more s = false.

(* the Steps of one exchange, from the <auth/> that started it to the last *)
Definition tail_ok (name : bytes) (cnt : nat) (evs : list ev) : Prop :=
  Forall (ev_on name) evs /\ completed (ev_results evs) /\ length (ev_results evs) = cnt.

(* "feedable": an element whose payload the loop hands to the mechanism's Step *)
Definition c_feedable (it : citem) : Prop :=
  exists p d, (it = CChallenge (Some p) \/ it = CSuccess (Some p)) /\ p_dec p = Some d.

Definition c_success (it : citem) : Prop :=
  exists p d, it = CSuccess (Some p) /\ p_dec p = Some d.

Definition s_response (it : sitem) : Prop :=
  exists p d, it = SResponse (Some p) /\ decode_server p = Some d.

Definition s_feedable (mechs : list mech) (it : sitem) : Prop :=
  s_response it \/
  exists name p d m, it = SAuth name (Some p) /\ decode_server p = Some d /\ lookup_mech mechs name = Some m.

Definition is_success_out (o : out) : Prop := match o with OSuccess _ => True | _ => False end.

Ltac simp_res := cbn [used1 add_evs add_out done fail r_used r_evs r_out r_err firstn length app].

Lemma authn_fail x : authn (fail x) = false.
Proof. reflexivity. Qed.

Lemma authn_used1 r : authn (used1 r) = authn r.
Proof. reflexivity. Qed.

Lemma authn_add_out o r : authn (add_out o r) = authn r.
Proof. reflexivity. Qed.

Lemma authn_add_evs v r : authn (add_evs v r) = authn r.
Proof. reflexivity. Qed.

Lemma ev_results_app a b : ev_results (a ++ b) = ev_results a ++ ev_results b.
Proof. unfold ev_results. apply flat_map_app. Qed.

Lemma norm_err r : s_err (norm r) = s_err r.
Proof. unfold norm. destruct (s_err r) eqn:E; simpl; congruence. Qed.

Lemma completed_single r : step_ok r -> s_more r = false -> completed [r].
Proof. intros A B. exists [], r. repeat split; try constructor; assumption. Qed.

Lemma completed_cons r l : step_ok r -> s_more r = true -> completed l -> completed (r :: l).
Proof.
  intros A B [pre [s [E [F [G H]]]]]. exists (r :: pre), s. rewrite E.
  split; [reflexivity|]. split; [constructor; [split; assumption | exact F]|]. split; assumption.
Qed.

Lemma c_success_feedable {it} : c_success it -> c_feedable it.
Proof. intros [p [d [E D]]]. exists p, d. split; [right; exact E | exact D]. Qed.

Lemma do_step_shape e rl cr m k pk n ch :
  let '(r, evs, _) := do_step e rl cr m k pk n ch in
  ev_results evs = [r] /\ Forall (ev_on (m_name m)) evs.
Proof.
  unfold do_step.
  destruct (m_kind m); [|destruct rl; [|destruct n; [destruct (split0 [] ch) as [|a [|b [|c [|d l]]]]|]]];
    (split; [reflexivity | repeat constructor]).
Qed.

Lemma do_step_plain_server e cr m k pk n ch :
  let '(r, evs, _) := do_step e Server cr m k pk n ch in
  m_kind m = KPlain -> s_err r = MNone ->
  n = 0 /\ s_more r = false /\
  exists ident user pass, split0 [] ch = [ident; user; pass] /\ e_perm e pk = true /\
    evs = [EvPerm user pass ident true; EvStep (m_name m) ch r].
Proof.
  unfold do_step. destruct (m_kind m); [discriminate|].
  destruct n; [|discriminate].
  destruct (split0 [] ch) as [|a [|b [|c [|d l]]]]; try discriminate.
  destruct (e_perm e pk); [|discriminate].
  intros _ _. split; [reflexivity|]. split; [reflexivity|].
  exists a, b, c. repeat split; reflexivity.
Qed.

Lemma do_step_script {e rl cr m k pk n ch} :
  m_kind m = KScript -> s_err (e_oracle e k) = MNone ->
  do_step e rl cr m k pk n ch = (e_oracle e k, [EvStep (m_name m) ch (e_oracle e k)], pk).
Proof.
  intros K E. unfold do_step. rewrite K. unfold norm. rewrite E. reflexivity.
Qed.

Lemma tail_ok_single {name r evs} :
  ev_results evs = [r] /\ Forall (ev_on name) evs -> s_err r = MNone -> s_more r = false ->
  tail_ok name 1 evs.
Proof.
  intros [Hres Hon] E M.
  split; [exact Hon|]. rewrite Hres. split; [exact (completed_single r E M) | reflexivity].
Qed.

Lemma tail_ok_cons {name r evs cnt rest} :
  ev_results evs = [r] /\ Forall (ev_on name) evs -> s_err r = MNone -> s_more r = true ->
  tail_ok name cnt rest -> tail_ok name (S cnt) (evs ++ rest).
Proof.
  intros [Hres Hon] E M [Hon' [Hc Hlen]].
  split; [apply Forall_app; split; assumption|]. rewrite ev_results_app, Hres.
  split; [exact (completed_cons r _ E M Hc) | cbn [length app]; rewrite Hlen; reflexivity].
Qed.

Lemma select_mech_spec {mechs names m} :
  select_mech mechs names = Some m ->
  In m mechs /\ In (m_name m) names /\ m_name m <> [].
Proof.
  unfold select_mech. destruct (find _ mechs) as [m'|] eqn:F; [|discriminate].
  apply find_some in F. destruct F as [Hin Hex]. apply (existsb_eqb_In _ bytes_eqb_eq) in Hex.
  destruct (m_name m') eqn:N; [discriminate|].
  intro H. inversion H; subst. rewrite N.
  split; [exact Hin|]. split; [exact Hex | discriminate].
Qed.

Lemma find_first {A} {p : A -> bool} {l x} :
  find p l = Some x -> exists l1 l2, l = l1 ++ x :: l2 /\ forallb (fun y => negb (p y)) l1 = true.
Proof.
  induction l as [|a l IH]; simpl; [discriminate|].
  destruct (p a) eqn:P.
  - intro H. inversion H; subst. exists [], l. split; reflexivity.
  - intro H. destruct (IH H) as [l1 [l2 [E F]]]. exists (a :: l1), l2. split.
    + simpl. rewrite E. reflexivity.
    + simpl. rewrite P. exact F.
Qed.

Lemma parse_adv_spec adv name : In name (parse_adv adv) <-> In (true, name) adv.
Proof.
  unfold parse_adv. rewrite in_map_iff. split.
  - intros [[b n] [E H]]. simpl in E. subst. apply filter_In in H. destruct H as [H1 H2].
    simpl in H2. subst. exact H1.
  - intro H. exists (true, name). split; [reflexivity|]. apply filter_In. split; [exact H | reflexivity].
Qed.

Lemma lookup_mech_spec {mechs name m} :
  lookup_mech mechs name = Some m -> In m mechs /\ m_name m = name /\ name <> [].
Proof.
  unfold lookup_mech. destruct (find _ mechs) as [m'|] eqn:F; [|discriminate].
  apply find_some in F. destruct F as [Hin E]. apply bytes_eqb_eq in E.
  destruct (m_name m') eqn:N; [discriminate|].
  intro H. inversion H; subst. rewrite N. split; [exact Hin|]. split; [reflexivity | discriminate].
Qed.

Definition out_on (name : bytes) (o : out) : Prop :=
  match o with OAuth n _ => n = name | _ => True end.

(* nothing logged or written is about a mechanism other than [name] *)
Definition quiet (name : bytes) (r : res) : Prop :=
  Forall (ev_on name) (r_evs r) /\ Forall (out_on name) (r_out r).

Lemma quiet_nil name e u : quiet name (mkRes e [] [] u).
Proof. split; constructor. Qed.

Lemma quiet_used1 name r : quiet name r -> quiet name (used1 r).
Proof. exact (fun Q => Q). Qed.

Lemma quiet_evs name evs r : Forall (ev_on name) evs -> quiet name r -> quiet name (add_evs evs r).
Proof. intros H [Q1 Q2]. split; [apply Forall_app; split; assumption | exact Q2]. Qed.

Lemma quiet_out name o r : out_on name o -> quiet name r -> quiet name (add_out [o] r).
Proof. intros H [Q1 Q2]. split; [exact Q1 | constructor; assumption]. Qed.

Lemma client_final_quiet name script : quiet name (client_final script).
Proof.
  destruct script as [|it rest]; [apply quiet_nil|]. cbn [client_final].
  destruct it as [q|[q|]|[c|]| | |]; try apply quiet_nil.
  destruct (decode_client q); apply quiet_nil.
Qed.

Lemma client_final_authn {script} :
  authn (client_final script) = true ->
  exists last rest, script = last :: rest /\ c_success last /\ client_final script = mkRes None [] [] 1.
Proof.
  destruct script as [|it rest]; simpl; [discriminate|].
  destruct it as [q|[q|]|[c|]| | |]; simpl; try discriminate.
  unfold decode_client. destruct (p_dec q) as [d|] eqn:D; simpl; [|discriminate].
  intros _. exists (CSuccess (Some q)), rest.
  split; [reflexivity|]. split; [exists q, d; split; [reflexivity | exact D] | reflexivity].
Qed.

Lemma client_dispatch_feed {it success p d} :
  client_dispatch it = CFeed success p -> p_dec p = Some d ->
  c_feedable it /\ (success = true -> c_success it).
Proof.
  destruct it as [[q|]|[q|]|[c|]| | |]; simpl; try discriminate; intros H D; inversion H; subst.
  - split; [exists p, d; split; [left; reflexivity | exact D] | discriminate].
  - split; [|intros _]; exists p, d; split; try right; auto.
Qed.

(* what an authenticating run [t] read of [rest], [evs] being the Steps made before it *)
Inductive client_ran (name : bytes) (rest : list citem) (evs : list ev) (t : res) : Prop :=
| ClientRan pre last cnt
    (Hf : firstn (r_used t) rest = pre ++ [last]) (Hu : r_used t = S (length pre))
    (Hl : c_success last) (Hp : Forall c_feedable pre)
    (Ht : tail_ok name cnt (evs ++ r_evs t))
    (Hcnt : cnt = S (S (length pre)) \/ cnt = S (length pre)).

Arguments ClientRan {name rest evs t} & pre last cnt.

(* What follows a Step that did not fail (the loop if it asked for more, the
   final read if not), stated with that Step included, so that one induction
   covers the initial Step of negotiateClient and every turn of the loop. *)
Lemma client_rest_sound e cr m : forall rest k pk' n r evs,
  ev_results evs = [r] /\ Forall (ev_on (m_name m)) evs -> s_err r = MNone ->
  let t := if s_more r then client_loop true e cr m (S k) pk' (S n) rest else client_final rest in
  authn t = true -> client_ran (m_name m) rest evs t.
Proof.
  induction rest as [|it rest IH]; intros k pk' n r evs St Er t; subst t.
  { destruct (s_more r); simpl; discriminate. }
  destruct (s_more r) eqn:Hm.
  2:{ (* the mechanism has completed: the final read *)
    intro A. destruct (client_final_authn A) as [last [rest' [Es [Hlast Ef]]]].
    rewrite Ef. inversion Es; subst.
    refine (ClientRan [] last 1 eq_refl eq_refl Hlast (Forall_nil _) _ (or_intror eq_refl)).
    simp_res. rewrite app_nil_r. exact (tail_ok_single St Er Hm). }
  cbn [client_loop]. rewrite authn_used1.
  destruct (client_dispatch it) as [x | success p] eqn:Dp; [simpl; discriminate|].
  unfold decode_client. destruct (p_dec p) as [ch2|] eqn:Dec; [|simpl; discriminate].
  destruct (client_dispatch_feed Dp Dec) as [Feed Suc].
  pose proof (do_step_shape e Client cr m (S k) pk' (S n) ch2) as St2.
  destruct (do_step e Client cr m (S k) pk' (S n) ch2) as [[r2 evs2] pk2].
  rewrite authn_add_evs.
  destruct (s_err r2) eqn:Er2; try (simpl; discriminate).
  destruct (negb (s_more r2) && success) eqn:Brk.
  - (* break: more = false on a <success/> *)
    apply andb_true_iff in Brk. destruct Brk as [Hm2 Hs]. apply negb_true_iff in Hm2.
    intros _. refine (ClientRan [] it 2 eq_refl eq_refl (Suc Hs) (Forall_nil _) _ (or_introl eq_refl)).
    simp_res. rewrite app_nil_r. exact (tail_ok_cons St Er Hm (tail_ok_single St2 Er2 Hm2)).
  - (* what follows is what follows the Step just made *)
    rewrite authn_add_out. intro A.
    destruct (IH _ _ _ _ _ St2 Er2 A).
    refine (ClientRan (it :: pre) last (S cnt) _ _ Hl (Forall_cons _ Feed Hp) (tail_ok_cons St Er Hm Ht) _);
      simp_res; [rewrite Hf | rewrite Hu | destruct Hcnt as [-> | ->]; [left | right]]; reflexivity.
Qed.

Arguments client_rest_sound {e cr m rest k pk' n r evs}.

Lemma client_loop_quiet final e cr m : forall script k pk n,
  quiet (m_name m) (client_loop final e cr m k pk n script).
Proof.
  induction script as [|it rest IH]; intros k pk n; [apply quiet_nil|].
  cbn [client_loop]. apply quiet_used1.
  destruct (client_dispatch it) as [x | success p]; [apply quiet_nil|].
  destruct (decode_client p) as [ch|]; [|apply quiet_nil].
  pose proof (do_step_shape e Client cr m k pk n ch) as St.
  destruct (do_step e Client cr m k pk n ch) as [[r evs] pk'].
  apply quiet_evs; [exact (proj2 St)|].
  destruct (s_err r); try apply quiet_nil.
  destruct (negb (s_more r) && success); [apply quiet_nil|].
  apply quiet_out; [exact I|].
  destruct (s_more r); [apply IH|].
  destruct final; [apply client_final_quiet | apply quiet_nil].
Qed.

Lemma negotiate_client_quiet final e c script m :
  select_mech (c_mechs c) (parse_adv (c_adv c)) = Some m ->
  quiet (m_name m) (negotiate_client_gen final e c script).
Proof.
  intro Sel. unfold negotiate_client_gen. rewrite Sel.
  pose proof (do_step_shape e Client (c_creds c) m 0 0 0 []) as St.
  destruct (do_step e Client (c_creds c) m 0 0 0 []) as [[r evs] pk'].
  apply quiet_evs; [exact (proj2 St)|].
  destruct (s_err r); try apply quiet_nil.
  apply quiet_out; [reflexivity|].
  destruct (s_more r); [apply client_loop_quiet | apply client_final_quiet].
Qed.

Definition client_sound_statement : Prop := forall e c script,
  let r := negotiate_client e c script in
  authn r = true ->
  exists m pre last,
    (* the mechanism: the client's first preference among those the peer advertised *)
    select_mech (c_mechs c) (parse_adv (c_adv c)) = Some m /\
    (* what was read: feedable elements only, the last one a well-formed <success/> *)
    firstn (r_used r) script = pre ++ [last] /\ r_used r = S (length pre) /\
    c_success last /\ Forall c_feedable pre /\
    (* the mechanism ran to completion without error, on m only *)
    Forall (ev_on (m_name m)) (r_evs r) /\ completed (ev_results (r_evs r)) /\
    (* and it had completed when, or before, that <success/> was read: one initial
       Step plus one per element, except that a <success/> arriving after
       completion is not stepped *)
    (length (ev_results (r_evs r)) = S (S (length pre)) \/ length (ev_results (r_evs r)) = S (length pre)).

Lemma client_sound : client_sound_statement.
Proof.
  intros e c script r. subst r. unfold negotiate_client, negotiate_client_gen.
  destruct (select_mech _ _) as [m|] eqn:Sel; [|simpl; discriminate].
  pose proof (do_step_shape e Client (c_creds c) m 0 0 0 []) as St.
  destruct (do_step e Client (c_creds c) m 0 0 0 []) as [[r0 evs0] pk'].
  rewrite authn_add_evs. destruct (s_err r0) eqn:Er; try (simpl; discriminate).
  rewrite authn_add_out. intro A.
  destruct (client_rest_sound St Er A). destruct Ht as [Hon [Hc Hlen]].
  exists m, pre, last. simp_res. rewrite Hlen.
  split; [reflexivity|]. repeat (split; [assumption|]). exact Hcnt.
Qed.

(* every Step ever made, and the <auth/> written, name the selected mechanism —
   whatever the outcome *)
Definition client_offered_statement : Prop := forall e c script,
  let r := negotiate_client e c script in
  (forall name ch s, In (EvStep name ch s) (r_evs r) \/ (exists p, In (OAuth name p) (r_out r)) ->
     exists m, select_mech (c_mechs c) (parse_adv (c_adv c)) = Some m /\ name = m_name m /\
               In m (c_mechs c) /\ In (true, name) (c_adv c) /\ name <> []).

Lemma client_names_selected {e c script name} :
  let r := negotiate_client e c script in
  (exists ch s, In (EvStep name ch s) (r_evs r)) \/ (exists p, In (OAuth name p) (r_out r)) ->
  exists m, select_mech (c_mechs c) (parse_adv (c_adv c)) = Some m /\ m_name m = name /\
            In m (c_mechs c) /\ In (true, name) (c_adv c) /\ name <> [].
Proof.
  intros r Huse. subst r.
  destruct (select_mech (c_mechs c) (parse_adv (c_adv c))) as [m|] eqn:Sel.
  - destruct (negotiate_client_quiet true e c script m Sel) as [Qe Qo].
    rewrite Forall_forall in Qe, Qo.
    assert (E : name = m_name m).
    { destruct Huse as [[ch [s Hev]] | [p Hout]]; [exact (Qe _ Hev) | exact (Qo _ Hout)]. }
    destruct (select_mech_spec Sel) as [Hin [Hadv Hne]]. apply parse_adv_spec in Hadv.
    subst name. exists m. repeat split; assumption.
  - unfold negotiate_client, negotiate_client_gen in Huse. rewrite Sel in Huse.
    destruct Huse as [[ch [s []]] | [p []]].
Qed.

Definition is_success (o : out) : bool := match o with OSuccess _ => true | _ => false end.

(* the elements that reach a Step: an <auth/> naming a mechanism of the list, on a fresh
   Negotiator, or a <response/> to the mechanism selected before *)
Inductive steps_on (mechs : list mech) (sel : option (mech * nat)) : sitem -> mech -> nat -> pay -> Prop :=
| on_auth name p m (L : lookup_mech mechs name = Some m) : steps_on mechs sel (SAuth name (Some p)) m 0 p
| on_response p m n (Es : sel = Some (m, n)) : steps_on mechs sel (SResponse (Some p)) m n p.

Lemma server_dispatch_spec mechs sel it :
  match server_dispatch mechs sel it with
  | SFail o _ => existsb is_success o = false
  | SStep m n p => steps_on mechs sel it m n p
  end.
Proof.
  destruct it as [name [q|]|[q|]|[|]|[c|]|[|]| |]; simpl; try reflexivity.
  - destruct (lookup_mech mechs name) eqn:L; [exact (on_auth _ _ _ _ _ L) | reflexivity].
  - destruct sel as [[m n]|]; [exact (on_response _ _ _ _ _ eq_refl) | reflexivity].
Qed.

Lemma server_dispatch_feedable {mechs sel it m n p d} :
  steps_on mechs sel it m n p -> decode_server p = Some d -> s_feedable mechs it.
Proof.
  intros [name q m' L | q m' n' _] Dec.
  - right. exists name, q, d, m'. repeat split; assumption.
  - left. exists q, d. split; [reflexivity | exact Dec].
Qed.

(* PLAIN: the exchange is one Step, made of the callback's acceptance of
   exactly the credentials carried by the <auth/> *)
Definition plain_clause (m : mech) (p : pay) (resps : list sitem) (evs1 : list ev) : Prop :=
  m_kind m = KPlain ->
  resps = [] /\
  exists d ident user pass r,
    decode_server p = Some d /\ split0 [] d = [ident; user; pass] /\
    evs1 = [EvPerm user pass ident true; EvStep (m_name m) d r].

Definition success_written (r : res) : Prop :=
  exists outs resp, r_out r = outs ++ [OSuccess resp] /\ Forall (fun o => exists p, o = OChallenge p) outs.

Inductive auth_run (mechs : list mech) (items : list sitem) (evs : list ev) : Prop :=
| AuthRun pre name p resps m evs0 evs1
    (Hi : items = pre ++ SAuth name (Some p) :: resps)
    (Hp : Forall (s_feedable mechs) pre) (Hr : Forall s_response resps)
    (Hd : exists d, decode_server p = Some d) (Hl : lookup_mech mechs name = Some m)
    (He : evs = evs0 ++ evs1) (Ht : tail_ok name (S (length resps)) evs1)
    (Hpl : plain_clause m p resps evs1).

Arguments AuthRun {mechs items evs}.

Inductive resp_run (sel : option (mech * nat)) (items : list sitem) (evs : list ev) : Prop :=
| RespRun m' n' (Es : sel = Some (m', n')) (Hr : Forall s_response items) (Ht : tail_ok (m_name m') (length items) evs).

Lemma auth_run_cons {mechs it items evs' evs} :
  s_feedable mechs it -> auth_run mechs items evs -> auth_run mechs (it :: items) (evs' ++ evs).
Proof.
  intros F []. rewrite Hi, He, app_assoc.
  exact (AuthRun (it :: pre) _ _ _ _ _ _ eq_refl (Forall_cons _ F Hp) Hr Hd Hl eq_refl Ht Hpl).
Qed.

(* [it] reaches a Step on m and only responses follow it: the run from [it] on is
   one exchange on m, started by [it] if it is an <auth/>, by [sel] if not *)
Lemma run_from_here {mechs sel it m n p d resps evs} :
  steps_on mechs sel it m n p -> decode_server p = Some d ->
  Forall s_response resps -> tail_ok (m_name m) (S (length resps)) evs ->
  (n = 0 -> plain_clause m p resps evs) ->
  auth_run mechs (it :: resps) evs \/ resp_run sel (it :: resps) evs.
Proof.
  intros [name q m' L | q m' n' Esel] Dec Hr Ht Hpl.
  - left. destruct (lookup_mech_spec L) as [_ [Nm _]]. rewrite Nm in Ht.
    exact (AuthRun [] _ _ _ _ [] _ eq_refl (Forall_nil _) Hr (ex_intro _ d Dec) L eq_refl Ht (Hpl eq_refl)).
  - right. exact (RespRun _ _ _ m' n' Esel (Forall_cons _ (ex_intro _ q (ex_intro _ d (conj eq_refl Dec))) Hr) Ht).
Qed.

(* Which <auth/> counts is known only at the end of the script, so the induction
   carries both possibilities: an <auth/> of what was read starts the exchange
   that counts (auth_run), or only responses to the mechanism selected before
   were read (resp_run). *)
Lemma server_loop_sound e mechs : forall script sel k pk,
  let r := server_loop e mechs sel k pk script in
  authn r = true ->
  success_written r /\
  (auth_run mechs (firstn (r_used r) script) (r_evs r) \/ resp_run sel (firstn (r_used r) script) (r_evs r)).
Proof.
  induction script as [|it rest IH]; intros sel k pk r; subst r; [simpl; discriminate|].
  cbn [server_loop]. rewrite authn_used1. pose proof (server_dispatch_spec mechs sel it) as Dp.
  destruct (server_dispatch mechs sel it) as [o x | m n p]; [simpl; discriminate|].
  destruct (decode_server p) as [ch|] eqn:Dec; [|simpl; discriminate].
  pose proof (do_step_shape e Server (mkCreds [] [] []) m k pk n ch) as St.
  pose proof (do_step_plain_server e (mkCreds [] [] []) m k pk n ch) as Pl.
  destruct (do_step e Server (mkCreds [] [] []) m k pk n ch) as [[r evs] pk'].
  rewrite authn_add_evs.
  destruct (s_err r) eqn:Er; try (simpl; discriminate).
  destruct (s_more r) eqn:Hm.
  - (* s_more r = true: a <challenge/> is written *)
    rewrite authn_add_out. intro A.
    destruct (IH (Some (m, S n)) (S k) pk' A) as [[outs [resp [Eo Fo]]] Run]. simp_res.
    split.
    { exists (OChallenge (enc_payload (s_resp r)) :: outs), resp. simp_res. rewrite Eo.
      split; [reflexivity|]. constructor; [eexists; reflexivity | exact Fo]. }
    destruct Run as [Run | []].
    + (* a later <auth/> is the one that counts *)
      left. exact (auth_run_cons (server_dispatch_feedable Dp Dec) Run).
    + inversion Es; subst m' n'.
      apply (run_from_here Dp Dec Hr (tail_ok_cons St Er Hm Ht)).
      (* PLAIN does not ask for more ([s_err r] in Pl has become MNone by the destruct above) *)
      intros _ K. destruct (Pl K eq_refl) as [_ [F _]]. congruence.
  - (* s_more r = false: <success/> is written *)
    intros _. simp_res. rewrite app_nil_r.
    split; [exists [], (b64_encode (s_resp r)); split; [reflexivity | constructor]|].
    apply (run_from_here Dp Dec (Forall_nil _) (tail_ok_single St Er Hm)).
    intros _ K. split; [reflexivity|].
    destruct (Pl K eq_refl) as [_ [_ [i [u [pw [Sp [_ Ee]]]]]]].
    exists ch, i, u, pw, r. repeat split; assumption.
Qed.

Definition server_sound_statement : Prop := forall e mechs script,
  let r := negotiate_server e mechs script in
  authn r = true ->
  exists pre name p resps m evs0 evs1,
    (* what was read: feedable elements, then the <auth/> that counts, then only responses *)
    firstn (r_used r) script = pre ++ SAuth name (Some p) :: resps /\
    Forall (s_feedable mechs) pre /\ Forall s_response resps /\
    (exists d, decode_server p = Some d) /\
    (* its mechanism is the first of the server's own list with that (non-empty) name *)
    lookup_mech mechs name = Some m /\ In m mechs /\ m_name m = name /\ name <> [] /\
    (* since that <auth/>: one Step per element, all on that mechanism, none failed,
       only the last one reported completion *)
    r_evs r = evs0 ++ evs1 /\ tail_ok name (S (length resps)) evs1 /\
    (* PLAIN: the callback accepted the credentials of that <auth/> *)
    plain_clause m p resps evs1 /\
    (* and <success/> is the last element written, after challenges only *)
    success_written r.

Lemma server_sound : server_sound_statement.
Proof.
  intros e mechs script r A. subst r. unfold negotiate_server in *.
  destruct (server_loop_sound e mechs script None 0 0 A) as [Hs [Run | []]]; [|discriminate].
  destruct Run. destruct (lookup_mech_spec Hl) as [Hin [Nm Ne]].
  exists pre, name, p, resps, m, evs0, evs1. repeat (split; [assumption|]). exact Hs.
Qed.

(* every Step the receiving side ever makes — whatever the outcome — is on a
   mechanism of its own list, selected by name by an <auth/> of the script *)
Lemma server_loop_offered e mechs : forall script sel k pk name ch s,
  In (EvStep name ch s) (r_evs (server_loop e mechs sel k pk script)) ->
  (exists p m, In (SAuth name (Some p)) script /\ lookup_mech mechs name = Some m) \/
  (exists m n, sel = Some (m, n) /\ m_name m = name).
Proof.
  induction script as [|it rest IH]; intros sel k pk name ch s; [simpl; contradiction|].
  cbn [server_loop]. cbn [used1 r_evs]. pose proof (server_dispatch_spec mechs sel it) as Dp.
  destruct (server_dispatch mechs sel it) as [o x | m n p]; [simpl; contradiction|].
  destruct (decode_server p) as [c|] eqn:Dec; [|simpl; contradiction].
  pose proof (do_step_shape e Server (mkCreds [] [] []) m k pk n c) as St.
  destruct (do_step e Server (mkCreds [] [] []) m k pk n c) as [[r evs] pk'].
  cbn [add_evs r_evs]. intro H.
  (* a Step on m, made now or later with m still selected, or one that follows a later <auth/> *)
  assert (E : name = m_name m \/
              exists q m', In (SAuth name (Some q)) rest /\ lookup_mech mechs name = Some m').
  { apply in_app_or in H. destruct H as [H | H].
    - left. exact (proj1 (Forall_forall _ _) (proj2 St) _ H).
    - destruct (s_err r); try (simpl in H; contradiction).
      destruct (s_more r); [|simpl in H; contradiction].
      destruct (IH _ _ _ _ _ _ H) as [L | [m' [n' [Es Nm]]]]; [right; exact L | left; congruence]. }
  destruct E as [-> | [q [m' [Hin L]]]]; [|left; exists q, m'; split; [right; exact Hin | exact L]].
  destruct Dp as [nm q m' L | q m' n' Es].
  - left. exists q, m'. destruct (lookup_mech_spec L) as [_ [-> _]]. split; [left; reflexivity | exact L].
  - right. exists m', n'. split; [exact Es | reflexivity].
Qed.

Arguments server_loop_offered {e mechs script sel k pk name ch s}.

Definition server_offered_statement : Prop := forall e mechs script name ch s,
  In (EvStep name ch s) (r_evs (negotiate_server e mechs script)) ->
  exists p m, In (SAuth name (Some p)) script /\ lookup_mech mechs name = Some m /\
              In m mechs /\ m_name m = name /\ name <> [].

(* <success/> is written exactly when the function returns Authn *)
Lemma server_loop_success e mechs : forall script sel k pk,
  authn (server_loop e mechs sel k pk script) =
  existsb is_success (r_out (server_loop e mechs sel k pk script)).
Proof.
  induction script as [|it rest IH]; intros sel k pk; [reflexivity|].
  cbn [server_loop]. pose proof (server_dispatch_spec mechs sel it) as Dp.
  destruct (server_dispatch mechs sel it) as [o x | m n p].
  { (* a refusal writes at most a <failure/> *)
    simpl. rewrite app_nil_r. symmetry. exact Dp. }
  destruct (decode_server p) as [c|]; [|reflexivity].
  destruct (do_step e Server (mkCreds [] [] []) m k pk n c) as [[r evs] pk'].
  destruct (s_err r); [destruct (s_more r)|..]; try reflexivity.
  exact (IH _ _ _).
Qed.

Lemma server_success_iff e mechs script :
  let r := negotiate_server e mechs script in
  authn r = true <-> exists p, In (OSuccess p) (r_out r).
Proof.
  intro r. unfold r, negotiate_server. rewrite server_loop_success, existsb_exists. split.
  - intros [[] [Hin Hs]]; try discriminate. eexists. exact Hin.
  - intros [p Hin]. exists (OSuccess p). split; [exact Hin | reflexivity].
Qed.

(* contrapositive forms of the soundness statements: one rejected element
   anywhere in what the session read and it does not authenticate *)
Definition adversarial_closed_statement : Prop :=
  (* initiator: anything but decodable challenges/successes; or no <success/> last *)
  (forall e c script, let r := negotiate_client e c script in
     (exists it, In it (firstn (r_used r) script) /\ ~ c_feedable it) -> authn r = false) /\
  (forall e c script, let r := negotiate_client e c script in
     (forall it, nth_error script (pred (r_used r)) = Some it -> ~ c_success it) -> authn r = false) /\
  (* initiator: after the Step that completes the mechanism at most one more element is
     read, so a challenge after completion is rejected (it is not a <success/>) *)
  (forall e c script, let r := negotiate_client e c script in
     authn r = true -> length (ev_results (r_evs r)) >= r_used r) /\
  (* receiver: abort, failure, unknown elements, undecodable payloads, unknown or empty
     mechanism names, text, malformed input — anywhere *)
  (forall e mechs script, let r := negotiate_server e mechs script in
     (exists it, In it (firstn (r_used r) script) /\ ~ s_feedable mechs it) -> authn r = false) /\
  (* receiver: a response before any <auth/> *)
  (forall e mechs script, let r := negotiate_server e mechs script in
     (forall name p, hd_error script <> Some (SAuth name (Some p))) -> authn r = false) /\
  (* receiver: <success/> is on the wire exactly when it returns Authn *)
  (forall e mechs script, let r := negotiate_server e mechs script in
     authn r = true <-> exists p, In (OSuccess p) (r_out r)).

Lemma client_read_feedable e c script :
  let r := negotiate_client e c script in
  authn r = true -> Forall c_feedable (firstn (r_used r) script).
Proof.
  intros r A. destruct (client_sound e c script A) as [m [pre [last [_ [Hf [_ [Hl [Hp _]]]]]]]].
  fold r in Hf. rewrite Hf. apply Forall_app. split; [exact Hp|].
  constructor; [exact (c_success_feedable Hl) | constructor].
Qed.

Lemma client_read_last e c script :
  let r := negotiate_client e c script in
  authn r = true -> exists last, nth_error script (pred (r_used r)) = Some last /\ c_success last.
Proof.
  intros r A. destruct (client_sound e c script A) as [m [pre [last [_ [Hf [Hlen [Hl _]]]]]]].
  fold r in Hf, Hlen. exists last. split; [|exact Hl].
  rewrite <- (firstn_skipn (r_used r) script), Hf, Hlen, <- app_assoc.
  cbn [pred]. rewrite nth_error_app2, Nat.sub_diag by apply le_n. reflexivity.
Qed.

Lemma server_read_feedable e mechs script :
  let r := negotiate_server e mechs script in
  authn r = true -> Forall (s_feedable mechs) (firstn (r_used r) script).
Proof.
  intros r A.
  destruct (server_sound e mechs script A)
    as [pre [name [p [resps [m [evs0 [evs1 [Hf [Hp [Hr [[d Hd] [Hl _]]]]]]]]]]]].
  fold r in Hf. rewrite Hf. apply Forall_app. split; [exact Hp|]. constructor.
  - right. exists name, p, d, m. repeat split; assumption.
  - exact (Forall_impl _ (fun it H => or_introl H) Hr).
Qed.

Lemma server_first_auth {e mechs script} :
  authn (negotiate_server e mechs script) = true ->
  exists name p, hd_error script = Some (SAuth name (Some p)).
Proof.
  unfold negotiate_server. destruct script as [|it rest]; [simpl; discriminate|].
  cbn [server_loop]. rewrite authn_used1. pose proof (server_dispatch_spec mechs None it) as Dp.
  destruct (server_dispatch mechs None it) as [o x | m n p]; [simpl; discriminate|].
  destruct Dp as [name q m' _ | q m' n' E]; [|discriminate].
  intros _. exists name, q. reflexivity.
Qed.

(* sasl.go at the pinned commit: a mechanism that completes on a <challenge/>
   yields Authn although the peer never sent <success/>. *)
Definition pinned_env : env := env_of [mkSres true (str "a") MNone; mkSres false [] MNone] [].
Definition pinned_cfg : ccfg :=
  mkCcfg [mkMech (str "X-A") KScript] [(true, str "X-A")] (mkCreds [] (str "test") []).
Definition pinned_script : list citem := [CChallenge (Some (mkPay PText (Some (str "a"))))].

(* Every return statement of negotiateClient / negotiateServer either returns
   the constant Authn together with a nil error, or returns `mask` / `0`; and
   the local variable `mask` is never written. So the feature hands a non-zero
   mask to the negotiator only together with a nil error. *)
Definition ret_ok (r : bytes * bytes) : bool :=
  if bytes_eqb (fst r) (str "Authn") then bytes_eqb (snd r) (str "nil")
  else bytes_eqb (fst r) (str "mask") || bytes_eqb (fst r) (str "0").

Definition returns_authn (l : list (bytes * bytes)) : bool :=
  existsb (fun r => bytes_eqb (fst r) (str "Authn")) l.

Fixpoint cond_of (name : bytes) (l : list (bytes * nat)) : option nat :=
  match l with
  | [] => None
  | (n, v) :: r => if bytes_eqb n name then Some v else cond_of name r
  end.

Definition tables_statement : Prop :=
  (* the feature is offered on a secured, not yet authenticated stream only *)
  (sasl_necessary = str "Secure" /\ sasl_prohibited = str "Authn") /\
  (* a non-zero mask is returned only with a nil error *)
  (forallb ret_ok (sasl_negotiateClient_returns ++ sasl_negotiateServer_returns) = true /\
   sasl_negotiateClient_mask_writes = 0 /\ sasl_negotiateServer_mask_writes = 0 /\
   returns_authn sasl_negotiateClient_returns = true /\ returns_authn sasl_negotiateServer_returns = true) /\
  (* the element names the two dispatches know, all compared in the SASL namespace *)
  (sasl_negotiateServer_elements = [str "auth"; str "abort"; str "response"] /\
   sasl_decodeSASLChallenge_elements = [str "challenge"; str "success"; str "failure"] /\
   sasl_ns = str "urn:ietf:params:xml:ns:xmpp-sasl") /\
  (* the failure conditions the model writes are the code's *)
  (cond_of (str "ConditionAborted") sasl_conditions = Some cond_aborted /\
   cond_of (str "ConditionInvalidMechanism") sasl_conditions = Some cond_invalid_mechanism /\
   cond_of (str "ConditionMalformedRequest") sasl_conditions = Some cond_malformed_request /\
   cond_of (str "ConditionNotAuthorized") sasl_conditions = Some cond_not_authorized /\
   sasl_server_conditions = [str "ConditionInvalidMechanism"; str "ConditionAborted"; str "ConditionMalformedRequest";
                             str "ConditionMalformedRequest"; str "ConditionNotAuthorized"]) /\
  (* the receiver skips the base64 decoder for no character data and for "=" only *)
  (sasl_server_decode_subject = str "selection.Payload" /\
   sasl_server_decode_guard = str "len(p) > 0 && !(len(p) == 1 && p[0] == '=')").

Lemma tables : tables_statement.
Proof. unfold tables_statement. vm_compute. repeat split; reflexivity. Qed.

(* The soundness statements are not vacuous: for every length, a scripted
   mechanism that asks for more n times and then completes authenticates
   against a peer that plays along. *)

Definition decodable (p : pay) : Prop := exists d, p_dec p = Some d.

Definition plays_along (e : env) (k len : nat) : Prop :=
  (forall i, i < len -> s_err (e_oracle e (k + i)) = MNone /\ s_more (e_oracle e (k + i)) = true) /\
  s_err (e_oracle e (k + len)) = MNone /\ s_more (e_oracle e (k + len)) = false.

Lemma plays_along_0 {e k} : plays_along e k 0 ->
  s_err (e_oracle e k) = MNone /\ s_more (e_oracle e k) = false.
Proof. intros [_ H]. rewrite Nat.add_0_r in H. exact H. Qed.

Lemma plays_along_S {e k len} : plays_along e k (S len) ->
  s_err (e_oracle e k) = MNone /\ s_more (e_oracle e k) = true /\ plays_along e (S k) len.
Proof.
  intros [Hmore Hlast]. rewrite Nat.add_succ_r in Hlast.
  destruct (Hmore 0 (Nat.lt_0_succ len)) as [E M]. rewrite Nat.add_0_r in E, M.
  split; [exact E|]. split; [exact M|]. split; [|exact Hlast].
  intros i Hi. cbn [Nat.add]. rewrite <- Nat.add_succ_r. apply Hmore, le_n_S, Hi.
Qed.

Lemma client_loop_honest e cr m (K : m_kind m = KScript) p (Dp : decodable p) : forall chs k pk n,
  Forall decodable chs -> plays_along e k (length chs) ->
  authn (client_loop true e cr m k pk n (map (fun c => CChallenge (Some c)) chs ++ [CSuccess (Some p)])) = true.
Proof.
  induction chs as [|c chs IH]; intros k pk n Hd Ho.
  - destruct (plays_along_0 Ho) as [E M]. destruct Dp as [d Dd].
    cbn [map app client_loop client_dispatch]. unfold decode_client.
    rewrite Dd, (do_step_script K E), authn_used1, authn_add_evs, E, M. reflexivity.
  - destruct (plays_along_S Ho) as [E [M Ho']]. inversion Hd as [|? ? [d Dd] Hd']; subst.
    cbn [map app client_loop client_dispatch]. unfold decode_client.
    rewrite Dd, (do_step_script K E), authn_used1, authn_add_evs, E, M.
    cbn [negb andb]. rewrite authn_add_out. exact (IH _ _ _ Hd' Ho').
Qed.

Definition client_honest_statement : Prop := forall e c m chs p,
  select_mech (c_mechs c) (parse_adv (c_adv c)) = Some m -> m_kind m = KScript ->
  Forall decodable chs -> decodable p ->
  (forall i, i <= length chs -> s_err (e_oracle e i) = MNone /\ s_more (e_oracle e i) = true) ->
  s_err (e_oracle e (S (length chs))) = MNone -> s_more (e_oracle e (S (length chs))) = false ->
  authn (negotiate_client e c (map (fun x => CChallenge (Some x)) chs ++ [CSuccess (Some p)])) = true.

Definition s_decodable (p : pay) : Prop := exists d, decode_server p = Some d.

Lemma server_loop_honest e mechs m (K : m_kind m = KScript) : forall ps sel k pk n p0 it,
  Forall s_decodable ps -> plays_along e k (length ps) ->
  s_decodable p0 -> server_dispatch mechs sel it = SStep m n p0 ->
  authn (server_loop e mechs sel k pk (it :: map (fun x => SResponse (Some x)) ps)) = true.
Proof.
  induction ps as [|q ps IH]; intros sel k pk n p0 it Hd Ho [d0 D0] Hit.
  - destruct (plays_along_0 Ho) as [E M].
    cbn [map server_loop].
    rewrite Hit, D0, (do_step_script K E), authn_used1, authn_add_evs, E, M. reflexivity.
  - destruct (plays_along_S Ho) as [E [M Ho']]. inversion Hd as [|? ? Dq Hd']; subst.
    cbn [map server_loop].
    rewrite Hit, D0, (do_step_script K E), authn_used1, authn_add_evs, E, M, authn_add_out.
    apply (IH _ _ _ (S n) q _ Hd' Ho' Dq). reflexivity.
Qed.

Definition server_honest_statement : Prop := forall e mechs m name p0 ps,
  lookup_mech mechs name = Some m -> m_kind m = KScript ->
  s_decodable p0 -> Forall s_decodable ps ->
  (forall i, i < length ps -> s_err (e_oracle e i) = MNone /\ s_more (e_oracle e i) = true) ->
  s_err (e_oracle e (length ps)) = MNone -> s_more (e_oracle e (length ps)) = false ->
  authn (negotiate_server e mechs (SAuth name (Some p0) :: map (fun x => SResponse (Some x)) ps)) = true.
