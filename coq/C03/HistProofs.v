(* C03/HistProofs.v — connections that share one SASL feature value are
   independent of each other, for every history and every interleaving. *)
From XV Require Import lib.Bytes lib.ListAux gen.Sasl C03.Model C03.Proofs C03.Hist.
From XV Require lib.Heap.
From Coq Require Import Lia.

(* Hist.set_nth is lib/Heap's update of a list with its arguments in another
   order; what is known of that one is used through this equation *)
Lemma set_nth_flip {A} (x : A) : forall l n, set_nth n x l = Heap.set_nth l n x.
Proof. induction l as [|y l IH]; intros [|n]; simpl; [reflexivity..|f_equal; apply IH]. Qed.

Lemma nth_set_nth_inv {A} (v : option A) : forall l i k y,
  nth k (set_nth i v l) None = Some y -> (k = i /\ v = Some y) \/ (k <> i /\ nth k l None = Some y).
Proof.
  intros l i k y H. rewrite set_nth_flip in H. destruct (Nat.eq_dec k i) as [E|E].
  - subst k. destruct (Nat.lt_ge_cases i (length l)) as [L|L].
    + rewrite Heap.nth_set_nth_same in H by exact L. left. split; [reflexivity | exact H].
    + rewrite nth_overflow in H by (rewrite Heap.set_nth_length; exact L). discriminate.
  - right. split; [exact E|]. rewrite Heap.nth_set_nth_other in H by exact E. exact H.
Qed.

Lemma set_nth_app_r {A} (x : A) : forall l1 l2 n, length l1 <= n ->
  set_nth n x (l1 ++ l2) = l1 ++ set_nth (n - length l1) x l2.
Proof.
  induction l1 as [|y l1 IH]; intros l2 n H; simpl in *.
  - rewrite Nat.sub_0_r. reflexivity.
  - destruct n as [|n]; [lia|]. simpl. f_equal. apply IH. lia.
Qed.

Lemma parse_adv_map_true l : parse_adv (map (fun n => (true, n)) l) = l.
Proof. unfold parse_adv. induction l as [|x l IH]; simpl; [reflexivity | f_equal; exact IH]. Qed.

(* Go's invariant of a slice value: len <= cap = length of its backing array,
   which exists; it is what makes an append in place land inside the array *)
Definition wf (h : heap) (s : slice) : Prop :=
  match sl_arr s with
  | None => sl_len s = 0 /\ sl_cap s = 0
  | Some a => a < length h /\ length (nth a h []) = sl_cap s /\ sl_len s <= sl_cap s
  end.

(* what [sl_read_frame] needs of it; it is kept when arrays are added to the heap *)
Definition valid (h : heap) (s : slice) : Prop :=
  match sl_arr s with Some a => a < length h | None => True end.

Lemma wf_valid h s : wf h s -> valid h s.
Proof. unfold wf, valid. destruct (sl_arr s); tauto. Qed.

Lemma grow_cap_gt c : c < grow_cap c.
Proof. destruct c; simpl; lia. Qed.

Lemma sl_read_length h s : wf h s -> length (sl_read h s) = sl_len s.
Proof.
  unfold wf, sl_read, arr_of. destruct (sl_arr s) as [a|].
  - intros [_ [L1 L2]]. rewrite firstn_length. lia.
  - intros [L _]. rewrite L. reflexivity.
Qed.

(* The slice a call of Parse is filling, the call having found the heap h0: p is
   the heap and the slice so far. The arrays of h0 are still there, the slice is
   well-formed, reads l, and its backing array, if it has one, was allocated
   since. The nil slice starts one and append carries it on: this is why a call
   that decodes into its own struct writes only arrays it allocated itself. *)
Definition grows (h0 : heap) (p : heap * slice) (l : list bytes) : Prop :=
  (exists ext, fst p = h0 ++ ext) /\ wf (fst p) (snd p) /\
  (forall a, sl_arr (snd p) = Some a -> length h0 <= a) /\ sl_read (fst p) (snd p) = l.

Lemma grows_nil h : grows h (h, nil_slice) [].
Proof.
  split; [exists []; symmetry; apply app_nil_r|]. split; [split; reflexivity|].
  split; [discriminate | reflexivity].
Qed.

Lemma sl_append_grows h0 p l x : grows h0 p l -> grows h0 (sl_append (fst p) (snd p) x) (l ++ [x]).
Proof.
  destruct p as [h s]. unfold grows. cbn [fst snd]. intros [[ext ->] [W [O <-]]].
  pose proof (sl_read_length _ s W) as RL.
  assert (G : sl_len s = sl_cap s -> grows h0 (sl_grow (h0 ++ ext) s x) (sl_read (h0 ++ ext) s ++ [x])).
  { (* a new array of the grown capacity, behind all others *)
    intro E. pose proof (grow_cap_gt (sl_cap s)) as C. unfold grows. cbn [sl_grow fst snd].
    set (l := sl_read (h0 ++ ext) s) in *.
    split; [eexists; rewrite <- app_assoc; reflexivity|].
    unfold wf, sl_read, arr_of. cbn [sl_arr sl_len sl_cap].
    rewrite nth_middle, !app_length. cbn [length]. rewrite repeat_length, RL.
    split; [lia|]. split; [intros a Ha; inversion Ha; lia|].
    replace (S (sl_len s)) with (length l + 1) by lia. apply firstn_app_2. }
  unfold sl_append. unfold wf in W.
  destruct (sl_arr s) as [a|] eqn:A; [destruct (Nat.ltb_spec (sl_len s) (sl_cap s)) as [L|L]|];
    [|apply G; lia..].
  (* room left: the element is written in place, into an array allocated since h0 *)
  specialize (O a eq_refl). destruct W as [W1 [W2 W3]]. unfold grows. cbn [fst snd].
  split; [rewrite set_nth_app_r by exact O; eexists; reflexivity|].
  unfold wf, sl_read, arr_of. cbn [sl_arr sl_len sl_cap]. rewrite A, !set_nth_flip, Heap.set_nth_length.
  rewrite Heap.nth_set_nth_same by exact W1. rewrite Heap.set_nth_length.
  split; [lia|]. split; [intros a' Ha; inversion Ha; subst a'; exact O|].
  apply Heap.firstn_set_nth_at. lia.
Qed.

Lemma fold_append_grows h0 names : forall p l, grows h0 p l ->
  grows h0 (fold_left (fun hs x => sl_append (fst hs) (snd hs) x) names p) (l ++ names).
Proof.
  induction names as [|x names IH]; intros p l G; cbn [fold_left].
  - rewrite app_nil_r. exact G.
  - rewrite (app_assoc l [x] names : l ++ x :: names = _).
    exact (IH _ _ (sl_append_grows h0 p l x G)).
Qed.

(* Parse into a struct declared in the call: the result reads as the names
   found, and every array that existed before is left as it was. *)
Lemma parse_local_spec h names : grows h (parse_names h nil_slice names) names.
Proof. exact (fold_append_grows h names _ [] (grows_nil h)). Qed.

Lemma sl_read_frame h ext s : valid h s -> sl_read (h ++ ext) s = sl_read h s.
Proof.
  unfold valid, sl_read, arr_of. destruct (sl_arr s) as [a|]; [|reflexivity].
  intro L. rewrite app_nth1 by exact L. reflexivity.
Qed.

Definition data_ok (H : hist) (st : hstate) : Prop :=
  forall i d, nth i (st_data st) None = Some d ->
    valid (st_heap st) d /\
    exists adv user steps script,
      nth_error (h_sess H) i = Some (HClient adv user steps script) /\
      sl_read (st_heap st) d = parse_adv adv.

Definition res_ok (H : hist) (st : hstate) : Prop :=
  forall i r, nth i (st_res st) None = Some r ->
    exists s, nth_error (h_sess H) i = Some s /\ r = solo H s.

Lemma nth_map_none {A B} (l : list A) i : nth i (map (fun _ => @None B) l) None = None.
Proof. revert i. induction l; intros [|i]; simpl; auto. Qed.

Lemma client_on_solo H adv user steps script :
  client_on H user steps script (parse_adv adv) = solo H (HClient adv user steps script).
Proof.
  unfold client_on, solo, negotiate_client, negotiate_client_gen.
  cbn [c_mechs c_adv c_creds]. rewrite parse_adv_map_true. reflexivity.
Qed.

Lemma res_ok_set {H st i s hp bf dt} :
  res_ok H st -> nth_error (h_sess H) i = Some s ->
  res_ok H (mkHstate hp bf dt (set_nth i (Some (solo H s)) (st_res st))).
Proof.
  intros R S k r Hk. cbn [st_res] in Hk. apply nth_set_nth_inv in Hk.
  destruct Hk as [[Ek Er] | [_ Hk]]; [|exact (R k r Hk)].
  inversion Er; subst r. exists s. split; [congruence | reflexivity].
Qed.

(* Parse from a nil slice only adds arrays to the heap (parse_local_spec), so what
   the other connections hold still reads the same (sl_read_frame); Negotiate
   reads nothing but the connection's own slice. *)
Lemma hstep_local_inv H st op :
  data_ok H st /\ res_ok H st -> data_ok H (hstep PLocal H st op) /\ res_ok H (hstep PLocal H st op).
Proof.
  intros [D R]. destruct op as [i|i]; cbn [hstep].
  - (* HParse i *)
    destruct (nth_error (h_sess H) i) as [[adv user steps script|steps verdicts script]|] eqn:S;
      try (split; assumption).
    destruct (parse_local_spec (st_heap st) (parse_adv adv)) as [[ext E] [W [_ Rd]]].
    split; [|exact R].
    intros k d Hk. cbn [st_data st_heap] in *.
    apply nth_set_nth_inv in Hk. destruct Hk as [[Ek Ed] | [_ Hk]].
    + inversion Ed; subst d k. split; [exact (wf_valid _ _ W)|].
      exists adv, user, steps, script. split; [exact S | exact Rd].
    + destruct (D k d Hk) as [V [adv' [u' [s' [sc' [S' Rd']]]]]].
      rewrite E. split.
      * unfold valid in *. destruct (sl_arr d); [rewrite app_length; lia | exact I].
      * exists adv', u', s', sc'. split; [exact S'|]. rewrite sl_read_frame by exact V. exact Rd'.
  - (* HNeg i *)
    destruct (nth_error (h_sess H) i) as [[adv user steps script|steps verdicts script]|] eqn:S;
      try (split; assumption).
    + destruct (nth i (st_data st) None) as [d|] eqn:Dt; [|split; assumption].
      split; [exact D|].
      (* the data stored for i reads as i's own list *)
      destruct (D i d Dt) as [_ [adv' [u' [s' [sc' [S' Rd']]]]]].
      rewrite S in S'. inversion S'; subst adv' u' s' sc'.
      rewrite Rd', client_on_solo. exact (res_ok_set R S).
    + split; [exact D | exact (res_ok_set R S)].
Qed.

Lemma hinit_ok H : data_ok H (hinit H) /\ res_ok H (hinit H).
Proof.
  split; intros i x Hx; cbn [hinit st_data st_res] in Hx; rewrite nth_map_none in Hx; discriminate.
Qed.

Lemma hist_run_local_ok H ops :
  data_ok H (hist_run PLocal H ops) /\ res_ok H (hist_run PLocal H ops).
Proof.
  apply (fold_left_inv _ (fun st => data_ok H st /\ res_ok H st)); [intros st op; apply hstep_local_inv|apply hinit_ok].
Qed.

Definition feature_value_tables_statement : Prop :=
  (* the struct Parse decodes into is declared in the call of Parse *)
  src_target = PLocal /\
  (* newSASL has no variables besides its parameters, its three closures mention
     parameters only and never assign to, take the address of, re-slice or
     append to one of them *)
  (sasl_newSASL_locals = [] /\
   sasl_feature_closures = [str "List"; str "Parse"; str "Negotiate"] /\
   forallb (fun p => existsb (bytes_eqb (snd p)) sasl_newSASL_params) sasl_closure_captures = true /\
   sasl_closure_writes = []) /\
  (* no function of sasl.go assigns a package-level variable or writes through
     the mechanism list / feature data it is handed *)
  (sasl_package_var_writes = [] /\ sasl_param_writes = []) /\
  (* both base64 decodes return their error at once *)
  (map fst sasl_b64_decodes = [str "negotiateServer"; str "decodeSASLChallenge"] /\
   forallb (fun p => bytes_eqb (snd p) (str "checked")) sasl_b64_decodes = true).

Lemma feature_value_tables : feature_value_tables_statement.
Proof. unfold feature_value_tables_statement. vm_compute. repeat split; reflexivity. Qed.

Lemma src_target_local : src_target = PLocal.
Proof. exact (proj1 feature_value_tables). Qed.

Definition history_independent_statement : Prop := forall H ops i r,
  nth i (st_res (hist_run src_target H ops)) None = Some r ->
  exists s, nth_error (h_sess H) i = Some s /\ r = solo H s.

Lemma history_independent : history_independent_statement.
Proof.
  unfold history_independent_statement. rewrite src_target_local.
  exact (fun H ops => proj2 (hist_run_local_ok H ops)).
Qed.

Lemma history_solo {H ops i s r} :
  nth_error (h_sess H) i = Some s ->
  nth i (st_res (hist_run src_target H ops)) None = Some r -> r = solo H s.
Proof. intros S Hr. destruct (history_independent H ops i r Hr) as [s' [S' E]]. congruence. Qed.

(* What Parse returned for a connection keeps reading as that connection's own
   receiver's list at every later point of every history: results are
   independent of later operations on the shared feature value. *)
Definition history_data_stable_statement : Prop := forall H ops i d,
  nth i (st_data (hist_run src_target H ops)) None = Some d ->
  exists adv user steps script,
    nth_error (h_sess H) i = Some (HClient adv user steps script) /\
    sl_read (st_heap (hist_run src_target H ops)) d = parse_adv adv.

(* "a mechanism that this connection's receiver did not offer is never used":
   every Step made for connection i and the <auth/> it writes name a mechanism of
   the feature's list that connection i's own receiver advertised in the SASL
   namespace — whatever the other connections of the history were offered and
   wherever their Parse / Negotiate calls fall. *)
Definition history_no_unoffered_statement : Prop :=
  forall H ops i adv user steps script r name,
  nth_error (h_sess H) i = Some (HClient adv user steps script) ->
  nth i (st_res (hist_run src_target H ops)) None = Some r ->
  (exists ch s, In (EvStep name ch s) (r_evs r)) \/ (exists p, In (OAuth name p) (r_out r)) ->
  In (true, name) adv /\ name <> [] /\
  exists m, select_mech (h_mechs H) (parse_adv adv) = Some m /\ m_name m = name /\ In m (h_mechs H).

(* Authn for a connection of a history: the soundness clauses of the
   single-connection theorems, about this connection's own list / script. *)
Definition history_authn_sound_statement : Prop := forall H ops i s r,
  nth_error (h_sess H) i = Some s ->
  nth i (st_res (hist_run src_target H ops)) None = Some r -> authn r = true ->
  match s with
  | HClient adv user steps script =>
      exists m pre last,
        select_mech (h_mechs H) (parse_adv adv) = Some m /\ In (true, m_name m) adv /\
        firstn (r_used r) script = pre ++ [last] /\ r_used r = S (length pre) /\
        c_success last /\ Forall c_feedable pre /\
        Forall (ev_on (m_name m)) (r_evs r) /\ completed (ev_results (r_evs r))
  | HServer steps verdicts script =>
      exists pre name p resps m evs0 evs1,
        firstn (r_used r) script = pre ++ SAuth name (Some p) :: resps /\
        Forall (s_feedable (h_mechs H)) pre /\ Forall s_response resps /\
        lookup_mech (h_mechs H) name = Some m /\ In m (h_mechs H) /\
        r_evs r = evs0 ++ evs1 /\ tail_ok name (S (length resps)) evs1 /\
        plain_clause m p resps evs1 /\ success_written r
  end.

(* newSASL with the decode target hoisted into the feature value: connection 0
   is offered SCRAM-SHA-256 only, connection 1 (same feature value) PLAIN; the
   second Parse overwrites the array the first one returned, and connection 0
   sends <auth mechanism='PLAIN'> with the password and is authenticated by a
   <success/>. *)
Definition shared_hist : hist :=
  mkHist [mkMech (str "PLAIN") KPlain] [] (str "secret")
    [HClient [(true, str "SCRAM-SHA-256")] (str "a") [] [CSuccess (Some (mkPay PNone (Some [])))];
     HClient [(true, str "PLAIN")] (str "b") [] [CSuccess (Some (mkPay PNone (Some [])))]].

Definition shared_ops : list hop := [HParse 0; HParse 1; HNeg 0].

Definition shared_buffer_refuted_statement : Prop :=
  exists r p,
    nth 0 (st_res (hist_run PCaptured shared_hist shared_ops)) None = Some r /\
    authn r = true /\ In (OAuth (str "PLAIN") p) (r_out r) /\
    ~ In (true, str "PLAIN") [(true, str "SCRAM-SHA-256")] /\
    (* the same history with the decode target local to the call: no mechanism in common *)
    nth 0 (st_res (hist_run PLocal shared_hist shared_ops)) None = Some (fail ENoMech).
