(* C02/Phase.v — an automaton over the trace ([astep]) says what may happen when
   in a C02 run: in clear text one stream header, then one STARTTLS request,
   the initial state bits, no Negotiate but STARTTLS's; then the layer switch;
   then the handshake before anything else.  [coupled] says which machine
   states go with which of its phases; that the trace is accepted in a phase
   the state goes with ([at_phase]) is what is kept: at the head of
   negotiateSession's loop ([linv]), and at the control points of a call
   ([pinv]: one that starts in clear text, or one on a TLS layer), for every
   configuration admitted by [c02_config] and every input. *)
From XV Require Import lib.Bytes gen.NegTables C02.Model C02.Call C02.Frame.

(* equations between N.lor/N.land/N.ldiff terms, bit by bit from the equations in the context *)
Ltac bitwise :=
  let bi := fresh "bi" in
  apply N.bits_inj; intro bi;
  repeat match goal with
         | H : @eq N _ _ |- _ => apply (f_equal (fun z => N.testbit z bi)) in H; cbn beta in H
         end;
  repeat (rewrite ?N.lor_spec, ?N.land_spec, ?N.ldiff_spec, ?N.bits_0 in * );
  repeat match goal with
         | |- context[N.testbit ?x bi] => destruct (N.testbit x bi)
         | H : context[N.testbit ?x bi] |- _ => destruct (N.testbit x bi)
         end; cbn in *; congruence.

Lemma has_true st m : has st m = true <-> N.land st m = m.
Proof. unfold has. apply N.eqb_eq. Qed.

Lemma has_lor st x m : has st m = true -> has (N.lor st x) m = true.
Proof. rewrite !has_true. intro H. bitwise. Qed.

Lemma has_lor_r st m : has (N.lor st m) m = true.
Proof. rewrite has_true. bitwise. Qed.

Lemma land_sub a b c : N.land a b = 0%N -> N.land c b = c -> N.land a c = 0%N.
Proof. intros H1 H2. bitwise. Qed.

Lemma has_disjoint st m : N.land st m = 0%N -> m <> 0%N -> has st m = false.
Proof. intros Hz Hm. unfold has. rewrite Hz. apply N.eqb_neq. congruence. Qed.

Lemma has_ldiff_other st x m : N.land m x = 0%N -> has st m = true -> has (N.ldiff st x) m = true.
Proof. rewrite !has_true. intros H1 H2. bitwise. Qed.

Lemma lor_0_r_ x : N.lor x 0 = x.
Proof. apply N.lor_0_r. Qed.

(* the tables of session.go / starttls.go as the proofs use them *)
Lemma tbl_ready_nz : st_Ready <> 0%N.
Proof. discriminate. Qed.
Lemma tbl_secure_ready : N.land st_Secure st_Ready = 0%N.
Proof. reflexivity. Qed.
Lemma tbl_starttls_proh : ft_starttls_proh = st_Secure.
Proof. reflexivity. Qed.
Lemma tbl_starttls_nec : ft_starttls_nec = 0%N.
Proof. reflexivity. Qed.
Lemma tbl_secure_minus_ready : N.ldiff st_Secure st_Ready = st_Secure.
Proof. reflexivity. Qed.

Section Bits.
  Variable b0 : N.
  Hypothesis Hb0 : c02_bits b0 = true.

  Lemma b0_mask : N.land b0 (N.lor gate (N.lor st_Ready st_Received)) = 0%N.
  Proof. unfold c02_bits in Hb0. apply N.eqb_eq. exact Hb0. Qed.

  (* Ready, Secure and the gate lie inside the mask, by the tables *)
  Lemma b0_ready_z : N.land b0 st_Ready = 0%N.
  Proof. exact (land_sub _ _ _ b0_mask eq_refl). Qed.

  Lemma b0_secure_z : N.land b0 st_Secure = 0%N.
  Proof. exact (land_sub _ _ _ b0_mask eq_refl). Qed.

  Lemma b0_gate : N.land b0 gate = 0%N.
  Proof. exact (land_sub _ _ _ b0_mask eq_refl). Qed.

  Lemma b0_ready : has b0 st_Ready = false.
  Proof. exact (has_disjoint _ _ b0_ready_z tbl_ready_nz). Qed.

  Lemma b0_secure : has b0 st_Secure = false.
  Proof. apply has_disjoint; [exact b0_secure_z|discriminate]. Qed.

  Lemma b0s_ready : has (N.lor b0 st_Secure) st_Ready = false.
  Proof.
    apply has_disjoint; [|exact tbl_ready_nz].
    pose proof b0_ready_z as H1. pose proof tbl_secure_ready as H2. bitwise.
  Qed.

  Lemma b0_not_eligible f : N.land (f_nec f) gate <> 0%N -> eligible f b0 = false.
  Proof.
    intro Hn. unfold eligible. destruct (has b0 (f_nec f)) eqn:E; [|reflexivity]. exfalso. apply Hn.
    apply has_true in E. pose proof b0_gate as Hg. bitwise.
  Qed.
End Bits.

Lemma secure_not_eligible f st :
  f_proh f = ft_starttls_proh -> has st st_Secure = true -> eligible f st = false.
Proof.
  intros Hp Hs. unfold eligible, disj. rewrite Hp, tbl_starttls_proh.
  apply has_true in Hs. rewrite Hs. cbn. apply Bool.andb_false_r.
Qed.

Definition is_tls_kind (f : feature) : bool :=
  match f_kind f with KStartTLS => true | KAbstract => false end.

Lemma kind_of_tls f : is_tls_kind f = true -> f_kind f = KStartTLS.
Proof. unfold is_tls_kind. destruct (f_kind f); [discriminate|reflexivity]. Qed.

Lemma gated_cases f : gated f = true ->
  (is_tls_kind f = true /\ f_neg f = true /\ f_proh f = ft_starttls_proh /\ f_nec f = ft_starttls_nec
   /\ f_space f = ns_StartTLS) \/
  (is_tls_kind f = false /\ N.land (f_nec f) gate <> 0%N /\ f_space f <> ns_StartTLS).
Proof.
  unfold gated, is_tls_kind. destruct (bytes_eqb (f_space f) ns_StartTLS) eqn:Es.
  - intro H. left. apply bytes_eqb_eq in Es.
    destruct (f_kind f); repeat (apply andb_prop in H; destruct H as [H ?]); try discriminate.
    repeat split; auto; apply N.eqb_eq; assumption.
  - intro H. right. apply andb_prop in H. destruct H as [Hn Hk].
    destruct (f_kind f); try discriminate. repeat split.
    + apply Bool.negb_true_iff in Hn. apply N.eqb_neq. exact Hn.
    + intro He. rewrite He, bytes_eqb_refl in Es. discriminate.
Qed.

Lemma get_feature_in n fs f : get_feature n fs = Some f -> In f fs.
Proof.
  induction fs as [|g fs IH]; cbn; [discriminate|].
  destruct (name_eqb (fname g) n); intro H; [inversion H; auto|auto].
Qed.

Lemma find_space_in s fs f : find_space s fs = Some f -> In f fs /\ f_space f = s.
Proof.
  induction fs as [|g fs IH]; cbn; [discriminate|].
  destruct (bytes_eqb (f_space g) s) eqn:E; intro H.
  - inversion H; subst. split; [auto|]. apply bytes_eqb_eq. exact E.
  - destruct (IH H). auto.
Qed.

Lemma cache_get_in s ca e : cache_get s ca = Some e -> In e ca /\ ckey e = s.
Proof.
  induction ca as [|x ca IH]; cbn [cache_get]; [discriminate|].
  destruct (bytes_eqb (ckey x) s) eqn:E; intro H.
  - inversion H; subst. split; [left; reflexivity|]. apply bytes_eqb_eq. exact E.
  - destruct (IH H). split; [right|]; assumption.
Qed.

Section Config.
  Variable c : config.
  Hypothesis Hc : c02_config c = true.
  Variable b0 : N.
  Hypothesis Hb0 : c02_bits b0 = true.

  Lemma cfg_gated f : In f (c_feats c) -> gated f = true.
  Proof.
    unfold c02_config in Hc. apply andb_prop in Hc. destruct Hc as [Hf _].
    rewrite forallb_forall in Hf. apply Hf.
  Qed.

  Lemma cfg_has_tls : exists f, find_space ns_StartTLS (c_feats c) = Some f.
  Proof.
    unfold c02_config in Hc. apply andb_prop in Hc. destruct Hc as [_ Hs].
    destruct (find_space ns_StartTLS (c_feats c)) as [f|]; [eauto|discriminate].
  Qed.

  (* P0 nothing written yet; P1 stream header written; P2 STARTTLS request
     written; P3 TLS layer installed, handshake pending; P4 handshake done;
     P5 handshake failed *)
  Inductive phase := P0 | P1 | P2 | P3 | P4 | P5.

  Definition astep (p : phase) (e : event) : option phase :=
    match e with
    | EOut w =>
        match p with
        | P0 => match w with WHeader => Some P1 | _ => None end
        | P1 => if witem_eqb w starttls_request then Some P2 else None
        | P4 => Some P4
        | _ => None
        end
    | EIn _ st _ =>
        match p with
        | P0 | P1 | P2 => if N.eqb st b0 then Some p else None
        | _ => Some p
        end
    | EEof _ => Some p
    | EParse _ => Some p
    | ENeg f st _ =>
        match p with
        | P2 | P3 => if N.eqb st b0 && is_tls_kind f then Some p else None
        | P4 => Some P4
        | _ => None
        end
    | ESwitch _ => match p with P2 => Some P3 | _ => None end
    | EHandshake ok => match p with P3 => Some (if ok then P4 else P5) | _ => None end
    end.

  Definition astep' (s : option phase) (e : event) : option phase :=
    match s with Some p => astep p e | None => None end.

  Definition aut (tr : list event) : option phase := fold_left astep' tr (Some P0).

  Lemma aut_snoc tr e : aut (tr ++ [e]) = astep' (aut tr) e.
  Proof. unfold aut. rewrite fold_left_app. reflexivity. Qed.

  Lemma aut_emit e m : aut (m_tr (emit e m)) = astep' (aut (m_tr m)) e.
  Proof. cbn [m_tr emit]. apply aut_snoc. Qed.

  (* of a trace accepted in phase p: whether the layer was switched, what was
     written in clear text, the handshakes that ran *)
  Definition sw (p : phase) : bool := match p with P3 | P4 | P5 => true | _ => false end.
  Definition couts (p : phase) : list witem :=
    match p with P0 => [] | P1 => [WHeader] | _ => [WHeader; starttls_request] end.
  Definition hsk (p : phase) : list bool :=
    match p with P4 => [true] | P5 => [false] | _ => [] end.

  Definition facts (p : phase) (tr : list event) : Prop :=
    switched tr = sw p /\
    outs_of (before_switch tr) = couts p /\
    handshakes tr = hsk p /\
    Forall (fun st => st = b0) (bits_seen (before_switch tr)) /\
    Forall (fun f => is_tls_kind f = true) (negs_of (before_switch tr)) /\
    length (server_names tr) = (if sw p then 1 else 0).

  Lemma couts_allowed p :
    prefix_of witem_eqb (couts p) [WHeader; starttls_request] = true /\
    Forall (fun w => clear_allowed w = true) (couts p).
  Proof. destruct p; (split; [vm_compute; reflexivity|]); repeat (constructor; [vm_compute; reflexivity|]); constructor. Qed.

  Lemma witem_eqb_eq a b : witem_eqb a b = true -> a = b.
  Proof.
    destruct a, b; cbn; try discriminate; auto.
    intro H. apply andb_prop in H. destruct H as [H1 H2].
    apply bytes_eqb_eq in H1. apply bytes_eqb_eq in H2. subst. reflexivity.
  Qed.

  Lemma bits_seen_app a b : bits_seen (a ++ b) = bits_seen a ++ bits_seen b.
  Proof. unfold bits_seen. apply flat_map_app. Qed.
  Lemma negs_of_app a b : negs_of (a ++ b) = negs_of a ++ negs_of b.
  Proof. unfold negs_of. apply flat_map_app. Qed.

  (* what an accepted event adds to each projection; a finite check, phase by event *)
  Lemma astep_adds p e p' : astep p e = Some p' ->
    sw p' = sw p || is_switch e /\
    hsk p' = hsk p ++ handshakes [e] /\
    (if sw p' then 1 else 0) = (if sw p then 1 else 0) + length (server_names [e]) /\
    (sw p = true -> couts p' = couts p) /\
    (sw p = false ->
     couts p' = couts p ++ outs_of (before_switch [e]) /\
     Forall (fun st => st = b0) (bits_seen (before_switch [e])) /\
     Forall (fun f => is_tls_kind f = true) (negs_of (before_switch [e]))).
  Proof.
    destruct p, e as [rp st it|rp|w|f|f st o|n|ok]; cbn [astep]; intro Hs; try discriminate;
      try (destruct (N.eqb st b0) eqn:Est; [apply N.eqb_eq in Est|discriminate]; cbn [andb] in Hs);
      try (destruct (is_tls_kind f) eqn:Ek; [|discriminate]);
      try (destruct w as [|sp lo]; [cbn in Hs|]; try discriminate);
      try (destruct (witem_eqb (WElem sp lo) starttls_request) eqn:Ew; [apply witem_eqb_eq in Ew; rewrite Ew|discriminate]);
      try destruct ok;
      injection Hs as <-; cbn; repeat split; try discriminate; repeat constructor; assumption.
  Qed.

  Lemma facts_snoc p tr e p' : facts p tr -> astep p e = Some p' -> facts p' (tr ++ [e]).
  Proof.
    intros (Hsw & Ho & Hh & Hb & Hn & Hc1) Hs.
    destruct (astep_adds _ _ _ Hs) as (Esw & Ehs & Esn & Eafter & Ebefore). unfold facts.
    rewrite switched_app, before_switch_app, handshakes_app, server_names_app, app_length, Hsw, Hh, Hc1.
    cbn [switched existsb]. rewrite Bool.orb_false_r, <- Esw, <- Ehs, <- Esn.
    split; [reflexivity|]. destruct (sw p) eqn:Ep.
    - (* after the switch nothing is added to what precedes it *)
      rewrite (Eafter eq_refl). auto.
    - destruct (Ebefore eq_refl) as (Eo & Eb & En).
      rewrite before_switch_id in Ho, Hb, Hn by congruence.
      rewrite outs_of_app, bits_seen_app, negs_of_app, Ho, <- Eo.
      repeat split; auto; apply Forall_app; auto.
  Qed.

  Lemma aut_facts : forall tr p, aut tr = Some p -> facts p tr.
  Proof.
    induction tr as [|e tr IH] using rev_ind; intros p H.
    - cbn in H. inversion H; subst. unfold facts; cbn. repeat split; constructor.
    - rewrite aut_snoc in H. destruct (aut tr) as [q|]; [|discriminate].
      eapply facts_snoc; [apply IH; reflexivity|exact H].
  Qed.

  Definition cache_cfg (ca : cache) : Prop := Forall (fun e => In (snd e) (c_feats c)) ca.

  Lemma cache_remove_forall (P : centry -> Prop) s ca : Forall P ca -> Forall P (cache_remove s ca).
  Proof.
    induction 1 as [|e ca He Hca IH]; cbn; [constructor|].
    destruct (bytes_eqb (ckey e) s); [exact IH|constructor; assumption].
  Qed.

  Lemma cache_step_cfg st f req ca : In f (c_feats c) -> cache_cfg ca -> cache_cfg (cache_step st f req ca).
  Proof.
    intros Hin Hca. unfold cache_step, cache_put, cache_cfg. apply Forall_app.
    split; [apply cache_remove_forall; exact Hca|]. constructor; [exact Hin|constructor].
  Qed.

  Lemma cache_step_nonempty st f req ca : cache_step st f req ca <> [].
  Proof. unfold cache_step, cache_put. intro H. apply app_eq_nil in H. destruct H; discriminate. Qed.

  Lemma candidate_in m e : In e (candidates m) -> cache_cfg (m_cache m) ->
    In (snd e) (c_feats c) /\ eligible (snd e) (m_bits m) = true.
  Proof.
    intros Hin Hca. apply filter_In in Hin. destruct Hin as (Hin & Hcand).
    unfold cache_cfg in Hca. rewrite Forall_forall in Hca. split; [exact (Hca _ Hin)|].
    unfold cand in Hcand. apply andb_prop in Hcand. exact (proj2 Hcand).
  Qed.

  Definition coupled (p : phase) (m : mstate) : Prop :=
    match p with
    | P0 | P1 => m_bits m = b0 /\ m_tls m = false /\ m_negd m = []
    | P2 => m_bits m = b0 /\ m_tls m = false
    | P3 => m_bits m = N.lor b0 st_Secure /\ m_tls m = true /\ m_hs m = true
    | P4 => has (m_bits m) st_Secure = true /\ m_tls m = true /\ m_hs m = false /\ c_hs_ok c = true
    | P5 => True
    end.

  Definition at_phase (p : phase) (m : mstate) : Prop := aut (m_tr m) = Some p /\ coupled p m.

  (* All that is said of a call or a run that fails: which phase it is need not
     be, since [aut_facts] reads the rest off the phase. *)
  Definition good (m : mstate) : Prop := exists p, at_phase p m.

  Lemma at_emit p e m : astep p e = Some p -> at_phase p m -> at_phase p (emit e m).
  Proof. intros He (Ha & Hm). split; [rewrite aut_emit, Ha; exact He|destruct p; exact Hm]. Qed.

  Lemma at_read p rp m m' r : read rp m = (m', r) -> at_phase p m -> at_phase p m'.
  Proof.
    intros H Hi. destruct (read_inv _ _ _ _ H) as [(_ & ->)|(it & rest & _ & _ & ->)]; [apply at_emit; [reflexivity|exact Hi]|].
    destruct Hi as (Ha & Hm). split; [|destruct p; exact Hm]. rewrite aut_emit. cbn [m_tr set_in]. rewrite Ha.
    destruct p; try reflexivity; cbn; rewrite (proj1 Hm), N.eqb_refl; reflexivity.
  Qed.

  Lemma clear_eligible_is_tls f :
    In f (c_feats c) -> eligible f b0 = true -> is_tls_kind f = true.
  Proof.
    intros Hin He. destruct (gated_cases f (cfg_gated f Hin)) as [(Hk & _)|(_ & Hnec & _)]; [exact Hk|].
    rewrite (b0_not_eligible b0 Hb0 f Hnec) in He. discriminate.
  Qed.

  Lemma tls_feature_eligible f :
    In f (c_feats c) -> f_space f = ns_StartTLS -> is_tls_kind f = true /\ f_neg f = true /\ eligible f b0 = true.
  Proof.
    intros Hin Hsp. destruct (gated_cases f (cfg_gated f Hin)) as [(Hk & Hn & Hp & Hnec & _)|(_ & _ & Hns)]; [|contradiction].
    split; [exact Hk|]. split; [exact Hn|].
    unfold eligible, has, disj. rewrite Hnec, Hp, tbl_starttls_nec, tbl_starttls_proh, N.land_0_r. cbn [N.eqb andb].
    apply N.eqb_eq. exact (b0_secure_z b0 Hb0).
  Qed.

  (* The forced-STARTTLS rule at the initial bits: what it forces is the
     configured STARTTLS feature; on a first list it forces it unless the list
     offers STARTTLS; and an offered STARTTLS is a candidate as long as nothing
     is negotiated.  So the selection loop cannot end in clear text with
     nothing left to do. *)
  Lemma forced_tls m first f : forced_of c m first = Some f -> is_tls_kind f = true.
  Proof.
    unfold forced_of. destruct (_ && _ && _); [|discriminate].
    destruct (find_space ns_StartTLS (c_feats c)) as [g|] eqn:Eg; [|discriminate].
    destruct (f_neg g && _); intro Ef; inversion Ef; subst g.
    destruct (find_space_in _ _ _ Eg) as (Hin & Hsp). exact (proj1 (tls_feature_eligible f Hin Hsp)).
  Qed.

  Lemma unforced_offered m : m_bits m = b0 -> forced_of c m true = None ->
    exists e, cache_get ns_StartTLS (m_cache m) = Some e.
  Proof.
    intros Hb Ef. unfold forced_of in Ef. rewrite Hb, (b0_secure b0 Hb0) in Ef.
    destruct (cache_get ns_StartTLS (m_cache m)) as [e|]; [eauto|]. cbn [andb negb] in Ef.
    destruct cfg_has_tls as (g & Eg). rewrite Eg in Ef. destruct (find_space_in _ _ _ Eg) as (Hin & Hsp).
    destruct (tls_feature_eligible g Hin Hsp) as (_ & Hn & Hel). rewrite Hn, Hel in Ef. discriminate.
  Qed.

  Lemma offered_candidate m e : cache_cfg (m_cache m) -> m_bits m = b0 -> m_negd m = [] ->
    cache_get ns_StartTLS (m_cache m) = Some e -> In e (candidates m).
  Proof.
    intros Hca Hb Hnegd Hadv. destruct (cache_get_in _ _ _ Hadv) as (Hin & Hk).
    unfold cache_cfg in Hca. rewrite Forall_forall in Hca.
    destruct (tls_feature_eligible _ (Hca _ Hin) Hk) as (_ & Hneg & Hel).
    apply filter_In. split; [exact Hin|]. unfold cand. rewrite Hnegd, Hb, Hneg, Hel. reflexivity.
  Qed.

  Lemma is_proceed_some r : is_proceed r = true -> exists it, r = Some it.
  Proof. destruct r; [eauto|discriminate]. Qed.

  Lemma at_lor m x : at_phase P4 m -> at_phase P4 (set_bits (N.lor (m_bits m) x) m).
  Proof. intros (Ha & Hs & Hi). split; [exact Ha|]. split; [apply has_lor; exact Hs|exact Hi]. Qed.

  Lemma noted_tls f o m : at_phase P4 m -> at_phase P4 (noted f o m).
  Proof. intro H. unfold noted. destruct (o_err o); [exact H|]. exact (at_lor m _ H). Qed.

  (* Secure is set: STARTTLS is neither forced nor a candidate *)
  Lemma secure_not_forced m first : has (m_bits m) st_Secure = true -> forced_of c m first = None.
  Proof. intro Hs. unfold forced_of. rewrite Hs. cbn [negb]. rewrite Bool.andb_false_r. reflexivity. Qed.

  Lemma candidate_abstract m e :
    at_phase P4 m -> cache_cfg (m_cache m) -> In e (candidates m) -> f_kind (snd e) = KAbstract.
  Proof.
    intros (_ & Hs & _) Hca Hin. destruct (candidate_in _ _ Hin Hca) as (Hf & Hel).
    destruct (gated_cases _ (cfg_gated _ Hf)) as [(_ & _ & Hp & _)|(Hk & _)].
    - rewrite (secure_not_eligible _ _ Hp Hs) in Hel. discriminate.
    - unfold is_tls_kind in Hk. destruct (f_kind (snd e)); [reflexivity|discriminate].
  Qed.

  (* the phase in which the body of the stream is read *)
  Definition body (tls : bool) : phase := if tls then P4 else P1.

  (* A call, point by point.  In clear text ([tls = false]; it is the first call): the
     header goes out (P1); whatever is read leaves things as they are; the list
     offers STARTTLS or STARTTLS is forced; what is picked is STARTTLS, which is
     refused (P2) or switches the layer (P3) and comes back asking for a restart.
     On a TLS layer: a pending handshake runs with the first write and succeeds
     (P4) or ends the call (P5); from then on every step stays in P4 and keeps
     Secure, so that STARTTLS is neither forced nor picked. *)
  Definition pinv (tls : bool) (ns : nstate) (p : point) (m : mstate) : Prop :=
    match p with
    | AtCall => if tls then at_phase P4 m \/ (at_phase P3 m /\ ns_restart ns = true) else at_phase P0 m
    | AtExpect | AtFeatures => at_phase (body tls) m
    | AtChildren _ _ ca tot _ => at_phase (body tls) m /\ cache_cfg ca /\ (ca <> [] -> tot <> 0)
    | AtDecide => at_phase (body tls) m /\ cache_cfg (m_cache m) /\ (m_cache m <> [] -> m_total m <> 0)
    | AtSelect forced =>
        at_phase (body tls) m /\ cache_cfg (m_cache m) /\
        if tls then forced = None else
        match forced with
        | Some f => is_tls_kind f = true
        | None => exists e, cache_get ns_StartTLS (m_cache m) = Some e
        end
    | AtRet (Good x) => if tls then at_phase P4 m else x = (st_Secure, true) /\ at_phase P3 m
    | AtRet _ => good m
    end.

  Lemma clear_pick ns forced m req f : pinv false ns (AtSelect forced) m -> picks forced m req f -> is_tls_kind f = true.
  Proof.
    intros (Hi & Hca & Hf) Hp. destruct forced as [g|]; [destruct Hp as (_ & ->); exact Hf|].
    destruct (candidate_in _ _ Hp Hca) as (Hin & Hel). rewrite (proj1 (proj2 Hi)) in Hel.
    exact (clear_eligible_is_tls _ Hin Hel).
  Qed.

  Lemma pinv_step tls ns : (tls = false -> ns = mkNS true true) ->
    forall p m p' m', cstep c ns p m p' m' -> pinv tls ns p m -> pinv tls ns p' m'.
  Proof.
    intros Hns p m p' m' Hs. destruct Hs; cbn zeta; cbn [pinv].
    - (* c_plain *) destruct tls; [intros [H|(_ & H)]; [exact H|congruence]|rewrite (Hns eq_refl) in Ens; discriminate].
    - (* c_send *) destruct tls.
      + intros [H|((_ & _ & Ht & Hh) & _)]; [apply at_emit; [reflexivity|exact H]|]. rewrite Ht, Hh in Eth. discriminate.
      + intros (Ha & Hi). split; [|exact Hi]. rewrite aut_emit, Ha. reflexivity.
    - (* c_shake: the handshake runs *) destruct tls; [|intros (_ & _ & Ht' & _); congruence].
      intros [(_ & _ & _ & Hh & _)|((Ha & Hb & Ht & _) & _)]; [congruence|].
      destruct (c_hs_ok c) eqn:Ehs; cbn [pinv]; [|exists P5]; (split; [rewrite !aut_emit; cbn [m_tr set_hs]; rewrite Ha; reflexivity|]);
        [|exact I]. cbn. rewrite Hb. auto using has_lor_r.
    - (* c_no_header *) intro H. exists (body tls). exact (at_read _ _ _ _ _ Er H).
    - (* c_header *) intro H. apply (at_read _ _ _ _ _ Er) in H. destruct (header_ok c _); [exact H|exists (body tls); exact H].
    - (* c_no_list *) intro H. exists (body tls). exact (at_read _ _ _ _ _ Er H).
    - (* c_list *) intro H. split; [exact (at_read _ _ _ _ _ Er H)|]. split; [constructor|intro H0; contradiction].
    - (* c_text *) intros (H & _). exists (body tls). exact H.
    - (* c_unknown *) intros (H & Hca & _). split; [exact H|]. split; [exact Hca|discriminate].
    - (* c_known *) intros (H & Hca & _). apply (at_emit (body tls) (EParse f) (add_adv sp m) eq_refl) in H.
      destruct perr; [exists (body tls); exact H|]. split; [exact H|]. split; [|discriminate].
      exact (cache_step_cfg 0%N f req ca (get_feature_in _ _ _ Eg) Hca).
    - (* c_stored *) auto.
    - (* c_forced *)
      destruct tls; [intros ((_ & Hs & _) & _); rewrite (secure_not_forced _ _ Hs) in Ef; discriminate|].
      intros (Hi & Hca & _). split; [exact Hi|]. split; [exact Hca|exact (forced_tls _ _ _ Ef)].
    - (* c_normal *)
      destruct tls.
      { intros (H & Hca & _). destruct (m_total m); [|destruct (m_allowed m)]; cbn [pinv]; auto. exists P4. exact H. }
      intros (Hi & Hca & Htot). rewrite (Hns eq_refl) in Ef.
      pose proof (unforced_offered m (proj1 (proj2 Hi)) Ef) as Hadv.
      destruct (m_total m) eqn:Et.
      { exfalso. apply Htot; [|reflexivity]. destruct Hadv as (e & He). intro Hnil. rewrite Hnil in He. discriminate. }
      destruct (m_allowed m); [exists P1; exact Hi|]. cbn [pinv]. auto.
    - (* c_choice *) auto.
    - (* c_stuck *) intros (H & _). exists (body tls). exact H.
    - (* c_done *)
      destruct tls; [tauto|].
      intros ((_ & Hb & _ & Hnegd) & Hca & e0 & Hadv).
      pose proof (offered_candidate _ _ Hca Hb Hnegd Hadv) as Hcd. rewrite Hn in Hcd. destruct Hcd.
    - (* c_abstract *) destruct tls.
      + intros (Hi & Hca & ->).
        assert (at_phase P4 m') as H1 by (apply noted_tls, at_emit; [reflexivity|exact Hi]).
        destruct (verdict f o req m') as [[y|]|e|]; cbn [goes_on pinv]; auto; try (exists P4; exact H1).
        split; [exact H1|]. split; [|reflexivity]. unfold m', noted. destruct (o_err o); exact Hca.
      + intro H. pose proof (clear_pick ns _ _ _ _ H Hp) as Hk. unfold is_tls_kind in Hk. rewrite Ek in Hk. discriminate.
    - (* c_starttls: in clear text the request goes out (P2) and the reply is read *)
      destruct tls.
      { intros (Hi & Hca & ->). pose proof (candidate_abstract _ _ Hi Hca Hp) as Hk. cbn [snd] in Hk. congruence. }
      intro H. pose proof (clear_pick ns _ _ _ _ H Hp) as Hk. destruct H as ((Ha & Hb & Ht & _) & _).
      assert (at_phase P2 (emit (EOut starttls_request) m)) as Hia by (split; [rewrite aut_emit, Ha; reflexivity|exact (conj Hb Ht)]).
      destruct (at_read _ _ _ _ _ Er Hia) as (Ha2 & Hb2 & Ht2).
      destruct (is_proceed x); subst o m3.
      + split; [reflexivity|]. split; [|cbn; rewrite Hb2; auto].
        cbn [noted proceeds o_err m_tr set_negd set_ready set_bits]. rewrite !aut_emit. cbn [m_tr switch_layer].
        rewrite Ha2, Hb. cbn. rewrite N.eqb_refl, Hk. reflexivity.
      + exists P2. split; [|exact (conj Hb2 Ht2)].
        cbn [noted refuses o_err m_tr set_negd]. rewrite aut_emit, Ha2, Hb. cbn. rewrite N.eqb_refl, Hk. reflexivity.
  Qed.

  Definition linv (m : mstate) (data : option nstate) : Prop :=
    (at_phase P0 m /\ ns_of data = mkNS true true) \/
    (at_phase P3 m /\ ns_restart (ns_of data) = true) \/
    at_phase P4 m.

  Lemma linv_good m data : linv m data -> good m.
  Proof. intros [(H & _)|[(H & _)|H]]; eexists; exact H. Qed.

  Definition final_ok (r : result) : Prop :=
    exists p, at_phase p (r_state r) /\ r_bits r = m_bits (r_state r) /\ (r_class r = ROk -> p = P4).

  Lemma good_final m cl : good m -> cl <> ROk -> final_ok (mkR cl (m_bits m) m).
  Proof. intros (p & Hp) Hcl. exists p. split; [exact Hp|]. split; [reflexivity|intro; contradiction]. Qed.

  Lemma ldiff_ready x : N.land x st_Ready = 0%N -> N.ldiff x st_Ready = x.
  Proof. intro H. bitwise. Qed.

  Lemma good_fail m : good m -> good (fail_state m).
  Proof.
    intros (p & Ha & Hm). exists p. split; [exact Ha|].
    pose proof (b0_ready_z b0 Hb0) as Hz.
    destruct p; cbn [coupled fail_state m_bits m_tls m_hs m_negd set_bits] in *.
    all: try (destruct Hm as (-> & Hm); split; [|exact Hm]).
    all: try apply (ldiff_ready _ Hz).
    - apply ldiff_ready. pose proof tbl_secure_ready as H2. bitwise.
    - destruct Hm as (Hs & Hi). split; [|exact Hi]. apply has_ldiff_other; [exact tbl_secure_ready|exact Hs].
    - exact I.
  Qed.

  Lemma linv_call m data m1 r :
    linv m data -> negotiator_body c m (ns_of data) = (m1, r) ->
    match r with
    | Good (mask, restart, ns1) => linv (next_state restart mask m1) (Some ns1)
    | _ => good m1
    end.
  Proof.
    intros [(Hcl & Hns)|Htls] E.
    - rewrite Hns in E.
      destruct (negotiator_body_at c _ _ (pinv_step false _ (fun _ => eq_refl)) _ _ _ E Hcl) as (r' & -> & Hpost).
      destruct r' as [[mask restart]|e|]; [|exact Hpost..].
      destruct Hpost as (Hx & Ha & Hb & Hi). inversion Hx; subst. right; left. split; [|reflexivity].
      unfold next_state. destruct (renew_info_is (set_bits (N.lor (m_bits (reset_stream m1)) st_Secure) (reset_stream m1))) as (n & ->).
      split; [exact Ha|]. cbn. rewrite Hb, <- N.lor_assoc, N.lor_diag. auto.
    - assert (pinv true (ns_of data) AtCall m) as Hent by (cbn; tauto).
      destruct (negotiator_body_at c _ _ (pinv_step true _ ltac:(discriminate)) _ _ _ E Hent) as (r' & -> & H).
      destruct r' as [[mask restart]|e|]; cbn [call_result pinv] in *; [|exact H..].
      right; right. unfold next_state. destruct restart; [|apply at_lor, H].
      destruct (renew_info_is (set_bits (N.lor (m_bits (reset_stream m1)) mask) (reset_stream m1))) as (n & ->).
      exact (at_lor (reset_stream m1) mask H).
  Qed.

  Lemma linv_step l :
    linv (l_m l) (l_data l) ->
    match loop_step false c l with Running l' => linv (l_m l') (l_data l') | Done r => final_ok r end.
  Proof.
    intro Hl.
    destruct (loop_step_cases false c l); cbn [l_m l_data].
    - (* ls_ready: Ready is only ever set over TLS *)
      destruct Hl as [((_ & Hb & _) & _)|[((_ & Hb & _) & _)|Hti]].
      + rewrite Hb, (b0_ready b0 Hb0) in Er. discriminate.
      + rewrite Hb, (b0s_ready b0 Hb0) in Er. discriminate.
      + exists P4. split; [exact Hti|]. split; reflexivity.
    - (* ls_tee *) discriminate.
    - (* ls_next *) exact (linv_call _ _ _ _ Hl E).
    - (* ls_bad *) apply good_final; [|discriminate]. exact (good_fail _ (linv_call _ _ _ _ Hl E)).
    - (* ls_stuck *) apply good_final; [|discriminate]. exact (linv_call _ _ _ _ Hl E).
  Qed.

  Lemma run_final tee fv clear tls outs choices :
    final_ok (run tee c fv b0 clear tls outs choices).
  Proof.
    rewrite run_plain. apply (loop_rule false c (fun l => linv (l_m l) (l_data l)) final_ok) with (l := mkL _ None false 0).
    - intros l Hl. eapply good_final; [exact (linv_good _ _ Hl)|discriminate].
    - apply linv_step.
    - left. unfold at_phase, init_state; cbn. auto.
  Qed.
End Config.
