(* C02/Frame.v — configuration-independent facts: every model function changes
   the machine state only through the primitive steps [prim], so an invariant
   of those is an invariant of a run ([run_inv]): input accounting, the captured
   variable and the server names.  The loop of negotiateSession one call at a
   time ([loop_rule]); the fuel bound of the plain loop; with twice that fuel
   the tee loop is the plain loop ([tee_plain]), so what is proved of a run
   from there on, here and in Phase and Adv, is proved of the plain run. *)
From XV Require Import lib.Bytes gen.NegTables C02.Model C02.Call.

Arguments N.lor : simpl never.
Arguments N.land : simpl never.

Definition quiet (e : event) : bool :=
  match e with EIn _ _ _ | ESwitch _ => false | _ => true end.

Inductive prim (c : config) : mstate -> mstate -> Prop :=
| p_emit e m : quiet e = true -> prim c m (emit e m)
| p_bits b m : prim c m (set_bits b m)
| p_negd l m : prim c m (set_negd l m)
| p_list ca t al r m : prim c m (set_list ca t al r m)
| p_outs o m : prim c m (set_outs o m)
| p_choices ch m : prim c m (set_choices ch m)
| p_hs m : prim c m (set_hs false m)
| p_read rp it rest m : m_in m = it :: rest -> prim c m (emit (EIn rp (m_bits m) it) (set_in rest m))
| p_switch m : prim c m (emit (ESwitch (tls_name c m)) (switch_layer m))
| p_adv a m : prim c m (set_adv a m)
| p_info n m : prim c m (set_info n m)
| p_ready b m : prim c m (set_ready b m).

Inductive evolves (c : config) : mstate -> mstate -> Prop :=
| ev_refl m : evolves c m m
| ev_step m1 m2 m3 : evolves c m1 m2 -> prim c m2 m3 -> evolves c m1 m3.

Lemma ev_trans c m1 m2 m3 : evolves c m1 m2 -> evolves c m2 m3 -> evolves c m1 m3.
Proof.
  intros H12 H23. revert H12. induction H23 as [m|ma mb mc Hab IH Hp]; intro H12; [assumption|].
  eapply ev_step; [apply IH; assumption|exact Hp].
Qed.

Lemma ev1 c m1 m2 : prim c m1 m2 -> evolves c m1 m2.
Proof. intro H. eapply ev_step; [apply ev_refl|exact H]. Qed.

Lemma read_inv rp m m' r : read rp m = (m', r) ->
  (r = None /\ m' = emit (EEof rp) m) \/
  (exists it rest, m_in m = it :: rest /\ r = Some it /\ m' = emit (EIn rp (m_bits m) it) (set_in rest m)).
Proof. unfold read. destruct (m_in m) as [|it rest]; intro H; inversion H; subst; [left|right]; eauto. Qed.

Lemma read_ev c rp m m' r : read rp m = (m', r) -> evolves c m m'.
Proof.
  intro H. destruct (read_inv _ _ _ _ H) as [(_ & ->)|(it & rest & E & _ & ->)]; apply ev1.
  - apply p_emit. reflexivity.
  - apply p_read. exact E.
Qed.

Lemma ev_emit c e m0 m : quiet e = true -> evolves c m0 m -> evolves c m0 (emit e m).
Proof. intros He H. eapply ev_step; [exact H|apply p_emit, He]. Qed.

Lemma noted_ev c f o m0 m : evolves c m0 m -> evolves c m0 (noted f o m).
Proof.
  intro H. unfold noted. destruct (o_err o); (eapply ev_step; [|apply p_negd]); [exact H|].
  eapply ev_step; [eapply ev_step; [exact H|apply p_bits]|apply p_ready].
Qed.

(* every step of a call is a few primitive steps *)
Lemma cstep_ev c ns p m p' m' : cstep c ns p m p' m' -> evolves c m m'.
Proof.
  destruct 1; cbn zeta; try apply (read_ev c) in Er.
  - (* c_plain *) apply ev_refl.
  - (* c_send *) apply ev_emit, ev_refl. reflexivity.
  - (* c_shake *)
    assert (evolves c m (emit (EHandshake (c_hs_ok c)) (set_hs false m))) as Hhs by (apply ev_emit, ev1, p_hs; reflexivity).
    destruct (c_hs_ok c); [apply ev_emit; [reflexivity|]|]; exact Hhs.
  - (* c_no_header *) exact Er.
  - (* c_header *) eapply ev_step; [exact Er|apply p_info].
  - (* c_no_list *) exact Er.
  - (* c_list *) exact Er.
  - (* c_text *) apply ev_refl.
  - (* c_unknown *) apply ev1, p_adv.
  - (* c_known *) apply ev_emit, ev1, p_adv. reflexivity.
  - (* c_stored *) apply ev1, p_list.
  - (* c_forced *) apply ev_refl.
  - (* c_normal *) apply ev_refl.
  - (* c_choice *) apply ev1, p_choices.
  - (* c_stuck *) apply ev_refl.
  - (* c_done *) apply ev_refl.
  - (* c_abstract *) apply noted_ev, ev_emit, ev1, p_outs. reflexivity.
  - (* c_starttls *) apply noted_ev, ev_emit; [reflexivity|].
    pose proof (ev_trans _ _ _ _ (ev1 _ _ _ (p_emit c (EOut starttls_request) m eq_refl)) Er) as H2.
    destruct (is_proceed x); [eapply ev_step; [exact H2|apply p_switch]|exact H2].
Qed.

Lemma negotiator_body_ev c m ns m' r : negotiator_body c m ns = (m', r) -> evolves c m m'.
Proof.
  intro H. destruct (negotiator_body_at c ns (fun _ => evolves c m)) with (2 := H) as (_ & _ & Hev); [|apply ev_refl|exact Hev].
  intros p m1 p' m2 Hs H1. exact (ev_trans _ _ _ _ H1 (cstep_ev _ _ _ _ _ _ Hs)).
Qed.

Lemma renew_info_is m : exists n, renew_info m = set_info n m.
Proof.
  unfold renew_info. destruct (has (m_bits m) st_Ready); [|eauto].
  exists (m_info m). destruct m; reflexivity.
Qed.

Lemma renew_info_ev c m : evolves c m (renew_info m).
Proof. destruct (renew_info_is m) as (n & ->). apply ev1, p_info. Qed.

Lemma reset_stream_ev c m : evolves c m (reset_stream m).
Proof. unfold reset_stream. eapply ev_step; [apply ev1, p_negd|apply p_adv]. Qed.

Lemma tee_state_ev c m : evolves c m (tee_state m).
Proof. unfold tee_state. eapply ev_trans; [apply reset_stream_ev|apply renew_info_ev]. Qed.

Lemma next_state_ev c restart mask m : evolves c m (next_state restart mask m).
Proof.
  unfold next_state. destruct restart.
  - eapply ev_trans; [apply reset_stream_ev|]. eapply ev_trans; [apply ev1, p_bits|apply renew_info_ev].
  - apply ev1, p_bits.
Qed.

Lemma fail_state_ev c m : evolves c m (fail_state m).
Proof. apply ev1, p_bits. Qed.

(* [session_loop] with its state arguments packed as the [lstate] that [loop_step] takes and returns *)
Definition loop (k : nat) (tee : bool) (c : config) (l : lstate) : result :=
  session_loop k tee c (l_m l) (l_data l) (l_istee l).

(* the five outcomes of one iteration; as in [cstep], the proofs by cases use the names of the premises *)
Inductive lstep (tee : bool) (c : config) (l : lstate) : progress -> Prop :=
| ls_ready (Er : has (m_bits (l_m l)) st_Ready = true) :
    lstep tee c l (Done (mkR ROk (m_bits (l_m l)) (l_m l)))
| ls_tee (Er : has (m_bits (l_m l)) st_Ready = false) (Et : tee && negb (l_istee l) = true) :
    lstep tee c l (Running (mkL (tee_state (l_m l)) (Some (ns_of (l_data l))) true (l_calls l)))
| ls_next m1 mask restart ns1
    (Er : has (m_bits (l_m l)) st_Ready = false) (Et : tee && negb (l_istee l) = false)
    (E : negotiator_body c (l_m l) (ns_of (l_data l)) = (m1, Good (mask, restart, ns1))) :
    lstep tee c l (Running (mkL (next_state restart mask m1) (Some ns1) (if restart then false else l_istee l)
                                (S (l_calls l))))
| ls_bad m1 e
    (Er : has (m_bits (l_m l)) st_Ready = false) (Et : tee && negb (l_istee l) = false)
    (E : negotiator_body c (l_m l) (ns_of (l_data l)) = (m1, Bad e)) :
    lstep tee c l (Done (mkR (RErr e) (m_bits (fail_state m1)) (fail_state m1)))
| ls_stuck m1
    (Er : has (m_bits (l_m l)) st_Ready = false) (Et : tee && negb (l_istee l) = false)
    (E : negotiator_body c (l_m l) (ns_of (l_data l)) = (m1, Stuck)) :
    lstep tee c l (Done (mkR RStuck (m_bits m1) m1)).

Lemma loop_step_cases tee c l : lstep tee c l (loop_step tee c l).
Proof.
  unfold loop_step. destruct (has (m_bits (l_m l)) st_Ready) eqn:Er; [apply ls_ready; exact Er|].
  destruct (tee && negb (l_istee l)) eqn:Et; [apply ls_tee; assumption|].
  destruct (negotiator_body c (l_m l) (ns_of (l_data l))) as [m1 [[[mask restart] ns1]|e|]] eqn:E;
    [apply ls_next|apply ls_bad|apply ls_stuck]; assumption.
Qed.

Lemma loop_S k tee c l :
  loop (S k) tee c l = match loop_step tee c l with Done r => r | Running l' => loop k tee c l' end.
Proof.
  unfold loop, loop_step. cbn [session_loop].
  destruct (has (m_bits (l_m l)) st_Ready); [reflexivity|].
  destruct (tee && negb (l_istee l)); [reflexivity|].
  destruct (negotiator_body c (l_m l) (ns_of (l_data l))) as [m1 [[[mask restart] ns1]|e|]]; reflexivity.
Qed.

Lemma loop_rule tee c (I : lstate -> Prop) (Post : result -> Prop) :
  (forall l, I l -> Post (mkR RFuel (m_bits (l_m l)) (l_m l))) ->
  (forall l, I l -> match loop_step tee c l with Running l' => I l' | Done r => Post r end) ->
  forall k l, I l -> Post (loop k tee c l).
Proof.
  intros Hfuel Hstep. induction k as [|k IH]; intros l Hl; [exact (Hfuel l Hl)|].
  rewrite loop_S. specialize (Hstep l Hl). destruct (loop_step tee c l); [apply IH|]; exact Hstep.
Qed.

Lemma loop_step_ev tee c l : evolves c (l_m l) (pstate (loop_step tee c l)).
Proof.
  destruct (loop_step_cases tee c l); cbn [pstate l_m r_state]; try apply negotiator_body_ev in E.
  - (* ls_ready *) apply ev_refl.
  - (* ls_tee *) apply tee_state_ev.
  - (* ls_next *) eapply ev_trans; [exact E|apply next_state_ev].
  - (* ls_bad *) eapply ev_trans; [exact E|apply fail_state_ev].
  - (* ls_stuck *) exact E.
Qed.

Lemma session_loop_ev c fuel tee m data istee : evolves c m (r_state (session_loop fuel tee c m data istee)).
Proof.
  apply (loop_rule tee c (fun l => evolves c m (l_m l)) (fun r => evolves c m (r_state r)))
    with (l := mkL m data istee 0); [auto| |apply ev_refl].
  intros l Hl. pose proof (ev_trans _ _ _ _ Hl (loop_step_ev tee c l)) as H.
  destruct (loop_step tee c l); exact H.
Qed.

Lemma session_loop_ok_ready c fuel tee m data istee :
  let r := session_loop fuel tee c m data istee in
  r_class r = ROk -> has (m_bits (r_state r)) st_Ready = true.
Proof.
  apply (loop_rule tee c (fun _ => True) (fun r => r_class r = ROk -> has (m_bits (r_state r)) st_Ready = true))
    with (l := mkL m data istee 0); [discriminate| |exact I].
  intros l _. destruct (loop_step_cases tee c l); cbn [r_class]; try exact I; try discriminate. intros _. exact Er.
Qed.

Lemma evolves_inv c (I : mstate -> Prop) :
  (forall m m', prim c m m' -> I m -> I m') ->
  forall m m', evolves c m m' -> I m -> I m'.
Proof. intros Hp m m' H. induction H; eauto. Qed.

(* no constructor of [prim] touches the captured variable *)
Lemma evolves_fv c m m' : evolves c m m' -> m_fv m' = m_fv m.
Proof.
  intro H. refine (evolves_inv c (fun x => m_fv x = m_fv m) _ _ _ H eq_refl).
  intros m1 m2 Hp E. rewrite <- E. destruct Hp; reflexivity.
Qed.

Lemma run_inv c (I : mstate -> Prop) tee fv bits clear tls outs choices :
  (forall m m', prim c m m' -> I m -> I m') ->
  I (init_state c fv bits clear tls outs choices) -> I (r_state (run tee c fv bits clear tls outs choices)).
Proof. intro Hp. apply (evolves_inv c I Hp). apply session_loop_ev. Qed.

Lemma switched_app a b : switched (a ++ b) = switched a || switched b.
Proof. unfold switched. apply existsb_app. Qed.

Lemma before_switch_app a b :
  before_switch (a ++ b) = if switched a then before_switch a else a ++ before_switch b.
Proof.
  unfold switched. induction a as [|e a IH]; cbn; [reflexivity|].
  destruct (is_switch e); cbn; [reflexivity|]. rewrite IH. destruct (existsb is_switch a); reflexivity.
Qed.

Lemma after_switch_app a b :
  after_switch (a ++ b) = if switched a then after_switch a ++ b else after_switch b.
Proof.
  unfold switched. induction a as [|e a IH]; cbn; [reflexivity|].
  destruct (is_switch e); cbn; [reflexivity|]. exact IH.
Qed.

Lemma before_switch_id a : switched a = false -> before_switch a = a.
Proof.
  induction a as [|e a IH]; cbn; [reflexivity|].
  destruct (is_switch e); cbn; [discriminate|]. intro H. rewrite IH; auto.
Qed.

Lemma after_switch_none a : switched a = false -> after_switch a = [].
Proof.
  induction a as [|e a IH]; cbn; [reflexivity|].
  destruct (is_switch e); cbn; [discriminate|]. exact IH.
Qed.

Lemma ins_of_app a b : ins_of (a ++ b) = ins_of a ++ ins_of b.
Proof. unfold ins_of. apply flat_map_app. Qed.

Lemma outs_of_app a b : outs_of (a ++ b) = outs_of a ++ outs_of b.
Proof. unfold outs_of. apply flat_map_app. Qed.

Lemma server_names_app a b : server_names (a ++ b) = server_names a ++ server_names b.
Proof. unfold server_names. apply flat_map_app. Qed.

Lemma handshakes_app a b : handshakes (a ++ b) = handshakes a ++ handshakes b.
Proof. unfold handshakes. apply flat_map_app. Qed.

Lemma quiet_facts e : quiet e = true ->
  is_switch e = false /\ ins_of [e] = [] /\ server_names [e] = [].
Proof. destruct e; cbn; intro H; try discriminate; auto. Qed.

(* the events of the stream the session is on: those after the layer switch, once there is one *)
Definition cur (tr : list event) : list event := if switched tr then after_switch tr else tr.

Lemma cur_app tr d : switched d = false -> cur (tr ++ d) = cur tr ++ d.
Proof.
  intro H. unfold cur. rewrite switched_app, after_switch_app, H, Bool.orb_false_r. destruct (switched tr); reflexivity.
Qed.

(* the items delivered on it *)
Definition got (m : mstate) : list pitem := ins_of (cur (m_tr m)).

Lemma got_emit e m : is_switch e = false -> got (emit e m) = got m ++ ins_of [e].
Proof. intro H. unfold got. cbn [m_tr emit]. rewrite cur_app by (cbn; rewrite H; reflexivity). apply ins_of_app. Qed.

Lemma got_read rp st it rest m : got (emit (EIn rp st it) (set_in rest m)) = got m ++ [it].
Proof. rewrite got_emit; reflexivity. Qed.

(* What was delivered on the current stream plus what is pending is its script;
   the TLS-layer script is untouched before the switch; clear text pending at
   the switch is gone. *)
Definition acct (clear tls : list pitem) (m : mstate) : Prop :=
  if switched (m_tr m)
  then (exists rest, got m ++ rest = tls /\ (m_in m = rest \/ m_in m = [])) /\ m_tlsin m = [] /\
       exists rest, ins_of (before_switch (m_tr m)) ++ rest = clear
  else got m ++ m_in m = clear /\ m_tlsin m = tls.

Lemma acct_prim c clear tls m m' : prim c m m' -> acct clear tls m -> acct clear tls m'.
Proof.
  intros Hp. destruct Hp as [e m Hq| | | | | | |rp it rest m Hin|m| | |]; try (intro H; exact H).
  - (* p_emit: a quiet event *)
    destruct (quiet_facts e Hq) as (Hs & Hi & _).
    unfold acct. rewrite (got_emit e m Hs), Hi, app_nil_r. cbn [m_tr emit m_in m_tlsin].
    rewrite switched_app, before_switch_app. cbn [switched existsb]. rewrite Hs.
    destruct (switched (m_tr m)); auto.
  - (* p_read: an item is delivered *)
    unfold acct. rewrite got_read. cbn [m_tr emit set_in m_in m_tlsin].
    rewrite switched_app, before_switch_app. cbn [switched existsb is_switch orb]. rewrite Bool.orb_false_r, Hin, <- !app_assoc.
    destruct (switched (m_tr m)); [|auto].
    intros ((rest0 & Hr & [Hor|Hor]) & Ht); [|discriminate]. split; [|exact Ht]. subst rest0. exists rest. rewrite <- app_assoc. auto.
  - (* p_switch: the layer is switched *)
    unfold acct, got, cur. cbn [m_tr emit switch_layer m_in m_tlsin].
    rewrite switched_app, before_switch_app, after_switch_app. cbn [switched existsb is_switch orb].
    destruct (switched (m_tr m)); cbn [orb before_switch after_switch is_switch].
    + rewrite ins_of_app, app_nil_r. intros ((rest0 & Hr & _) & Ht & Hb). rewrite Ht. eauto 6.
    + rewrite app_nil_r. intros (Hc & Ht). rewrite Ht. split; [exists tls; auto|eauto].
Qed.

Lemma acct_final clear tls m : acct clear tls m ->
  (exists rest, ins_of (before_switch (m_tr m)) ++ rest = clear) /\
  (exists rest, ins_of (after_switch (m_tr m)) ++ rest = tls).
Proof.
  unfold acct, got, cur. destruct (switched (m_tr m)) eqn:E.
  - intros ((rest & Hr & _) & _ & Hb). eauto.
  - intros (Hc & _). rewrite before_switch_id, after_switch_none by exact E. split; [eauto|exists tls; reflexivity].
Qed.

Lemma run_acct tee c fv bits clear tls outs choices :
  acct clear tls (r_state (run tee c fv bits clear tls outs choices)).
Proof.
  apply run_inv; [apply acct_prim|]. unfold acct, init_state; cbn. auto.
Qed.

(* [tls_name] as a function of the captured variable: tls_name c m = name_for c (m_fv m) *)
Definition name_for (c : config) (fv : option bytes) : bytes :=
  match fv with Some n => n | None => c_domain c end.

Definition fvinv (c : config) (fv : option bytes) (m : mstate) : Prop :=
  m_fv m = fv /\ Forall (fun n => n = name_for c fv) (server_names (m_tr m)).

Lemma fvinv_prim c fv m m' : prim c m m' -> fvinv c fv m -> fvinv c fv m'.
Proof.
  intros Hp. destruct Hp as [e m Hq| | | | | | |rp it rest m Hin|m| | |]; try (intro H; exact H).
  - (* p_emit *) destruct (quiet_facts e Hq) as (_ & _ & Hn).
    unfold fvinv; cbn [m_tr emit m_fv]. rewrite server_names_app, Hn, app_nil_r. auto.
  - (* p_read *) unfold fvinv; cbn [m_tr emit set_in m_fv]. rewrite server_names_app. cbn. rewrite app_nil_r. auto.
  - (* p_switch *) unfold fvinv; cbn [m_tr emit switch_layer m_fv]. rewrite server_names_app. cbn.
    intros (Hf & Hn). split; [exact Hf|]. apply Forall_app. split; [exact Hn|].
    constructor; [|constructor]. change (tls_name c m) with (name_for c (m_fv m)). rewrite Hf. reflexivity.
Qed.

Lemma run_fvinv tee c fv bits clear tls outs choices :
  fvinv c fv (r_state (run tee c fv bits clear tls outs choices)).
Proof.
  apply run_inv; [apply fvinv_prim|]. unfold fvinv, init_state; cbn. auto.
Qed.

Lemma run_sessions_names : forall ss fv,
  Forall2 (fun s r => Forall (fun n => n = name_for (s_cfg s) fv) (server_names (trace r)))
          ss (run_sessions fv ss).
Proof.
  induction ss as [|s ss IH]; intro fv; cbn [run_sessions]; constructor.
  - apply (run_fvinv (s_tee s) (s_cfg s) fv).
  - destruct (run_fvinv (s_tee s) (s_cfg s) fv (s_bits s) (s_in s) (s_tls s) (s_outs s) (s_choices s)) as (Hf & _).
    unfold run_sess. rewrite Hf. apply IH.
Qed.

Definition remaining (m : mstate) : nat := length (m_in m) + length (m_tlsin m).

Lemma remaining_ev c m m' : evolves c m m' -> remaining m' <= remaining m.
Proof.
  intro H. induction H as [|m1 m2 m3 _ IH Hp]; [lia|].
  destruct Hp as [e m2 Hq| | | | | | |rp it rest m2 Hin|m2| | |]; unfold remaining in *; cbn; try lia.
  rewrite Hin in IH. cbn in IH. lia.
Qed.

(* the points of a call that lie behind the reading of the features list *)
Definition past_list (p : point) : bool :=
  match p with AtChildren _ _ _ _ _ | AtDecide | AtSelect _ | AtRet (Good _) => true | _ => false end.

(* a call that succeeds has read a features list *)
Lemma negotiator_body_consumes c m ns m' x :
  negotiator_body c m ns = (m', Good x) -> remaining m' < remaining m.
Proof.
  intro H.
  destruct (negotiator_body_at c ns (fun p m1 => remaining m1 + (if past_list p then 1 else 0) <= remaining m))
    with (2 := H) as (r' & Hr & Hlt); [|cbn; lia|destruct r' as [[]| |]; [cbn in Hlt; lia|discriminate..]].
  intros p m1 p' m2 Hs. pose proof (remaining_ev _ _ _ (cstep_ev _ _ _ _ _ _ Hs)) as Hle.
  assert ((if past_list p' then 1 else 0) <= 1) as Hp by (destruct (past_list p'); lia).
  destruct Hs; cbn [past_list] in *; try lia.
  - (* c_shake *) destruct (c_hs_ok c); cbn [past_list] in *; lia.
  - (* c_header *) destruct (header_ok c n); cbn [past_list] in *; lia.
  - (* c_list: an item was consumed *)
    destruct (read_inv _ _ _ _ Er) as [(-> & _)|(it & rest & Ein & _ & ->)]; [discriminate Ef|].
    unfold remaining in *. cbn in *. rewrite Ein in *. cbn in *. lia.
Qed.

Lemma plain_step_consumes c l :
  match loop_step false c l with
  | Running l' => remaining (l_m l') < remaining (l_m l)
  | Done r => r_class r <> RFuel
  end.
Proof.
  destruct (loop_step_cases false c l); try discriminate; cbn [l_m].
  pose proof (negotiator_body_consumes _ _ _ _ _ E).
  pose proof (remaining_ev c _ _ (next_state_ev c restart mask m1)). lia.
Qed.

Lemma plain_enough c : forall k l, remaining (l_m l) < k -> r_class (loop k false c l) <> RFuel.
Proof.
  induction k as [|k IH]; intros l Hlt; [lia|]. rewrite loop_S.
  pose proof (plain_step_consumes c l) as H. destruct (loop_step false c l); [apply IH; lia|exact H].
Qed.

Lemma loop_mono tee c : forall k l j,
  r_class (loop k tee c l) <> RFuel -> loop (k + j) tee c l = loop k tee c l.
Proof.
  induction k as [|k IH]; intros l j H; [exfalso; apply H; reflexivity|].
  cbn [Nat.add]. rewrite !loop_S in *. destruct (loop_step tee c l); [apply IH; exact H|reflexivity].
Qed.

(* nothing of an earlier stream is left: true at the start and right after a restart *)
Definition fresh (m : mstate) : Prop :=
  m_negd m = [] /\ m_adv m = [] /\ (has (m_bits m) st_Ready = false -> keep_addr (m_info m) = m_info m).

Lemma tee_state_same m : fresh m -> has (m_bits m) st_Ready = false -> tee_state m = m.
Proof.
  intros (H1 & H2 & H3) Hr. unfold tee_state, renew_info, reset_stream. cbn [m_bits set_adv set_negd].
  rewrite Hr. cbn [m_info set_adv set_negd]. rewrite (H3 Hr). destruct m; cbn in *; subst. reflexivity.
Qed.

Lemma next_state_fresh mask m : fresh (next_state true mask m).
Proof.
  unfold next_state, renew_info, fresh. cbn [m_bits set_bits reset_stream set_adv set_negd].
  destruct (has (N.lor (m_bits m) mask) st_Ready) eqn:E; cbn [m_negd m_adv m_bits m_info set_info set_bits reset_stream set_adv set_negd].
  - repeat split; try reflexivity. rewrite E. discriminate.
  - repeat split; reflexivity.
Qed.

(* the plain run makes the calls of the tee run, which besides wraps the
   connection once before the first call and once after every restart *)
Lemma tee_sim c : forall k j l l',
  l_m l = l_m l' -> ns_of (l_data l) = ns_of (l_data l') -> (l_istee l = false -> fresh (l_m l)) ->
  r_class (loop k false c l') <> RFuel -> 2 * k <= j ->
  loop j true c l = loop k false c l'.
Proof.
  induction k as [|k IH]; intros j l l' Hm Hns Hfr Hnf Hj; [exfalso; apply Hnf; reflexivity|].
  destruct j as [|[|j]]; [lia..|].
  (* one call, made on a teeConn *)
  assert (forall j1 lt, 2 * k <= j1 -> l_m lt = l_m l' -> ns_of (l_data lt) = ns_of (l_data l') ->
            l_istee lt = true -> loop (S j1) true c lt = loop (S k) false c l') as Hcall.
  { intros j1 lt Hj1 Hmt Hnt Hit. rewrite !loop_S in *. unfold loop_step in *.
    rewrite Hmt, Hnt, Hit in *. cbn [andb negb] in *.
    destruct (has (m_bits (l_m l')) st_Ready); [reflexivity|].
    destruct (negotiator_body c (l_m l') (ns_of (l_data l'))) as [m1 [[[mask restart] ns1]|e|]]; try reflexivity.
    apply IH; cbn [l_m l_data l_istee]; auto.
    destruct restart; [intros _; apply next_state_fresh|discriminate]. }
  destruct (l_istee l) eqn:Ei; [apply Hcall; auto; lia|].
  (* the wrapping call first *)
  rewrite loop_S. unfold loop_step at 1. rewrite Ei, Hm. cbn [andb negb].
  destruct (has (m_bits (l_m l')) st_Ready) eqn:Er.
  - rewrite loop_S. unfold loop_step. rewrite Er. reflexivity.
  - rewrite <- Hm, (tee_state_same _ (Hfr eq_refl)) by (rewrite Hm; exact Er).
    apply Hcall; cbn [l_m l_data l_istee ns_of]; auto. lia.
Qed.

Lemma tee_plain c j l :
  (l_istee l = false -> fresh (l_m l)) -> 2 * S (remaining (l_m l)) <= j -> loop j true c l = loop j false c l.
Proof.
  intros Hfr Hj. set (k := S (remaining (l_m l))) in *.
  assert (r_class (loop k false c l) <> RFuel) as Hk by (apply plain_enough; unfold k; lia).
  replace j with (k + (j - k)) at 2 by lia. rewrite (loop_mono false c k l _ Hk).
  apply (tee_sim c k j l l); auto.
Qed.

(* [fuel_for] is twice what the plain loop needs, for the sake of the tee *)
Lemma run_tee_invariant c fv bits clear tls outs choices :
  run true c fv bits clear tls outs choices = run false c fv bits clear tls outs choices.
Proof.
  apply (tee_plain c _ (mkL _ None false 0)); [intros _; repeat split; reflexivity|].
  unfold remaining, fuel_for, init_state; cbn. lia.
Qed.

Lemma run_plain tee c fv bits clear tls outs choices :
  run tee c fv bits clear tls outs choices = run false c fv bits clear tls outs choices.
Proof. destruct tee; [apply run_tee_invariant|reflexivity]. Qed.

Lemma run_not_fuel tee c fv bits clear tls outs choices :
  r_class (run tee c fv bits clear tls outs choices) <> RFuel.
Proof.
  rewrite run_plain. apply (plain_enough c _ (mkL _ None false 0)). unfold remaining, fuel_for, init_state; cbn. lia.
Qed.
