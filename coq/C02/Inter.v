(* C02/Inter.v — one StartTLS feature value shared by sessions whose
   negotiations overlap: the captured variable is global state and the sessions
   take turns, one negotiator call at a time, in any order ([sched_run]).  No
   primitive step writes it ([fvinv_prim]), so every schedule leaves it
   unchanged and a session that finishes has the result it has when run alone. *)
From XV Require Import lib.Bytes lib.ListAux C02.Model C02.Call C02.Frame.

(* what a session has become after [j] of its steps: going on from there gives
   what the session run alone gives *)
Definition after (tee : bool) (c : config) (l0 : lstate) (j : nat) (p : progress) : Prop :=
  forall k, loop (j + k) tee c l0 = match p with Running l => loop k tee c l | Done r => r end.

Lemma after_step tee c l0 j l : after tee c l0 j (Running l) -> after tee c l0 (S j) (loop_step tee c l).
Proof.
  intros H k. rewrite Nat.add_succ_comm, (H (S k)), loop_S. destruct (loop_step tee c l); reflexivity.
Qed.

Lemma after_done_run tee c fv bits clear tls outs choices j r :
  after tee c (mkL (init_state c fv bits clear tls outs choices) None false 0) j (Done r) ->
  r = run tee c fv bits clear tls outs choices.
Proof.
  intro H. rewrite <- (H (fuel_for clear tls)), Nat.add_comm.
  exact (loop_mono tee c _ (mkL _ None false 0) j (run_not_fuel tee c fv bits clear tls outs choices)).
Qed.

Lemma set_fv_same fv m : m_fv m = fv -> set_fv fv m = m.
Proof. destruct m; cbn. intro H; subst. reflexivity. Qed.

(* Whether the features list a session is about to read is its first one is a
   matter of that session's own history: the `first` argument of its next
   negotiateFeatures call is true exactly when it has made no such call yet.
   (negotiatorState travels through the `data` value of the session; nothing
   about it is captured by the Negotiator value.) *)
Definition firstinv (p : progress) : Prop :=
  match p with
  | Running l => next_first l = Nat.eqb (l_calls l) 0
  | Done _ => True
  end.

Lemma loop_step_first tee c l : firstinv (Running l) -> firstinv (loop_step tee c l).
Proof.
  unfold firstinv, next_first. intro H.
  destruct (loop_step_cases tee c l); try exact I; cbn [l_data l_calls ns_of]; [exact H|].
  rewrite (negotiator_body_started _ _ _ _ _ _ _ E). reflexivity.
Qed.

Definition sinv (fv : option bytes) (s0 : sess) (s : isess) : Prop :=
  is_tee s = s_tee s0 /\ is_cfg s = s_cfg s0 /\
  fvinv (s_cfg s0) fv (pstate (is_prog s)) /\
  (exists j, after (s_tee s0) (s_cfg s0)
               (mkL (init_state (s_cfg s0) fv (s_bits s0) (s_in s0) (s_tls s0) (s_outs s0) (s_choices s0)) None false 0)
               j (is_prog s)) /\
  firstinv (is_prog s).

Lemma step_sess_inv fv s0 s : sinv fv s0 s ->
  fst (step_sess fv s) = fv /\ sinv fv s0 (snd (step_sess fv s)).
Proof.
  intros (Ht & Hc & Hf & Hr & Hfi). unfold step_sess. destruct (is_prog s) as [l|r] eqn:Ep.
  - cbn [pstate] in Hf. destruct Hf as (Hfv & Hn).
    assert (mkL (set_fv fv (l_m l)) (l_data l) (l_istee l) (l_calls l) = l) as El
      by (rewrite (set_fv_same _ _ Hfv); destruct l; reflexivity).
    rewrite El, Ht, Hc. cbn [fst snd].
    pose proof (evolves_inv _ _ (fvinv_prim (s_cfg s0) fv) _ _ (loop_step_ev (s_tee s0) _ l) (conj Hfv Hn)) as Hf2.
    split; [exact (proj1 Hf2)|]. unfold sinv. cbn [is_tee is_cfg is_prog].
    split; [reflexivity|]. split; [reflexivity|]. split; [exact Hf2|]. split; [destruct Hr as (j & Hr); exists (S j); apply after_step; exact Hr|].
    apply loop_step_first. exact Hfi.
  - cbn [fst snd]. split; [reflexivity|]. unfold sinv. rewrite Ep. auto.
Qed.

Lemma step_nth_inv : forall i fv ss0 ss, Forall2 (sinv fv) ss0 ss ->
  fst (step_nth i fv ss) = fv /\ Forall2 (sinv fv) ss0 (snd (step_nth i fv ss)).
Proof.
  intros i fv ss0 ss H. revert i. induction H as [|s0 s ss0 ss Hs Hrest IH]; intro i.
  - destruct i; cbn; split; try reflexivity; constructor.
  - destruct i as [|j]; cbn [step_nth].
    + destruct (step_sess_inv fv s0 s Hs) as (H1 & H2).
      destruct (step_sess fv s) as [fv' s'] eqn:E. cbn [fst snd] in *. split; [exact H1|constructor; assumption].
    + destruct (IH j) as (H1 & H2).
      destruct (step_nth j fv ss) as [fv' rest'] eqn:E. cbn [fst snd] in *. split; [exact H1|constructor; assumption].
Qed.

Lemma sched_run_inv : forall sched fv ss0 ss, Forall2 (sinv fv) ss0 ss ->
  fst (sched_run sched fv ss) = fv /\ Forall2 (sinv fv) ss0 (snd (sched_run sched fv ss)).
Proof.
  induction sched as [|i rest IH]; intros fv ss0 ss H; cbn [sched_run].
  - auto.
  - destruct (step_nth_inv i fv ss0 ss H) as (H1 & H2).
    destruct (step_nth i fv ss) as [fv' ss'] eqn:E. cbn [fst snd] in *. subst fv'. apply IH. exact H2.
Qed.

Lemma start_inv fv : forall ss0, Forall2 (sinv fv) ss0 (map (start_sess fv) ss0).
Proof.
  induction ss0 as [|s0 ss0 IH]; cbn; constructor; [|exact IH].
  unfold sinv, start_sess. cbn [is_tee is_cfg is_prog pstate l_m].
  split; [reflexivity|]. split; [reflexivity|]. split; [unfold fvinv, init_state; cbn; auto|].
  split; [exists 0; intro k; reflexivity|reflexivity].
Qed.

Lemma Forall2_Forall_r {A B} (P : B -> Prop) (l : list A) l' : Forall2 (fun _ b => P b) l l' -> Forall P l'.
Proof. intro H. induction H; constructor; auto. Qed.

Lemma interleaved_sessions sched fv ss0 :
  let out := sched_run sched fv (map (start_sess fv) ss0) in
  fst out = fv /\
  Forall2 (fun s0 s =>
             Forall (fun n => n = name_for (s_cfg s0) fv) (server_names (m_tr (pstate (is_prog s)))) /\
             (forall r, is_prog s = Done r -> r = run_sess fv s0) /\
             firstinv (is_prog s))
          ss0 (snd out).
Proof.
  intro out. destruct (sched_run_inv sched fv ss0 _ (start_inv fv ss0)) as (H1 & H2). fold out in H1, H2.
  split; [exact H1|]. eapply Forall2_mono; [|exact H2].
  intros s0 s (Ht & Hc & (Hfv & Hn) & Hr & Hfi). split; [exact Hn|]. split; [|exact Hfi].
  intros r Hd. destruct Hr as (j & Hr). rewrite Hd in Hr. exact (after_done_run _ _ _ _ _ _ _ _ _ _ Hr).
Qed.
