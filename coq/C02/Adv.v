(* C02/Adv.v — what Session.Feature ([m_adv], the keys of s.features) and
   Session.In() report comes from the protected stream only, for every
   configuration; stated of the stream the session is on ([got]), whichever it
   is.  negotiateSession empties s.features only when the negotiator
   returns a new connection, so the invariant is one of the loop head; within a
   call ([ainv]) either no layer is switched, or the call comes back at once as
   "restart the stream". *)
From XV Require Import lib.Bytes gen.NegTables C02.Model C02.Call C02.Frame.

Lemma adv_spaces_app a b : adv_spaces (a ++ b) = adv_spaces a ++ adv_spaces b.
Proof. unfold adv_spaces. apply flat_map_app. Qed.

Lemma headers_of_app a b : headers_of (a ++ b) = headers_of a ++ headers_of b.
Proof. unfold headers_of. apply flat_map_app. Qed.

Definition advinv (m : mstate) : Prop := incl (m_adv m) (adv_spaces (got m)).

(* a field of s.in.Info is zero, or was set by one of some stream headers *)
Definition src (sel : hattrs -> option bytes) (hs : list hattrs) (v : bytes) : Prop :=
  v = [] \/ exists h, In h hs /\ sel h = Some v.

Definition info_from (hs : list hattrs) (n : info) : Prop :=
  src h_id hs (n_id n) /\ src h_ver hs (n_ver n) /\ src h_lang hs (n_lang n) /\ src h_xmlns hs (n_xmlns n).

Lemma src_mono sel hs hs' v : incl hs hs' -> src sel hs v -> src sel hs' v.
Proof. intros Hi [H|(h & Hin & H)]; [left; exact H|right; exists h; auto]. Qed.

Lemma info_from_mono hs hs' n : incl hs hs' -> info_from hs n -> info_from hs' n.
Proof. intros Hi (A & B & C & D). repeat split; eapply src_mono; eauto. Qed.

Lemma src_pick sel hs h old : In h hs -> src sel hs old -> src sel hs (pick (sel h) old).
Proof. intros Hin Ho. unfold pick. destruct (sel h) eqn:E; [right; exists h; auto|exact Ho]. Qed.

Lemma info_from_assign hs h n : In h hs -> info_from hs n -> info_from hs (assign h n).
Proof. intros Hin (A & B & C & D). unfold assign, info_from; cbn. repeat split; apply src_pick; assumption. Qed.

Lemma info_from_fix c hs n : info_from hs n -> info_from hs (fix_to c n).
Proof. unfold fix_to. destruct (is_nil (n_to n)); auto. Qed.

Lemma info_from_keep hs n : info_from hs (keep_addr n).
Proof. unfold info_from, keep_addr; cbn. repeat split; left; reflexivity. Qed.

(* what the session holds about the stream it is on was delivered on that stream *)
Definition viewinv (m : mstate) : Prop :=
  advinv m /\ info_from (headers_of (got m)) (m_info m).

Lemma viewinv_assign c m h n :
  viewinv m -> In h (headers_of (got m)) ->
  n = assign h (m_info m) \/ n = fix_to c (assign h (m_info m)) -> viewinv (set_info n m).
Proof.
  intros (Hk & Hi) Hin Hn. split; [exact Hk|]. cbn [m_info set_info].
  destruct Hn as [->| ->]; [|apply info_from_fix]; apply info_from_assign; auto.
Qed.

Lemma features_of_some r cs : features_of r = Some cs -> r = Some (mkItem false (PFeatures cs)).
Proof.
  destruct r as [[sp b]|]; [|discriminate]. destruct sp; [discriminate|]. destruct b; try discriminate.
  cbn. intro H; inversion H; subst. reflexivity.
Qed.

Definition addr_ok (c : config) (m : mstate) : Prop :=
  n_from (m_info m) = c_loc c /\ n_to (m_info m) = c_orig c.

Lemma header_of_some r h : header_of r = Some h -> exists sp, r = Some (mkItem sp (PHeader h)).
Proof.
  destruct r as [[sp b]|]; [|discriminate]. destruct b; try discriminate. cbn. intro H; inversion H; subst. eauto.
Qed.

Lemma header_ok_addr c n : header_ok c n = true ->
  n_from (fix_to c n) = c_loc c /\ n_to (fix_to c n) = c_orig c.
Proof.
  unfold header_ok. intro H. apply andb_prop in H. destruct H as [H E5].
  apply andb_prop in H. destruct H as [_ E4]. apply bytes_eqb_eq in E4.
  unfold fix_to. destruct (is_nil (n_to n)); cbn [n_from n_to]; [auto|].
  cbn [orb] in E5. apply bytes_eqb_eq in E5. auto.
Qed.

Section AdvCall.
  Variables (c : config) (ns : nstate).

  (* at every point of a call up to a layer switch *)
  Definition settled (m : mstate) : Prop := viewinv m /\ addr_ok c m.

  (* It is kept by an event that switches no layer, hence by a read, and by every
     write to other fields than advertised set, info and trace: those by computation. *)
  Lemma settled_emit e m : is_switch e = false -> settled m -> settled (emit e m).
  Proof.
    intros He ((Hk & Hi) & Had). split; [|exact Had]. unfold viewinv, advinv.
    rewrite (got_emit e m He), adv_spaces_app, headers_of_app. split.
    - exact (incl_appl _ Hk).
    - exact (info_from_mono _ _ _ (incl_appl _ (incl_refl _)) Hi).
  Qed.

  Lemma settled_read rp m m' r : read rp m = (m', r) -> settled m -> settled m'.
  Proof.
    intros H S. destruct (read_inv _ _ _ _ H) as [(_ & ->)|(it & rest & _ & _ & ->)]; apply settled_emit; try reflexivity; exact S.
  Qed.

  Lemma settled_noted f o m : settled m -> settled (noted f o m).
  Proof. unfold noted. destruct (o_err o); exact (fun H => H). Qed.

  (* the header just delivered is one of the protected stream, if there is one *)
  Lemma header_view m m1 sp h n :
    read RPHeader m = (m1, Some (mkItem sp (PHeader h))) -> settled m ->
    n = assign h (m_info m1) \/ n = fix_to c (assign h (m_info m1)) -> viewinv (set_info n m1).
  Proof.
    intros Er S. apply viewinv_assign; [exact (proj1 (settled_read _ _ _ _ Er S))|].
    destruct (read_inv _ _ _ _ Er) as [(Hx & _)|(it & rest & _ & Hx & ->)]; [discriminate|]. inversion Hx; subst it.
    rewrite got_read, headers_of_app. apply in_or_app. right. left. reflexivity.
  Qed.

  (* the children still to be read were delivered on the protected stream, if there is one *)
  Definition pending (cs : list fchild) (m : mstate) : Prop := incl (child_spaces cs) (adv_spaces (got m)).

  Lemma settled_add sp m :
    settled m -> In sp (adv_spaces (got m)) -> settled (add_adv sp m).
  Proof.
    intros ((Hk & Hi) & Hrest) Hp. split; [|exact Hrest]. split; [|exact Hi].
    intros x [<-|Hx]; [exact Hp|exact (Hk x Hx)].
  Qed.

  (* A call that fails need not have checked the addresses of the header it
     read.  The pending-handshake flag is named only where the layer is switched:
     whether the next call runs the handshake does not matter here, only that
     nothing clears the flag before the stream is restarted ([infoinv]). *)
  Definition ainv (p : point) (m : mstate) : Prop :=
    match p with
    | AtChildren _ cs _ _ _ => settled m /\ pending cs m
    | AtRet (Good x) => settled m \/ (x = (st_Secure, true) /\ m_hs m = true /\ addr_ok c m)
    | AtRet _ => viewinv m
    | _ => settled m
    end.

  Lemma ainv_ret r m : settled m -> ainv (AtRet r) m.
  Proof. intro H. destruct r as [x|e|]; [left; exact H|exact (proj1 H)..]. Qed.

  Lemma ainv_step p m p' m' : cstep c ns p m p' m' -> ainv p m -> ainv p' m'.
  Proof.
    destruct 1; cbn zeta; cbn [ainv].
    - (* c_plain *) auto.
    - (* c_send *) apply settled_emit. reflexivity.
    - (* c_shake *) intro H.
      assert (settled (emit (EHandshake (c_hs_ok c)) (set_hs false m))) as H1
        by (apply settled_emit; [reflexivity|exact H]).
      destruct (c_hs_ok c); [exact (settled_emit (EOut WHeader) _ eq_refl H1)|exact (proj1 H1)].
    - (* c_no_header *) intro H. exact (proj1 (settled_read _ _ _ _ Er H)).
    - (* c_header *) intro H. destruct (header_of_some _ _ Eh) as (sp & ->). subst n.
      destruct (header_ok c (assign h (m_info m1))) eqn:Eok; cbn [ainv]; [split; [|exact (header_ok_addr _ _ Eok)]|];
        apply (header_view _ _ _ _ _ Er H); auto.
    - (* c_no_list *) intro H. exact (proj1 (settled_read _ _ _ _ Er H)).
    - (* c_list: the item just delivered is the features list whose children are read *)
      intro H. split; [exact (settled_read _ _ _ _ Er H)|].
      apply features_of_some in Ef. subst x.
      destruct (read_inv _ _ _ _ Er) as [(Hx & _)|(it & rest & _ & Hx & ->)]; [discriminate|]. inversion Hx; subst it.
      unfold pending. rewrite got_read, adv_spaces_app. cbn. rewrite !app_nil_r.
      apply incl_appr, incl_refl.
    - (* c_text *) intros ((V & _) & _). exact V.
    - (* c_unknown *) intros (H & Hp). split; [|intros x Hx; apply Hp; right; exact Hx].
      apply settled_add; [exact H|]. apply Hp. left. reflexivity.
    - (* c_known *) intros (H & Hp).
      assert (settled (emit (EParse f) (add_adv sp m))) as H1.
      { apply settled_emit; [reflexivity|]. apply settled_add; [exact H|]. apply Hp. left. reflexivity. }
      destruct perr; cbn [ainv]; [exact (proj1 H1)|]. split; [exact H1|].
      unfold pending. rewrite got_emit by reflexivity. cbn [ins_of flat_map]. rewrite app_nil_r.
      intros x Hx. apply Hp. right. exact Hx.
    - (* c_stored *) intros (H & _). exact H.
    - (* c_forced *) auto.
    - (* c_normal *) intro H. destruct (m_total m); [|destruct (m_allowed m)]; [exact (ainv_ret _ m H)|exact (proj1 H)|exact H].
    - (* c_choice *) exact (fun H => H).
    - (* c_stuck *) intros (V & _). exact V.
    - (* c_done *) exact (ainv_ret (Good _) m).
    - (* c_abstract *) intro H.
      assert (settled m') as H1
        by (apply settled_noted, settled_emit; [reflexivity|exact H]).
      destruct (verdict f o req m') as [[y|]|e|]; cbn [goes_on]; [exact (ainv_ret _ _ H1)|exact H1|exact (ainv_ret _ _ H1)..].
    - (* c_starttls: refused, or the layer is switched and the call comes back at once *)
      intro H. assert (settled m2) as S2 by exact (settled_read _ _ _ _ Er (settled_emit (EOut starttls_request) _ eq_refl H)).
      destruct (is_proceed x); subst o m3; cbn [ainv].
      + right. split; [reflexivity|]. split; [reflexivity|]. exact (proj2 S2).
      + exact (proj1 (settled_noted _ _ _ (settled_emit (ENeg f (m_bits m) refuses) _ eq_refl S2))).
  Qed.
End AdvCall.

(* at the head of the loop; the premise excludes the one state in which the
   stale info of the clear-text stream is still there: layer just installed
   (handshake pending) and the Ready bit already set, so that the loop ends
   without the stream ever being restarted *)
Definition infoinv (m : mstate) : Prop :=
  m_hs m = false \/ has (m_bits m) st_Ready = false -> info_from (headers_of (got m)) (m_info m).

Definition loopinv (c : config) (m : mstate) : Prop := advinv m /\ infoinv m /\ addr_ok c m.

(* what holds of every state the loop can end in *)
Definition endinv (m : mstate) : Prop :=
  advinv m /\ (m_hs m = false -> info_from (headers_of (got m)) (m_info m)).

Lemma loopinv_end c m : loopinv c m -> endinv m.
Proof. intros (Hk & Hi & _). split; [exact Hk|]. intro Hh. apply Hi; auto. Qed.

Lemma renew_info_cases m :
  (has (m_bits m) st_Ready = true /\ renew_info m = m) \/
  (has (m_bits m) st_Ready = false /\ renew_info m = set_info (keep_addr (m_info m)) m).
Proof. unfold renew_info. destruct (has (m_bits m) st_Ready); auto. Qed.

Lemma loopinv_restart c m :
  m_adv m = [] -> (has (m_bits m) st_Ready = true -> infoinv m) -> addr_ok c m -> loopinv c (renew_info m).
Proof.
  intros Ha Hi Had.
  destruct (renew_info_cases m) as [(Er & ->)|(Er & ->)];
    (split; [intros x Hx; cbn [m_adv set_info] in Hx; rewrite Ha in Hx; destruct Hx|]); (split; [|exact Had]).
  - exact (Hi Er).
  - intros _. apply info_from_keep.
Qed.

Lemma loopinv_call c m ns m' r :
  loopinv c m -> has (m_bits m) st_Ready = false -> negotiator_body c m ns = (m', r) ->
  match r with
  | Good (mask, restart, _) => loopinv c (next_state restart mask m')
  | _ => endinv m'
  end.
Proof.
  intros (Hk & Hi & Had) Er E.
  assert (viewinv m) as V by (split; [exact Hk|apply Hi; auto]).
  destruct (negotiator_body_at c _ _ (ainv_step c ns) _ _ _ E (conj V Had)) as (r' & -> & H).
  destruct r' as [[mask restart]|e|]; cbn [call_result ainv] in *; [|destruct H; split; auto..].
  destruct H as [((Hk2 & Hi2) & Had2)|(Hx & Hh2 & Had2)].
  - (* no layer switched *)
    unfold next_state. destruct restart; [|exact (conj Hk2 (conj (fun _ => Hi2) Had2))].
    apply loopinv_restart; [reflexivity| |exact Had2]. intros _ _. exact Hi2.
  - (* the layer was switched: the stream is restarted *)
    inversion Hx; subst. unfold next_state.
    apply loopinv_restart; [reflexivity| |exact Had2].
    intros Er' [Hy|Hy]; [cbn in Hy|]; congruence.
Qed.

Lemma run_endinv tee c fv bits clear tls outs choices :
  let r := run tee c fv bits clear tls outs choices in
  endinv (r_state r) /\ (r_class r = ROk -> addr_ok c (r_state r)).
Proof.
  rewrite run_plain. apply (loop_rule false c (fun l => loopinv c (l_m l))
           (fun r => endinv (r_state r) /\ (r_class r = ROk -> addr_ok c (r_state r))))
    with (l := mkL _ None false 0).
  - intros l Hl. split; [exact (loopinv_end _ _ Hl)|discriminate].
  - intros l Hl.
    destruct (loop_step_cases false c l); cbn [l_m].
    + (* ls_ready *) split; [exact (loopinv_end _ _ Hl)|intros _; exact (proj2 (proj2 Hl))].
    + (* ls_tee *) discriminate.
    + (* ls_next *) exact (loopinv_call _ _ _ _ _ Hl Er E).
    + (* ls_bad *) split; [exact (loopinv_call _ _ _ _ _ Hl Er E)|discriminate].
    + (* ls_stuck, likewise *) split; [exact (loopinv_call _ _ _ _ _ Hl Er E)|discriminate].
  - unfold loopinv, advinv, infoinv, addr_ok, init_state; cbn. repeat split; try (left; reflexivity). intros x [].
Qed.

Lemma run_adv tee c fv bits clear tls outs choices :
  let r := run tee c fv bits clear tls outs choices in
  switched (trace r) = true ->
  incl (m_adv (r_state r)) (adv_spaces (ins_of (after_switch (trace r)))) /\
  incl (m_adv (r_state r)) (adv_spaces tls).
Proof.
  intros r Hsw. destruct (run_endinv tee c fv bits clear tls outs choices) as ((Hk & _) & _). fold r in Hk.
  unfold advinv, got, cur in Hk. unfold trace in *. rewrite Hsw in Hk. split; [exact Hk|].
  destruct (acct_final clear tls _ (run_acct tee c fv bits clear tls outs choices)) as (_ & rest & Hr).
  fold r in Hr. intros x Hx. apply Hk in Hx. rewrite <- Hr, adv_spaces_app.
  apply in_or_app. left. exact Hx.
Qed.

Lemma run_info tee c fv bits clear tls outs choices :
  let r := run tee c fv bits clear tls outs choices in
  switched (trace r) = true -> m_hs (r_state r) = false ->
  info_from (headers_of (ins_of (after_switch (trace r)))) (m_info (r_state r)) /\
  info_from (headers_of tls) (m_info (r_state r)).
Proof.
  intros r Hsw Hh. destruct (run_endinv tee c fv bits clear tls outs choices) as ((_ & Hi) & _). fold r in Hi.
  pose proof (Hi Hh) as Hx. unfold got, cur in Hx. unfold trace in *. rewrite Hsw in Hx. split; [exact Hx|].
  destruct (acct_final clear tls _ (run_acct tee c fv bits clear tls outs choices)) as (_ & rest & Hr).
  fold r in Hr. eapply info_from_mono; [|exact Hx].
  rewrite <- Hr, headers_of_app. apply incl_appl, incl_refl.
Qed.
