(* C02/Properties.v — the property theorems of C02 and nothing else.
   "A client asked to use STARTTLS never proceeds in clear text."

   Every theorem quantifies over: the tee setting, the configuration c (any
   list of features admitted by [c02_config]: the real STARTTLS feature and
   otherwise only features that need Secure or Authn; any TLS-handshake oracle;
   any domain), the variable captured by the StartTLS feature value (explicit
   or nil TLS config), the initial state bits admitted by [c02_bits], the
   peer's clear-text script and TLS-layer script (any items: headers good or
   bad, feature lists with any children, stream errors, any element, garbage,
   with or without leading white space, ending anywhere), the scripted outcomes
   of the other features and the observed map-iteration choices. *)
From XV Require Import lib.Bytes lib.ListAux gen.NegTables gen.C02Restart C02.Model C02.Frame C02.Phase C02.Adv C02.Inter C02.Proofs.

(* In clear text the session writes nothing but a stream header followed by at
   most one STARTTLS request: what it wrote before a TLS layer was installed is
   a prefix of [header; <starttls/>]. *)
Theorem C02_clear_wire_only_header_and_starttls :
  forall tee c fv bits clear tls outs choices,
  c02_config c = true -> c02_bits bits = true ->
  let tr := trace (run tee c fv bits clear tls outs choices) in
  prefix_of witem_eqb (outs_of (before_switch tr)) [WHeader; starttls_request] = true /\
  Forall (fun w => clear_allowed w = true) (outs_of (before_switch tr)).
Proof.
  intros tee c fv bits clear tls outs choices Hc Hb tr.
  destruct (run_final c Hc bits Hb tee fv clear tls outs choices) as (p & (Ha & _) & _).
  destruct (aut_facts bits _ _ Ha) as (_ & Ho & _). unfold tr, trace. rewrite Ho. apply couts_allowed.
Qed.
Print Assumptions C02_clear_wire_only_header_and_starttls.

(* The session is established only over TLS: a result without error means a
   TLS layer was installed, its handshake ran and succeeded (and was given the
   configured name or, with a nil config, the session's own domain), the
   Secure bit is set. *)
Theorem C02_ready_implies_tls :
  forall tee c fv bits clear tls outs choices,
  c02_config c = true -> c02_bits bits = true ->
  let r := run tee c fv bits clear tls outs choices in
  r_class r = ROk ->
  switched (trace r) = true /\ handshakes (trace r) = [true] /\ c_hs_ok c = true /\
  has (r_bits r) st_Secure = true /\ has (r_bits r) st_Ready = true /\ m_tls (r_state r) = true /\
  server_names (trace r) = [name_for c fv].
Proof.
  intros tee c fv bits clear tls outs choices Hc Hb r Hok.
  destruct (run_final c Hc bits Hb tee fv clear tls outs choices) as (p & (Ha & Hph) & Hbits & Hcl).
  fold r in Ha, Hbits, Hph, Hcl. rewrite (Hcl Hok) in *.
  destruct (aut_facts bits _ _ Ha) as (Hsw & _ & Hh & _ & _ & Hlen). cbn [sw hsk] in Hsw, Hh, Hlen.
  destruct Hph as (Hsec & Htls & _ & Hhs). unfold trace. rewrite Hbits. repeat split; auto.
  - apply session_loop_ok_ready. exact Hok.
  - destruct (run_fvinv tee c fv bits clear tls outs choices) as (_ & Hn). fold r in Hn. unfold trace in *.
    destruct (server_names (m_tr (r_state r))) as [|n [|n2 l]]; cbn in Hlen; try discriminate.
    inversion Hn; subst. reflexivity.
Qed.
Print Assumptions C02_ready_implies_tls.

(* Until a TLS layer is in place nothing moves: every read and every callback
   sees the initial state bits (so never Ready, Secure or Authn), the only
   Negotiate that runs is STARTTLS's, a TLS layer is installed at most once,
   and a run that never installs one ends with the initial bits, not
   established, with no handshake attempted. *)
Theorem C02_no_progress_in_clear :
  forall tee c fv bits clear tls outs choices,
  c02_config c = true -> c02_bits bits = true ->
  let r := run tee c fv bits clear tls outs choices in
  Forall (fun st => st = bits) (bits_seen (before_switch (trace r))) /\
  Forall (fun f => f_kind f = KStartTLS) (negs_of (before_switch (trace r))) /\
  length (server_names (trace r)) <= 1 /\
  (switched (trace r) = false ->
   r_bits r = bits /\ r_class r <> ROk /\ handshakes (trace r) = [] /\ m_tls (r_state r) = false).
Proof.
  intros tee c fv bits clear tls outs choices Hc Hb r.
  destruct (run_final c Hc bits Hb tee fv clear tls outs choices) as (p & (Ha & Hph) & Hbits & Hcl).
  fold r in Ha, Hbits, Hph, Hcl.
  destruct (aut_facts bits _ _ Ha) as (Hsw & _ & Hh & Hbs & Hn & Hlen). unfold trace.
  split; [exact Hbs|]. split.
  { eapply Forall_impl; [|exact Hn]. intros f Hf. apply kind_of_tls. exact Hf. }
  split; [rewrite Hlen; destruct (sw p); auto|].
  intro Hns. rewrite Hns in Hsw.
  destruct p; cbn [sw] in Hsw; try discriminate; cbn [hsk] in Hh; destruct Hph as (Hb0 & Ht);
    (repeat split; [congruence|intro Hok; discriminate (Hcl Hok)|exact Hh|apply Ht]).
Qed.
Print Assumptions C02_no_progress_in_clear.

(* The outcome is always a result or an error: the model's fuel never runs out. *)
Theorem C02_outcome_total :
  forall tee c fv bits clear tls outs choices,
  r_class (run tee c fv bits clear tls outs choices) <> RFuel.
Proof. exact run_not_fuel. Qed.
Print Assumptions C02_outcome_total.

(* Clear text is never interpreted as part of the protected stream: what the
   session consumed before the layer switch is a prefix of the clear-text
   script, what it consumed afterwards is a prefix of the TLS-layer script —
   clear-text items still pending at the switch (pipelined behind <proceed/>)
   are never delivered.  For every configuration.  (In the model this is input
   accounting: [switch_layer] drops the pending clear text by definition; that
   the code does the same is what the harness compares, [y_tlsread].) *)
Theorem C02_cleartext_not_reinterpreted :
  forall tee c fv bits clear tls outs choices,
  let tr := trace (run tee c fv bits clear tls outs choices) in
  (exists rest, ins_of (before_switch tr) ++ rest = clear) /\
  (exists rest, ins_of (after_switch tr) ++ rest = tls).
Proof. intros. apply acct_final, run_acct. Qed.
Print Assumptions C02_cleartext_not_reinterpreted.

(* Nor does it survive as state of the protected stream: once a TLS layer has
   been installed, every name space the session reports as advertised
   (Session.Feature, the keys of s.features) was a child of a features list
   consumed after the switch, hence of a features list of the TLS-layer script;
   what the peer advertised in clear text is forgotten.  For every
   configuration, whatever the outcome. *)
Theorem C02_features_from_protected_stream_only :
  forall tee c fv bits clear tls outs choices,
  let r := run tee c fv bits clear tls outs choices in
  switched (trace r) = true ->
  incl (m_adv (r_state r)) (adv_spaces (ins_of (after_switch (trace r)))) /\
  incl (m_adv (r_state r)) (adv_spaces tls).
Proof. exact run_adv. Qed.
Print Assumptions C02_features_from_protected_stream_only.

(* ... in particular on every established session of an admitted configuration. *)
Theorem C02_established_features_from_tls :
  forall tee c fv bits clear tls outs choices,
  c02_config c = true -> c02_bits bits = true ->
  let r := run tee c fv bits clear tls outs choices in
  r_class r = ROk -> incl (m_adv (r_state r)) (adv_spaces tls).
Proof.
  intros tee c fv bits clear tls outs choices Hc Hb r Hok.
  apply run_adv, (C02_ready_implies_tls tee c fv bits clear tls outs choices Hc Hb Hok).
Qed.
Print Assumptions C02_established_features_from_tls.

(* The same for Session.In() (s.in.Info): once a TLS layer has been installed and
   its handshake has run, the stream id, version, xml:lang and content name
   space the session reports are each zero or the value of that attribute in a
   stream header consumed after the switch, hence in a header of the TLS-layer
   script: an attribute the protected header omits does not keep the value the
   clear-text header gave it.  For every configuration, whatever the outcome.
   (The one state excluded by the second premise — layer installed, handshake
   pending — is a final state only when the Ready bit was set before the
   restart; C02_ready_implies_tls shows that an admitted configuration never
   ends there.) *)
Theorem C02_info_from_protected_stream_only :
  forall tee c fv bits clear tls outs choices,
  let r := run tee c fv bits clear tls outs choices in
  switched (trace r) = true -> m_hs (r_state r) = false ->
  info_from (headers_of (ins_of (after_switch (trace r)))) (m_info (r_state r)) /\
  info_from (headers_of tls) (m_info (r_state r)).
Proof. exact run_info. Qed.
Print Assumptions C02_info_from_protected_stream_only.

(* ... on every established session of an admitted configuration, where moreover
   from/to are the addresses the session was created with. *)
Theorem C02_established_info_from_tls :
  forall tee c fv bits clear tls outs choices,
  c02_config c = true -> c02_bits bits = true ->
  let r := run tee c fv bits clear tls outs choices in
  r_class r = ROk ->
  info_from (headers_of tls) (m_info (r_state r)) /\
  n_from (m_info (r_state r)) = c_loc c /\ n_to (m_info (r_state r)) = c_orig c.
Proof.
  intros tee c fv bits clear tls outs choices Hc Hb r Hok.
  destruct (run_final c Hc bits Hb tee fv clear tls outs choices) as (p & (Ha & Hph) & _ & Hcl). fold r in Ha, Hph, Hcl.
  rewrite (Hcl Hok) in *. destruct Hph as (_ & _ & Hhs & _).
  destruct (aut_facts bits _ _ Ha) as (Hsw & _). cbn [sw] in Hsw.
  split; [exact (proj2 (run_info tee c fv bits clear tls outs choices Hsw Hhs))|].
  destruct (run_endinv tee c fv bits clear tls outs choices) as (_ & Haddr). exact (Haddr Hok).
Qed.
Print Assumptions C02_established_info_from_tls.

(* One StartTLS(nil) feature value used for any number of sessions, one after
   the other: every handshake of session i is given the domain of session i's
   own address, whatever happened in the sessions before. *)
Theorem C02_servername_is_own_domain :
  forall ss : list sess,
  Forall2 (fun s r => Forall (fun n => n = c_domain (s_cfg s)) (server_names (trace r)))
          ss (run_sessions None ss).
Proof. intro ss. exact (run_sessions_names ss None). Qed.
Print Assumptions C02_servername_is_own_domain.

(* The same when the sessions OVERLAP, whatever the captured TLS config: the
   captured variable is global state and the sessions take turns, one
   negotiator call at a time, in any order (schedule = list of session indices,
   of any length).  The variable is never changed, every layer switch of every
   session is given the configured name or, with a nil config, that session's
   own domain, and a session that has finished has exactly the result it has
   when run alone. *)
Theorem C02_interleaving_changes_nothing :
  forall (sched : list nat) fv (ss : list sess),
  let out := sched_run sched fv (map (start_sess fv) ss) in
  fst out = fv /\
  Forall2 (fun s0 s =>
             Forall (fun n => n = name_for (s_cfg s0) fv) (server_names (m_tr (pstate (is_prog s)))) /\
             (forall r, is_prog s = Done r -> r = run_sess fv s0))
          ss (snd out).
Proof.
  intros sched fv ss out. destruct (interleaved_sessions sched fv ss) as (H1 & H2). split; [exact H1|].
  eapply Forall2_mono; [|exact H2]. intros s0 s (A & B & _). auto.
Qed.
Print Assumptions C02_interleaving_changes_nothing.

(* With StartTLS(nil): every layer switch names the session's own domain. *)
Theorem C02_servername_under_interleaving :
  forall (sched : list nat) (ss : list sess),
  let out := sched_run sched None (map (start_sess None) ss) in
  fst out = None /\
  Forall2 (fun s0 s =>
             Forall (fun n => n = c_domain (s_cfg s0)) (server_names (m_tr (pstate (is_prog s)))) /\
             (forall r, is_prog s = Done r -> r = run_sess None s0))
          ss (snd out).
Proof. intros sched ss. exact (C02_interleaving_changes_nothing sched None ss). Qed.
Print Assumptions C02_servername_under_interleaving.

(* The forced STARTTLS attempt on the first features list is a matter of each
   session's own history, also when sessions share one Negotiator value: for
   every schedule, the `first` argument of a session's next negotiateFeatures
   call is true exactly when that session has made no such call yet.  Together
   with C02_interleaving_changes_nothing (a finished session has the result it
   has alone) the clauses proved for one session hold for every session of
   every history.  Read from negotiator.go on every run: the closure returned
   by negotiator() assigns to none of its captured variables but cfg. *)
Theorem C02_first_list_per_session :
  (forall (sched : list nat) fv (ss : list sess),
     Forall (fun s => match is_prog s with
                      | Running l => next_first l = Nat.eqb (l_calls l) 0
                      | Done _ => True
                      end)
            (snd (sched_run sched fv (map (start_sess fv) ss)))) /\
  forallb (fun v => bytes_eqb v (str "cfg")) negotiator_writes = true.
Proof.
  split; [|vm_compute; reflexivity]. intros sched fv ss.
  destruct (interleaved_sessions sched fv ss) as (_ & H2).
  eapply Forall2_Forall_r, Forall2_mono; [|exact H2]. intros s0 s (_ & _ & Hf). exact Hf.
Qed.
Print Assumptions C02_first_list_per_session.

(* At any granularity: no sequence of primitive steps of any model function
   writes the captured variable; and, read from starttls.go on every run, the
   Negotiate closure of StartTLS assigns to none of the variables it captures. *)
Theorem C02_captured_state_never_written :
  (forall c m m', evolves c m m' -> m_fv m' = m_fv m) /\ starttls_negotiate_writes = [].
Proof.
  split; [exact evolves_fv|vm_compute; reflexivity].
Qed.
Print Assumptions C02_captured_state_never_written.

(* One StartTLS(cfg) feature value with an explicit config, used for any number
   of sessions one after the other: every handshake is given that config's name. *)
Theorem C02_servername_is_configured :
  forall (ss : list sess) n0,
  Forall2 (fun s r => Forall (fun n => n = n0) (server_names (trace r)))
          ss (run_sessions (Some n0) ss).
Proof. intros ss n0. exact (run_sessions_names ss (Some n0)). Qed.
Print Assumptions C02_servername_is_configured.

(* Turning on the stream tee changes nothing: the whole result (outcome, final
   state, every event including what is written and read) is the same.  For
   every configuration. *)
Theorem C02_tee_invariant :
  forall c fv bits clear tls outs choices,
  run true c fv bits clear tls outs choices = run false c fv bits clear tls outs choices.
Proof. exact run_tee_invariant. Qed.
Print Assumptions C02_tee_invariant.

(* The premise [c02_config] is met by the code's own features: as declared in
   starttls.go, sasl.go and bind.go (tables regenerated from the source),
   STARTTLS needs nothing and is prohibited once Secure, SASL needs Secure,
   resource binding needs Authn. *)
Theorem C02_builtin_features_admitted :
  forall hs dom loc orig,
  c02_config (mkCfg [starttls_feature; sasl_feature; bind_feature] hs dom loc orig) = true /\
  c02_config (mkCfg [bind_feature; sasl_feature; starttls_feature] hs dom loc orig) = true /\
  gated starttls_feature = true /\ gated sasl_feature = true /\ gated bind_feature = true.
Proof. vm_compute. auto. Qed.
Print Assumptions C02_builtin_features_admitted.

(* The restart block of negotiateSession, as read from session.go on every run,
   is the one the model's [reset_stream] / [switch_layer] stand for: the
   advertised-features map and the negotiated map are each emptied, decoder and
   encoder are renewed on the new connection, and both stream infos are reset
   to their To/From before the negotiator is called again. *)
Theorem C02_restart_block_as_modelled :
  clears (str "features") = true /\ clears (str "negotiated") = true /\
  restart_renews_decoder = true /\ restart_renews_encoder = true /\
  mem (str "s.in.Info") restart_resets_info = true /\ mem (str "s.out.Info") restart_resets_info = true.
Proof. vm_compute. repeat split; reflexivity. Qed.
Print Assumptions C02_restart_block_as_modelled.

Theorem C02_sasl_requires_secure : N.land ft_sasl_nec st_Secure = st_Secure.
Proof. exact sasl_requires_secure. Qed.
Print Assumptions C02_sasl_requires_secure.

Theorem C02_bind_requires_authn : N.land ft_bind_nec st_Authn = st_Authn.
Proof. exact bind_requires_authn. Qed.
Print Assumptions C02_bind_requires_authn.
