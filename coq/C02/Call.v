(* C02/Call.v — one call of the negotiator (negotiator_body) as a transition
   system between its control points: [cstep] lists everything that can happen
   at each of them, with the state it leaves behind written out.  The model's
   functions are followed once, in [negotiator_body_at]; what is proved of a
   call elsewhere is an invariant of [cstep], shown step by step.  The system
   allows a little more than the model does (a choice may be consumed and the
   loop may get stuck at any time, any candidate may be picked whatever Go's
   order would have been): more than enough for invariants. *)
From XV Require Import lib.Bytes gen.NegTables C02.Model.

Inductive point :=
| AtCall                            (* past the tee branch *)
| AtExpect                          (* own header sent, the peer's is due *)
| AtFeatures                        (* negotiateFeatures entered *)
| AtChildren (al : nat) (cs : list fchild) (ca : cache) (tot : nat) (lr : bool)
    (* readStreamFeatures' loop: the children still to read, the cache, the count
       and the `req` flag so far; [al] is `allowed`, known once the list has arrived *)
| AtDecide                          (* the features list is read and stored *)
| AtSelect (forced : option feature)   (* head of the selection loop *)
| AtRet (r : res (N * bool)).       (* negotiateFeatures returns *)

(* the feature negotiateFeatures insists on although the peer did not offer it *)
Definition forced_of (c : config) (m : mstate) (first : bool) : option feature :=
  if first && negb (match cache_get ns_StartTLS (m_cache m) with Some _ => true | None => false end)
     && negb (has (m_bits m) st_Secure)
  then match find_space ns_StartTLS (c_feats c) with
       | Some f => if f_neg f && eligible f (m_bits m) then Some f else None
       | None => None
       end
  else None.

Definition picks (forced : option feature) (m : mstate) (req : bool) (f : feature) : Prop :=
  match forced with Some g => req = true /\ f = g | None => In (req, f) (candidates m) end.

(* after_pick once Negotiate has returned [o] in state [m1]: the bookkeeping, and what the loop does next *)
Definition noted (f : feature) (o : outcome) (m1 : mstate) : mstate :=
  let m2 := if o_err o then m1
            else set_ready (m_ready m1 || has (o_mask o) st_Ready)
                           (set_bits (N.lor (m_bits m1) (N.ldiff (o_mask o) st_Ready)) m1) in
  set_negd (f_space f :: m_negd m2) m2.

Definition verdict (f : feature) (o : outcome) (req : bool) (m3 : mstate) : res (option (N * bool)) :=
  if o_err o then Bad (feature_err f)
  else if o_restart o || req then
    Good (Some (N.lor (N.ldiff (o_mask o) st_Ready)
                      (if negb (o_restart o) && (m_ready m3 || negb (m_lreq m3)) then st_Ready else 0%N),
                o_restart o))
  else Good None.

Definition goes_on (forced : option feature) (v : res (option (N * bool))) : point :=
  match v with
  | Good (Some x) => AtRet (Good x)
  | Good None => AtSelect forced
  | Bad e => AtRet (Bad e)
  | Stuck => AtRet Stuck
  end.

Definition on_good {A} (r : res A) (p : point) : point :=
  match r with Good _ => p | Bad e => AtRet (Bad e) | Stuck => AtRet Stuck end.

Definition proceeds : outcome := mkO st_Secure true false.
Definition refuses : outcome := mkO 0%N false true.

(* [ns]: the negotiator state the call was entered with.  The premises are named:
   the proofs by cases on a step refer to them by these names. *)
Inductive cstep (c : config) (ns : nstate) : point -> mstate -> point -> mstate -> Prop :=
(* the header exchange, when a restart is due *)
| c_plain m (Ens : ns_restart ns = false) : cstep c ns AtCall m AtFeatures m
| c_send m (Ens : ns_restart ns = true) (Eth : m_tls m && m_hs m = false) :
    cstep c ns AtCall m AtExpect (emit (EOut WHeader) m)
| c_shake m (Ens : ns_restart ns = true) (Et : m_tls m = true) (Eh : m_hs m = true) :
    cstep c ns AtCall m
      (if c_hs_ok c then AtExpect else AtRet (Bad EOther))
      (let m1 := emit (EHandshake (c_hs_ok c)) (set_hs false m) in if c_hs_ok c then emit (EOut WHeader) m1 else m1)
| c_no_header m m1 x (Er : read RPHeader m = (m1, x)) (Eh : header_of x = None) :
    cstep c ns AtExpect m (AtRet (Bad EOther)) m1
| c_header m m1 x h (Er : read RPHeader m = (m1, x)) (Eh : header_of x = Some h) :
    let n := assign h (m_info m1) in
    cstep c ns AtExpect m
      (if header_ok c n then AtFeatures else AtRet (Bad EOther))
      (set_info (if header_ok c n then fix_to c n else n) m1)
(* readStreamFeatures *)
| c_no_list m m1 x (Er : read RPFeatures m = (m1, x)) (Ef : features_of x = None) :
    cstep c ns AtFeatures m (AtRet (Bad EOther)) m1
| c_list m m1 x cs (Er : read RPFeatures m = (m1, x)) (Ef : features_of x = Some cs) :
    cstep c ns AtFeatures m (AtChildren (allowed_of (c_feats c) (m_bits m1) cs) cs [] 0 false) m1
| c_text al cs ca tot lr m : cstep c ns (AtChildren al (FCText :: cs) ca tot lr) m (AtRet (Bad EOther)) m
| c_unknown al sp lo req perr cs ca tot lr m (Eg : get_feature (sp, lo) (c_feats c) = None) :
    cstep c ns (AtChildren al (FC sp lo req perr :: cs) ca tot lr) m (AtChildren al cs ca (S tot) lr) (add_adv sp m)
| c_known al sp lo req perr cs ca tot lr m f (Eg : get_feature (sp, lo) (c_feats c) = Some f) :
    cstep c ns (AtChildren al (FC sp lo req perr :: cs) ca tot lr) m
      (if perr then AtRet (Bad EFeature) else AtChildren al cs (cache_put (req, f) ca) (S tot) (lr || req))
      (emit (EParse f) (add_adv sp m))
| c_stored al ca tot lr m : cstep c ns (AtChildren al [] ca tot lr) m AtDecide (set_list ca tot al lr m)
(* the forced-STARTTLS rule and the exits before the selection loop *)
| c_forced m f (Ef : forced_of c m (ns_first ns) = Some f) : cstep c ns AtDecide m (AtSelect (Some f)) m
| c_normal m (Ef : forced_of c m (ns_first ns) = None) :
    cstep c ns AtDecide m
      (match m_total m, m_allowed m with
       | O, _ => AtRet (Good (st_Ready, false))
       | _, O => AtRet (Bad EOther)
       | _, _ => AtSelect None
       end) m
(* the selection loop: an observed choice is consumed; it was not one the code
   could have made; nothing is left to negotiate; a feature is negotiated *)
| c_choice forced m ch : cstep c ns (AtSelect forced) m (AtSelect forced) (set_choices ch m)
| c_stuck forced m : cstep c ns (AtSelect forced) m (AtRet Stuck) m
| c_done m (Hn : candidates m = []) : cstep c ns (AtSelect None) m (AtRet (Good (st_Ready, false))) m
| c_abstract forced m req f (Hp : picks forced m req f) (Ek : f_kind f = KAbstract) :
    let o := hd default_outcome (m_outs m) in
    let m' := noted f o (emit (ENeg f (m_bits m) o) (set_outs (tl (m_outs m)) m)) in
    cstep c ns (AtSelect forced) m (goes_on forced (verdict f o req m')) m'
| c_starttls forced m req f m2 x (Hp : picks forced m req f) (Ek : f_kind f = KStartTLS)
    (Er : read RPReply (emit (EOut starttls_request) m) = (m2, x)) :
    let o := if is_proceed x then proceeds else refuses in
    let m3 := if is_proceed x then emit (ESwitch (tls_name c m2)) (switch_layer m2) else m2 in
    cstep c ns (AtSelect forced) m
      (AtRet (if is_proceed x then Good (st_Secure, true) else Bad EOther))
      (noted f o (emit (ENeg f (m_bits m) o) m3)).

Lemma select_inv m :
  let '(m', r) := select m in
  (m' = m \/ exists ch, m' = set_choices ch m) /\
  match r with
  | Good (Some e) => In e (candidates m)
  | Good None => candidates m = []
  | Bad _ => False
  | Stuck => True
  end.
Proof.
  unfold select. destruct (candidates m) as [|e0 cands]; [auto|].
  destruct (m_choices m) as [|ch rest]; [auto|].
  destruct (cache_get ch (e0 :: cands)) as [e|] eqn:Eg; [|eauto].
  destruct (fst e && existsb (fun x => negb (fst x)) (e0 :: cands)); split; eauto.
  induction (e0 :: cands) as [|x ca IH]; cbn in Eg; [discriminate|].
  destruct (bytes_eqb (ckey x) ch); [inversion Eg; left; reflexivity|right; exact (IH Eg)].
Qed.

(* what negotiator_body makes of negotiateFeatures' result *)
Definition call_result (r : res (N * bool)) : res (N * bool * nstate) :=
  match r with
  | Good (mask, restart) => Good (mask, restart, mkNS restart false)
  | Bad e => Bad e
  | Stuck => Stuck
  end.

Lemma after_pick_eq c m req f :
  after_pick c m req f = let '(m1, o) := negotiate_one c m f in (noted f o m1, verdict f o req (noted f o m1)).
Proof.
  unfold after_pick, noted, verdict. destruct (negotiate_one c m f) as [m1 o].
  destruct (o_err o); [reflexivity|]. destruct (o_restart o || req); reflexivity.
Qed.

Section Rule.
  Variables (c : config) (ns : nstate) (I : point -> mstate -> Prop).
  Hypothesis Hstep : forall p m p' m', cstep c ns p m p' m' -> I p m -> I p' m'.

  Lemma after_pick_at forced m req f :
    picks forced m req f -> I (AtSelect forced) m ->
    let '(m', v) := after_pick c m req f in I (goes_on forced v) m'.
  Proof.
    intros Hp Hm. rewrite after_pick_eq. unfold negotiate_one, starttls_negotiate.
    destruct (f_kind f) eqn:Ek; [exact (Hstep _ _ _ _ (c_abstract c ns forced m req f Hp Ek) Hm)|].
    change (WElem ns_StartTLS str_starttls) with starttls_request.
    destruct (read RPReply (emit (EOut starttls_request) m)) as [m2 x] eqn:Er.
    pose proof (Hstep _ _ _ _ (c_starttls c ns forced m req f m2 x Hp Ek Er) Hm) as Hs. cbn zeta in Hs.
    destruct (is_proceed x); unfold verdict, feature_err; [|rewrite Ek]; exact Hs.
  Qed.

  Lemma init_loop_at forced : forall fuel m,
    I (AtSelect forced) m -> let '(m', r) := init_loop fuel c m forced in I (AtRet r) m'.
  Proof.
    assert (forall m, I (AtSelect forced) m -> I (AtRet Stuck) m) as Hstuck
      by (intros m; apply Hstep, c_stuck).
    assert (forall m ch, I (AtSelect forced) m -> I (AtSelect forced) (set_choices ch m)) as Hch
      by (intros m ch; apply Hstep, c_choice).
    destruct forced as [g|].
    - intros [|k] m Hm; cbn [init_loop]; [auto|].
      destruct (m_choices m) as [|ch rest]; [auto|].
      destruct (negb (bytes_eqb ch (f_space g))); [auto|].
      pose proof (after_pick_at (Some g) _ true g (conj eq_refl eq_refl) (Hch m rest Hm)) as Hp.
      destruct (after_pick c (set_choices rest m) true g) as [m1 [[x|]|e|]]; auto.
    - induction fuel as [|k IH]; intros m Hm; cbn [init_loop]; [auto|].
      pose proof (select_inv m) as Hs. destruct (select m) as [m1 r1]. destruct Hs as (Hsame & Hsel).
      assert (I (AtSelect None) m1 /\ candidates m1 = candidates m) as (Hm1 & Hc1)
        by (destruct Hsame as [->|(ch & ->)]; auto).
      rewrite <- Hc1 in Hsel.
      destruct r1 as [[[req f]|]|e|]; [| |contradiction|auto].
      + pose proof (after_pick_at None _ _ _ Hsel Hm1) as Hp.
        destruct (after_pick c m1 req f) as [m2 [[x|]|e|]]; [exact Hp|exact (IH _ Hp)|exact Hp..].
      + exact (Hstep _ _ _ _ (c_done c ns _ Hsel) Hm1).
  Qed.

  Lemma after_read_at m : I AtDecide m -> let '(m', r) := after_read c m (ns_first ns) in I (AtRet r) m'.
  Proof.
    intro Hm.
    assert (forall first, after_read c m first =
            match forced_of c m first with Some f => init_loop 1 c m (Some f) | None => normal_path c m end) as E.
    { intro first. unfold after_read, forced_of. destruct (_ && _ && _); [|reflexivity].
      destruct (find_space ns_StartTLS (c_feats c)) as [f|]; [|reflexivity]. destruct (f_neg f && _); reflexivity. }
    rewrite E. destruct (forced_of c m (ns_first ns)) as [f|] eqn:Ef.
    - exact (init_loop_at _ _ _ (Hstep _ _ _ _ (c_forced c ns m f Ef) Hm)).
    - pose proof (Hstep _ _ _ _ (c_normal c ns m Ef) Hm) as Hn. unfold normal_path.
      destruct (m_total m); [|destruct (m_allowed m)]; try exact Hn.
      exact (init_loop_at _ _ _ Hn).
  Qed.

  Lemma read_children_at al st : forall cs m ca tot lr,
    I (AtChildren al cs ca tot lr) m ->
    let '(m', r) := read_children (c_feats c) st cs m ca tot lr in
    match r with
    | Good (ca', tot', lr') => I (AtChildren al [] ca' tot' lr') m'
    | Bad e => I (AtRet (Bad e)) m'
    | Stuck => I (AtRet Stuck) m'
    end.
  Proof.
    induction cs as [|[sp lo req perr|] cs IH]; intros m ca tot lr Hm; cbn [read_children].
    - exact Hm.
    - destruct (get_feature (sp, lo) (c_feats c)) as [f|] eqn:Eg.
      + pose proof (Hstep _ _ _ _ (c_known c ns al sp lo req perr cs ca tot lr m f Eg) Hm) as Hk.
        destruct perr; [exact Hk|exact (IH _ _ _ _ Hk)].
      + exact (IH _ _ _ _ (Hstep _ _ _ _ (c_unknown c ns al sp lo req perr cs ca tot lr m Eg) Hm)).
    - exact (Hstep _ _ _ _ (c_text c ns al cs ca tot lr m) Hm).
  Qed.

  Lemma negotiate_features_at m :
    I AtFeatures m -> let '(m', r) := negotiate_features c m (ns_first ns) in I (AtRet r) m'.
  Proof.
    intro Hm. unfold negotiate_features. destruct (read RPFeatures m) as [m1 x] eqn:Er.
    destruct (features_of x) as [cs|] eqn:Ef; [|exact (Hstep _ _ _ _ (c_no_list c ns m m1 x Er Ef) Hm)].
    pose proof (read_children_at _ (m_bits m1) _ _ _ _ _ (Hstep _ _ _ _ (c_list c ns m m1 x cs Er Ef) Hm)) as Hl.
    destruct (read_children (c_feats c) (m_bits m1) cs m1 [] 0 false) as [m2 [[[ca tot] lr]|e|]]; [|exact Hl..].
    exact (after_read_at _ (Hstep _ _ _ _ (c_stored c ns _ ca tot lr m2) Hl)).
  Qed.

  Lemma expect_header_at m : I AtExpect m -> let '(m', r) := expect_header c m in I (on_good r AtFeatures) m'.
  Proof.
    intro Hm. unfold expect_header. destruct (read RPHeader m) as [m1 x] eqn:Er.
    destruct (header_of x) as [h|] eqn:Eh; [|exact (Hstep _ _ _ _ (c_no_header c ns m m1 x Er Eh) Hm)].
    pose proof (Hstep _ _ _ _ (c_header c ns m m1 x h Er Eh) Hm) as Hh. cbn zeta in Hh.
    destruct (header_ok c (assign h (m_info m1))); exact Hh.
  Qed.

  Lemma send_header_at m : ns_restart ns = true -> I AtCall m ->
    let '(m', r) := send_header c m in I (on_good r AtExpect) m'.
  Proof.
    intros Ens Hm. unfold send_header. destruct (m_tls m && m_hs m) eqn:Eth; [|exact (Hstep _ _ _ _ (c_send c ns m Ens Eth) Hm)].
    apply andb_prop in Eth. destruct Eth as [Et Eh].
    pose proof (Hstep _ _ _ _ (c_shake c ns m Ens Et Eh) Hm) as Hs. cbn zeta in Hs.
    destruct (c_hs_ok c); exact Hs.
  Qed.

  Theorem negotiator_body_at m m' r : negotiator_body c m ns = (m', r) -> I AtCall m ->
    exists r', r = call_result r' /\ I (AtRet r') m'.
  Proof.
    intros H Hm.
    assert (forall m1, I AtFeatures m1 ->
              match negotiate_features c m1 (ns_first ns) with
              | (m2, Good (mask, restart)) => (m2, Good (mask, restart, mkNS restart false))
              | (m2, Bad e) => (m2, Bad e)
              | (m2, Stuck) => (m2, Stuck)
              end = (m', r) -> exists r', r = call_result r' /\ I (AtRet r') m') as Hnf.
    { intros m1 H1 E. pose proof (negotiate_features_at _ H1) as H2.
      destruct (negotiate_features c m1 (ns_first ns)) as [m2 r2]. exists r2.
      destruct r2 as [[mask restart]|e|]; injection E as <- <-; auto. }
    unfold negotiator_body in H. destruct (ns_restart ns) eqn:Ens; [|exact (Hnf _ (Hstep _ _ _ _ (c_plain c ns m Ens) Hm) H)].
    pose proof (send_header_at _ Ens Hm) as Ha. destruct (send_header c m) as [ma [u|e|]];
      [|injection H as <- <-; exists (Bad e); auto|injection H as <- <-; exists Stuck; auto].
    pose proof (expect_header_at _ Ha) as H1. destruct (expect_header c ma) as [m1 [u1|e|]];
      [exact (Hnf _ H1 H)|injection H as <- <-; exists (Bad e); auto|injection H as <- <-; exists Stuck; auto].
  Qed.
End Rule.

(* the negotiator state a call hands back says "started" *)
Lemma negotiator_body_started c m ns m' mask restart ns1 :
  negotiator_body c m ns = (m', Good (mask, restart, ns1)) -> ns1 = mkNS restart false.
Proof.
  intro H. destruct (negotiator_body_at c ns (fun _ _ => True) (fun _ _ _ _ _ _ => I) _ _ _ H I) as (r' & Hr & _).
  destruct r' as [[mask' restart']|e|]; inversion Hr. reflexivity.
Qed.
