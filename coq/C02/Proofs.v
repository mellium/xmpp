(* C02/Proofs.v — the built-in features as gen/NegTables.v has them, and what
   the translator read from session.go's restart block (gen/C02Restart.v). *)
From XV Require Import lib.Bytes gen.NegTables gen.C02Restart C02.Model.

Definition sasl_feature : feature :=
  mkF ft_sasl_space ft_sasl_local ft_sasl_nec ft_sasl_proh ft_sasl_negotiable KAbstract.
Definition bind_feature : feature :=
  mkF ft_bind_space ft_bind_local ft_bind_nec ft_bind_proh ft_bind_negotiable KAbstract.

Lemma sasl_requires_secure : N.land ft_sasl_nec st_Secure = st_Secure.
Proof. vm_compute. reflexivity. Qed.

Lemma bind_requires_authn : N.land ft_bind_nec st_Authn = st_Authn.
Proof. vm_compute. reflexivity. Qed.

Lemma starttls_only_when_not_secure : ft_starttls_nec = 0%N /\ ft_starttls_proh = st_Secure /\ ft_starttls_negotiable = true.
Proof. vm_compute. auto. Qed.

(* the restart block of session.go empties the map s.x by a loop over s.x itself
   ([restart_clears]: map ranged over, map deleted from) *)
Definition clears (x : bytes) : bool :=
  existsb (fun p => bytes_eqb (fst p) x && bytes_eqb (snd p) x) restart_clears.
