(* C02/Examples.v — non-vacuity: concrete configurations, bits and scripts that
   satisfy the hypotheses of the theorems and reach every phase. *)
From XV Require Import lib.Bytes gen.NegTables C02.Model C02.Phase C02.Proofs.

Definition dom : bytes := str "example.net".
Definition loc : bytes := str "srv.example.net".
Definition orig : bytes := str "me@example.net".
Definition cfg_ok : config := mkCfg [starttls_feature; sasl_feature; bind_feature] true dom loc orig.
Definition cfg_bad_hs : config := mkCfg [starttls_feature; sasl_feature; bind_feature] false dom loc orig.

Definition hattr (id : bytes) (lang : option bytes) : hattrs :=
  mkH (Some id) (Some str_version) lang (Some ns_client) (Some loc) (Some orig).
Definition hdr := mkItem false (PHeader (hattr (str "s1") (Some (str "en")))).
Definition fl (cs : list fchild) := mkItem false (PFeatures cs).
Definition c_tls (req : bool) := FC ns_StartTLS ft_starttls_local req false.
Definition c_sasl := FC ft_sasl_space ft_sasl_local true false.
Definition c_bind := FC ft_bind_space ft_bind_local true false.
Definition proceed := mkItem false (PElem ns_StartTLS (str "proceed")).
Definition failure := mkItem false (PElem ns_StartTLS (str "failure")).

(* hypotheses are satisfiable: admitted configuration, admitted bits (c2s and s2s) *)
Example ex_config : c02_config cfg_ok = true. Proof. vm_compute. reflexivity. Qed.
Example ex_bits : c02_bits 0%N = true /\ c02_bits st_S2S = true. Proof. vm_compute. auto. Qed.
Example ex_bits_excluded : c02_bits st_Secure = false /\ c02_bits st_Ready = false /\ c02_bits st_Received = false.
Proof. vm_compute. auto. Qed.

(* the happy path: header, required STARTTLS, proceed; over TLS SASL then bind *)
Definition happy := run false cfg_ok None 0%N [hdr; fl [c_tls true]; proceed]
  [hdr; fl [c_sasl]; hdr; fl [c_bind]]
  [mkO st_Authn true false; mkO st_Ready false false]
  [ns_StartTLS; ft_sasl_space; ft_bind_space].

Example ex_happy_ok : r_class happy = ROk /\ r_bits happy = 7%N. Proof. vm_compute. auto. Qed.
Example ex_happy_wire : outs_of (before_switch (trace happy)) = [WHeader; starttls_request].
Proof. vm_compute. reflexivity. Qed.
Example ex_happy_sni : server_names (trace happy) = [dom] /\ handshakes (trace happy) = [true].
Proof. vm_compute. auto. Qed.

(* three inputs the pinned tree got wrong (C02's fix: commits): optional STARTTLS refused,
   an empty first list, optional STARTTLS alone and accepted *)
Example ex_optional_failure :
  let r := run false cfg_ok None 0%N [hdr; fl [c_tls false]; failure] [] [] [ns_StartTLS] in
  r_class r = RErr EOther /\ r_bits r = 0%N /\ switched (trace r) = false.
Proof. vm_compute. auto. Qed.

Example ex_empty_list_forces_starttls :
  let r := run true cfg_ok None 0%N [hdr; fl []; proceed] [hdr; fl []] [] [ns_StartTLS] in
  r_class r = ROk /\ switched (trace r) = true /\ outs_of (before_switch (trace r)) = [WHeader; starttls_request].
Proof. vm_compute. auto. Qed.

Example ex_optional_alone_proceed_restarts :
  let r := run false cfg_ok None 0%N [hdr; fl [c_tls false]; proceed] [hdr; fl []] [] [ns_StartTLS] in
  r_class r = ROk /\ handshakes (trace r) = [true] /\ length (ins_of (after_switch (trace r))) = 2.
Proof. vm_compute. auto. Qed.

(* clear text pipelined behind <proceed/> is dropped: the pipelined empty list does not establish the session *)
Example ex_pipelined_dropped :
  let r := run false cfg_ok None 0%N [hdr; fl [c_tls true]; proceed; hdr; fl []] [hdr; fl [c_sasl]] [mkO 0%N false true] [ns_StartTLS; ft_sasl_space] in
  r_class r = RErr EFeature /\ ins_of (after_switch (trace r)) = [hdr; fl [c_sasl]].
Proof. vm_compute. auto. Qed.

(* a failed handshake is an error, never a fall-back to clear text *)
Example ex_handshake_fails :
  let r := run false cfg_bad_hs None 0%N [hdr; fl [c_tls true]; proceed] [hdr; fl []] [] [ns_StartTLS] in
  r_class r = RErr EOther /\ handshakes (trace r) = [false] /\ has (r_bits r) st_Ready = false.
Proof. vm_compute. auto. Qed.

(* one StartTLS(nil) value, three sessions with different domains *)
Definition sess_for (d : bytes) : sess :=
  mkSess false (mkCfg [starttls_feature; sasl_feature; bind_feature] true d loc orig) 0%N
         [hdr; fl [c_tls true]; proceed] [hdr; fl []] [] [ns_StartTLS].
Example ex_reuse :
  map (fun r => server_names (trace r)) (run_sessions None [sess_for (str "a.example"); sess_for (str "b.example"); sess_for (str "c.example")])
  = [[str "a.example"]; [str "b.example"]; [str "c.example"]].
Proof. vm_compute. reflexivity. Qed.

(* runs that end in P4, P2, P1 and P5; every trace starts in P0, and P3 lies on the way to P4 and P5 *)
Example ex_phases :
  aut 0%N (trace happy) = Some P4 /\
  aut 0%N (trace (run false cfg_ok None 0%N [hdr; fl [c_tls false]; failure] [] [] [ns_StartTLS])) = Some P2 /\
  aut 0%N (trace (run false cfg_ok None 0%N [hdr] [] [] [])) = Some P1 /\
  aut 0%N (trace (run false cfg_bad_hs None 0%N [hdr; fl [c_tls true]; proceed] [] [] [ns_StartTLS])) = Some P5.
Proof. vm_compute. auto. Qed.

(* what was advertised in clear text only is not reported for the protected stream *)
Definition c_roster := FC (str "urn:xmpp:features:rosterver") (str "ver") false false.
Example ex_clear_features_forgotten :
  let r := run false cfg_ok None 0%N [hdr; fl [c_tls true; c_roster]; proceed] [hdr; fl [c_sasl]; hdr; fl [c_bind]]
               [mkO st_Authn true false; mkO st_Ready false false] [ns_StartTLS; ft_sasl_space; ft_bind_space] in
  r_class r = ROk /\ m_adv (r_state r) = [ft_bind_space] /\
  mem (str "urn:xmpp:features:rosterver") (m_adv (r_state r)) = false /\ mem ns_StartTLS (m_adv (r_state r)) = false.
Proof. vm_compute. auto. Qed.
(* without a restart in between, successive lists accumulate, as in the code *)
Example ex_features_accumulate_without_restart :
  let r := run false cfg_ok None 0%N [hdr; fl [c_tls true; c_roster]; failure] [] [] [ns_StartTLS] in
  m_adv (r_state r) = [str "urn:xmpp:features:rosterver"; ns_StartTLS].
Proof. vm_compute. reflexivity. Qed.

(* a protected header that omits xml:lang: In() reports no language, not the clear-text one;
   one that omits the id or the version is refused *)
Definition hdr_nolang := mkItem false (PHeader (hattr (str "s2") None)).
Definition hdr_noid := mkItem false (PHeader (mkH None (Some str_version) None (Some ns_client) (Some loc) (Some orig))).
Definition hdr_nover := mkItem false (PHeader (mkH (Some (str "s2")) None None (Some ns_client) (Some loc) (Some orig))).
Example ex_info_from_protected_header :
  let r := run false cfg_ok None 0%N [hdr; fl [c_tls true]; proceed] [hdr_nolang; fl []] [] [ns_StartTLS] in
  r_class r = ROk /\ n_id (m_info (r_state r)) = str "s2" /\ n_lang (m_info (r_state r)) = [] /\
  n_from (m_info (r_state r)) = loc /\ n_to (m_info (r_state r)) = orig.
Proof. vm_compute. auto. Qed.
Example ex_protected_header_without_id_or_version_refused :
  r_class (run false cfg_ok None 0%N [hdr; fl [c_tls true]; proceed] [hdr_noid; fl []] [] [ns_StartTLS]) = RErr EOther /\
  r_class (run false cfg_ok None 0%N [hdr; fl [c_tls true]; proceed] [hdr_nover; fl []] [] [ns_StartTLS]) = RErr EOther.
Proof. vm_compute. auto. Qed.

(* two sessions sharing StartTLS(nil), their negotiator calls interleaved: A, B, B, A, A, B, ... *)
Example ex_interleaved :
  let out := sched_run [0; 1; 1; 0; 0; 1; 0; 1; 0; 1] None
                       (map (start_sess None) [sess_for (str "a.example"); sess_for (str "b.example")]) in
  fst out = None /\
  map (fun s => server_names (m_tr (pstate (is_prog s)))) (snd out) = [[str "a.example"]; [str "b.example"]] /\
  map (fun s => match is_prog s with Done r => r_class r | Running _ => RFuel end) (snd out) = [ROk; ROk].
Proof. vm_compute. auto. Qed.
