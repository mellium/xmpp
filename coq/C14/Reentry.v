(* C14/Reentry.v — one mux, several stanzas in flight: whatever dispatches N the
   handlers of a stanza start on the same mux, that stanza's own handlers,
   tokens, replies and result are those of [handle] ([strip] forgets the
   records of the nested dispatches), and every such record comes from N. *)
From XV Require Import lib.Bytes gen.Mux C14.Model C14.Proofs.

(* no field of the shared ServeMux is assigned, incremented, sliced, appended
   to or has its address taken by anything but New (and the options it applies);
   forChildren allocates its replay buffer itself *)
Lemma mux_is_immutable_after_new : servemux_fields_touched_after_new = [].
Proof. reflexivity. Qed.

Lemma replay_buffer_is_per_call : forchildren_buffer_is_local = true.
Proof. reflexivity. Qed.

(* a reader that has reported its end stays there *)
Definition ended {St : Type} (rdr : St -> rd St) (s : St) : Prop := rdr s = REof s \/ rdr s = RErr s.
Definition sticky {St : Type} (rdr : St -> rd St) : Prop :=
  forall s s', rdr s = REof s' \/ rdr s = RErr s' -> ended rdr s'.

Lemma take_n_ended {St} (rdr : St -> rd St) k s : ended rdr s -> take_n rdr k s = ([], s).
Proof. intros [H|H]; destruct k; cbn [take_n]; try rewrite H; reflexivity. Qed.

Lemma take_n_split {St} (rdr : St -> rd St) : sticky rdr -> forall k1 k2 s,
  take_n rdr (k1 + k2) s =
  let '(g1, s1) := take_n rdr k1 s in let '(g2, s2) := take_n rdr k2 s1 in (g1 ++ g2, s2).
Proof.
  intros HS k1. induction k1 as [|k1 IH]; intros k2 s.
  - cbn [plus take_n app]. destruct (take_n rdr k2 s). reflexivity.
  - cbn [plus take_n]. destruct (rdr s) as [t e s'|s'|s'] eqn:E.
    + rewrite IH. destruct (take_n rdr k1 s') as [g1 s1]. destruct (take_n rdr k2 s1) as [g2 s2]. reflexivity.
    + rewrite (take_n_ended rdr k2 s') by (apply (HS s); left; exact E). reflexivity.
    + rewrite (take_n_ended rdr k2 s') by (apply (HS s); right; exact E). reflexivity.
Qed.

Lemma sticky_u tm : sticky (u_token tm).
Proof.
  intros s s' H. destruct s as [|x u]; cbn [u_token] in H.
  - destruct (t_err tm) eqn:Et; destruct H as [H|H]; inversion H; subst; unfold ended; cbn [u_token]; rewrite Et; auto.
  - destruct H as [H|H]; discriminate.
Qed.

Lemma sticky_inner {St} (base : St -> rd St) outer : sticky base -> sticky (inner_token base outer).
Proof.
  intros HB [[n|] s] [c' s'] H; [|destruct H as [[= <- <-]|[=]]; left; reflexivity].
  unfold ended. destruct (base s) as [x e s1|s1|s1] eqn:E.
  - rewrite (inner_token_tok _ _ _ _ _ _ _ E) in H. destruct (step n x); [destruct H; discriminate|].
    destruct outer; destruct H as [[= <- <-]|[=]]. left. reflexivity.
  - unfold inner_token in H |- *. rewrite E in H. destruct H as [[= <- <-]|[=]].
    destruct (HB s s1 (or_introl E)) as [-> | ->]; auto.
  - unfold inner_token in H |- *. rewrite E in H. destruct H as [[=]|[= <- <-]].
    destruct (HB s s1 (or_intror E)) as [-> | ->]; auto.
Qed.

Lemma sticky_iq tm : sticky (iq_reader tm).
Proof. apply sticky_inner. apply sticky_u. Qed.

Lemma sticky_b tm : sticky (b_token tm).
Proof.
  intros b b' H. assert (E : b' = b).
  { unfold b_token in H. destruct (b_off b <? length (b_buf b)); [destruct H as [H|H]; discriminate|].
    destruct (u_token tm (b_und b)) as [x e u|u|u].
    - destruct (bufreader_buffers_token_with_error || _); destruct H as [H|H]; discriminate.
    - destruct H as [H|H]; inversion H; reflexivity.
    - destruct H as [H|H]; inversion H; reflexivity. }
  subst b'. exact H.
Qed.

Definition strip (o : outcome) : outcome := mkout (filter own_ev (o_events o)) (o_replies o) (o_ret o).

(* the record of a nested dispatch is what N says *)
Definition nested_rec (N : nestf) (e : event) : Prop :=
  exists j o, N j = Some o /\ e = EvNested j (o_events o) (o_replies o) (o_ret o).

Definition from_N (N : nestf) (evs : list event) : Prop :=
  forall e, In e evs -> own_ev e = false -> nested_rec N e.

Lemma from_N_nil N : from_N N [].
Proof. intros e []. Qed.

Lemma from_N_cons N e evs : (own_ev e = false -> nested_rec N e) -> from_N N evs -> from_N N (e :: evs).
Proof. intros H F e' [<-|Hin] Ho; [exact (H Ho)|exact (F e' Hin Ho)]. Qed.

Lemma from_N_app N a b : from_N N a -> from_N N b -> from_N N (a ++ b).
Proof. intros A B e Hin Ho. apply in_app_iff in Hin. destruct Hin as [H|H]; [exact (A e H Ho)|exact (B e H Ho)]. Qed.

(* the record a handler leaves of the dispatch it nests: none if it nests
   nothing or N has no such stanza *)
Definition nest_of (N : nestf) (b : hbeh) : list event :=
  match hb_nest b with
  | Some (_, j) => match N j with Some o => [EvNested j (o_events o) (o_replies o) (o_ret o)] | None => [] end
  | None => []
  end.

Lemma nest_of_own N b : filter own_ev (nest_of N b) = [].
Proof. unfold nest_of. destruct (hb_nest b) as [[a j]|]; [destruct (N j)|]; reflexivity. Qed.

Lemma nest_of_from N b : from_N N (nest_of N b).
Proof.
  unfold nest_of. destruct (hb_nest b) as [[a j]|]; [destruct (N j) as [o|] eqn:E|]; try apply from_N_nil.
  apply from_N_cons; [intros _|apply from_N_nil]. exists j, o. split; [exact E|reflexivity].
Qed.

(* for a reader that stays at its end, reading with a dispatch in between is
   reading: the same tokens and the same reader as without, plus the record *)
Lemma run_reads_nest {St} (N : nestf) (rdr : St -> rd St) b s :
  sticky rdr ->
  exists g s', run_reads N rdr b s = (g, s', nest_of N b) /\ run_reads no_nest rdr b s = (g, s', []).
Proof.
  intro HS. rewrite run_reads_no_nest. unfold run_reads, nest_of.
  destruct (take_n rdr (hb_reads b) s) as [g s'] eqn:E. exists g, s'. split; [|reflexivity].
  destruct (hb_nest b) as [[a j]|]; [destruct (N j) as [o|]|]; try reflexivity.
  set (k1 := Nat.min a (hb_reads b)) in *.
  replace (hb_reads b) with (k1 + (hb_reads b - k1)) in E at 1 by lia.
  rewrite (take_n_split rdr HS) in E. destruct (take_n rdr k1 s) as [g1 s1].
  destruct (take_n rdr (hb_reads b - k1) s1) as [g2 s2]. inversion E. reflexivity.
Qed.

Lemma strip_no_events reps r : strip (mkout [] reps r) = mkout [] reps r.
Proof. reflexivity. Qed.

(* o is the outcome o0 of a dispatch alone, with records of dispatches from N in between *)
Definition alone (N : nestf) (o o0 : outcome) : Prop := strip o = o0 /\ from_N N (o_events o).

Lemma alone_events N evs reps r : from_N N evs -> alone N (mkout evs reps r) (mkout (filter own_ev evs) reps r).
Proof. intro F. split; [reflexivity|exact F]. Qed.

Lemma alone_quiet N reps r : alone N (mkout [] reps r) (mkout [] reps r).
Proof. apply alone_events, from_N_nil. Qed.

Lemma alone_invoke N evs e b reps r :
  from_N N evs -> own_ev e = true ->
  alone N (mkout (evs ++ e :: nest_of N b) reps r) (mkout (filter own_ev evs ++ [e]) reps r).
Proof.
  intros F H. split.
  - unfold strip. cbn [o_events o_replies o_ret]. rewrite filter_app. cbn [filter]. rewrite H, nest_of_own. reflexivity.
  - apply from_N_app; [exact F|]. apply from_N_cons; [congruence|apply nest_of_from].
Qed.

Lemma run_top_alone N h sn toks tm script :
  alone N (run_top N h sn toks tm script) (run_top no_nest h sn toks tm script).
Proof.
  unfold run_top. destruct h as [|h]; [apply alone_quiet|]. destruct (next_beh script) as [b s'].
  destruct (run_reads_nest N _ b toks (sticky_u tm)) as (g & st & -> & ->). apply (alone_invoke N []); [apply from_N_nil|reflexivity].
Qed.

Lemma iq_fallback_alone N sn h : alone N (iq_fallback sn h) (iq_fallback sn h).
Proof.
  unfold iq_fallback. destruct (in_list _ _); [apply alone_quiet|]. destruct fallback_swaps_addresses; apply alone_quiet.
Qed.

Lemma invoke_iq_alone N r sn h payload tm st script :
  alone N (invoke_iq N r sn h payload tm st script) (invoke_iq no_nest r sn h payload tm st script).
Proof.
  unfold invoke_iq. destruct (lookup_iq r (h_type h) _) as [[|hd]|]; [apply alone_quiet| |apply iq_fallback_alone].
  destruct (next_beh script) as [b s'].
  destruct (run_reads_nest N _ b st (sticky_iq tm)) as (g & st' & -> & ->). apply (alone_invoke N []); [apply from_N_nil|reflexivity].
Qed.

Lemma iq_router_alone N r sn attrs toks tm script :
  alone N (iq_router N r sn attrs toks tm script) (iq_router no_nest r sn attrs toks tm script).
Proof.
  rewrite !iq_router_way. destruct (new_iq sn attrs) as [h|]; [|apply alone_quiet].
  destruct (iq_way_of _ tm (drop_ws toks)); [apply alone_quiet..|apply invoke_iq_alone].
Qed.

Definition lstrip (l : lres) : lres :=
  match l with
  | LFuel => LFuel
  | LPanic evs => LPanic (filter own_ev evs)
  | LDone evs b ie f => LDone (filter own_ev evs) b ie f
  end.

Definition l_events (l : lres) : list event :=
  match l with LFuel => [] | LPanic evs => evs | LDone evs _ _ _ => evs end.

Definition lalone (N : nestf) (l l0 : lres) : Prop := lstrip l = l0 /\ from_N N (l_events l).

Lemma lstrip_cons e l : lstrip (l_cons e l) = if own_ev e then l_cons e (lstrip l) else lstrip l.
Proof. destruct l; cbn [l_cons lstrip filter]; destruct (own_ev e); reflexivity. Qed.

Lemma from_N_l_cons N e l : from_N N (e :: l_events l) -> from_N N (l_events (l_cons e l)).
Proof. destruct l; [intros _; apply from_N_nil|exact id..]. Qed.

Lemma lalone_cons_own N e l l0 : own_ev e = true -> lalone N l l0 -> lalone N (l_cons e l) (l_cons e l0).
Proof.
  intros H [<- F]. split; [rewrite lstrip_cons, H; reflexivity|].
  apply from_N_l_cons, from_N_cons; [congruence|assumption].
Qed.

Lemma lalone_nested N l l0 ne :
  filter own_ev ne = [] -> from_N N ne -> lalone N l l0 -> lalone N (fold_right l_cons l ne) l0.
Proof.
  induction ne as [|e ne IH]; cbn [fold_right filter]; intros Ho F L; [exact L|].
  destruct (own_ev e) eqn:E; [discriminate|].
  destruct (IH Ho (fun x Hx => F x (or_intror Hx)) L) as [<- F'].
  split; [rewrite lstrip_cons, E; reflexivity|].
  apply from_N_l_cons, from_N_cons; [exact (F e (or_introl eq_refl))|exact F'].
Qed.

Lemma child_event_own k h typ got : own_ev (child_event k h typ got) = true.
Proof. destruct k; reflexivity. Qed.

Lemma fc_loop_alone N tm r k typ : forall fuel it script failed,
  lalone N (fc_loop N tm r k typ fuel it script failed) (fc_loop no_nest tm r k typ fuel it script failed).
Proof.
  assert (Q : forall l, l_events l = [] -> lalone N l l)
    by (intros [| |] H; cbn in H; subst; split; try reflexivity; apply from_N_nil).
  induction fuel as [|f IH]; intros it script failed; [apply Q; reflexivity|].
  cbn [fc_loop]. destruct (iter_next tm f it) as [|err it'|[nm|] it']; try (apply Q; reflexivity); [|apply IH].
  destruct (lookup_child r k typ nm) as [[|h]|]; [apply Q; reflexivity| |apply IH].
  destruct (next_beh script) as [b script'].
  destruct (run_reads_nest N _ b (mkbr (b_buf (it_b it')) 0 (b_und (it_b it'))) (sticky_b tm)) as (got & br & -> & ->).
  cbn [fold_right]. apply lalone_cons_own; [apply child_event_own|].
  apply lalone_nested; [apply nest_of_own|apply nest_of_from|apply IH].
Qed.

Lemma filter_idem {A} (f : A -> bool) l : filter f (filter f l) = filter f l.
Proof.
  induction l as [|x l IH]; [reflexivity|]. cbn [filter]. destruct (f x) eqn:E; [cbn [filter]; rewrite E, IH; reflexivity|exact IH].
Qed.

Lemma own_count_strip evs : own_count (filter own_ev evs) = own_count evs.
Proof. unfold own_count. rewrite filter_idem. reflexivity. Qed.

Lemma for_children_alone N r k sn typ toks tm script :
  alone N (for_children N r k sn typ toks tm script) (for_children no_nest r k sn typ toks tm script).
Proof.
  unfold for_children.
  destruct (fc_loop_alone N tm r k typ (length toks + 3) (mkiter (Some 0) CNone (mkbr [TStart sn] 1 toks)) script false)
    as [L1 L2].
  rewrite <- L1. destruct (fc_loop N tm r k typ _ _ script false) as [|evs|evs b ie fl]; cbn [lstrip l_events] in *.
  - apply alone_quiet.
  - apply alone_events, L2.
  - destruct ie; [apply alone_events, L2|]. destruct fl; [apply alone_events, L2|].
    destruct (length (b_buf b) =? 2); [|apply alone_events, L2].
    destruct (lookup_child r k typ _) as [[|h]|]; try apply alone_events, L2.
    rewrite own_count_strip. destruct (next_beh (skipn (own_count evs) script)) as [bh s'].
    destruct (run_reads_nest N _ bh (mkbr (b_buf b) 0 (b_und b)) (sticky_b tm)) as (got & br & -> & ->).
    apply alone_invoke; [exact L2|apply child_event_own].
Qed.

Lemma handle_gen_alone N r ns sn attrs toks tm script :
  alone N (handle_gen N r ns sn attrs toks tm script) (handle r ns sn attrs toks tm script).
Proof.
  unfold handle, handle_gen. destruct (lookup_top r sn) as [h|]; [apply run_top_alone|].
  destruct (stanza_is sn ns); [|apply alone_quiet].
  destruct (router_of (snd sn) router_map) as [rt|]; [|apply alone_quiet].
  destruct (bytes_eqb rt (str "iqRouter")); [apply iq_router_alone|].
  destruct (bytes_eqb rt (str "msgRouter")).
  { unfold msg_router. destruct (new_message sn attrs); [apply for_children_alone|apply alone_quiet]. }
  destruct (bytes_eqb rt (str "presenceRouter")); [|apply alone_quiet].
  unfold pres_router. destruct (new_presence sn attrs); [apply for_children_alone|apply alone_quiet].
Qed.

Definition solo (r : registry) (ns : bytes) (e : elem) : outcome :=
  handle r ns (e_name e) (e_attrs e) (e_toks e) (e_tm e) (e_script e).

(* the dispatch of e, and every dispatch nested in it at any depth, is the
   dispatch of that stanza by a mux in the middle of nothing else *)
Inductive all_solo (r : registry) (ns : bytes) (elems : list elem) : elem -> outcome -> Prop :=
| AllSolo e o :
    strip o = solo r ns e ->
    (forall ev, In ev (o_events o) -> own_ev ev = false ->
       exists j e' o', nth_error elems j = Some e' /\ ev = EvNested j (o_events o') (o_replies o') (o_ret o') /\
                       all_solo r ns elems e' o') ->
    all_solo r ns elems e o.

(* nesting depth is bounded by the number of further stanzas (stanza j may only
   dispatch later ones), so the fuel S (length elems) of handle_in is never used up *)
Lemma handle_from_all_solo r ns elems : forall fuel lo e,
  fuel <> 0 -> length elems < fuel + lo -> all_solo r ns elems e (handle_from fuel r ns elems lo e).
Proof.
  induction fuel as [|f IH]; intros lo e Hf Hl; [congruence|].
  cbn [handle_from].
  set (N := fun j => if lo <=? j then match nth_error elems j with
                                      | Some e' => Some (handle_from f r ns elems (S j) e')
                                      | None => None
                                      end else None).
  destruct (handle_gen_alone N r ns (e_name e) (e_attrs e) (e_toks e) (e_tm e) (e_script e)) as [HS F].
  constructor; [exact HS|]. intros ev Hin Ho.
  destruct (F ev Hin Ho) as (j & o' & HN & Hev). unfold N in HN.
  destruct (lo <=? j) eqn:El; [|discriminate]. apply Nat.leb_le in El.
  destruct (nth_error elems j) as [e'|] eqn:En; [|discriminate].
  assert (Hj : j < length elems) by (apply nth_error_Some; congruence).
  inversion HN; subst o'. exists j, e', (handle_from f r ns elems (S j) e').
  split; [exact En|]. split; [exact Hev|].
  apply IH; lia.
Qed.
