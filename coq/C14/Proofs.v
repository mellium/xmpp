(* C14/Proofs.v — the lookups: the cascade's first hit is the maximum of the match
   order (cascade_first_hit); registration; the readers, the replay buffer
   invariant Inv and the child loop (fc_loop_spec, for_children_spec); what the
   IQ router decides (iq_router_way) and the defaults. *)
From XV Require Import lib.Bytes lib.ListAux gen.Mux C14.Model.

Lemma top_cascade_eq : top_cascade = [(TblTop, true, true); (TblTop, false, true); (TblTop, true, false)].
Proof. reflexivity. Qed.
Lemma iq_cascade_eq :
  iq_cascade = [(TblIq, true, true); (TblIq, false, true); (TblIq, true, false); (TblIq, false, false)].
Proof. reflexivity. Qed.
Lemma msg_cascade_eq :
  msg_cascade = [(TblMsg, true, true); (TblMsg, false, true); (TblMsg, true, false); (TblMsg, false, false)].
Proof. reflexivity. Qed.
Lemma pres_cascade_eq :
  pres_cascade = [(TblPres, true, true); (TblPres, false, true); (TblPres, true, false); (TblPres, false, false)].
Proof. reflexivity. Qed.

Lemma stanza_keys_agree :
  iq_stanza = reg_iq_stanza /\ msg_stanza = reg_message_stanza /\ pres_stanza = reg_presence_stanza.
Proof. repeat split; reflexivity. Qed.

Lemma defaults_are :
  iq_default = str "IQHandlerFunc(iqFallback)" /\ msg_default = str "nopHandler{...}" /\
  pres_default = str "nopHandler{...}".
Proof. repeat split; reflexivity. Qed.

(* every option refuses nil handlers and duplicates, Handle refuses stanza names,
   the Func wrappers refuse nil funcs *)
Lemma reg_flags :
  reg_handle = (TblTop, true, true, true) /\ reg_iq = (TblIq, true, true, false) /\
  reg_message = (TblMsg, true, true, false) /\ reg_presence = (TblPres, true, true, false).
Proof. repeat split; reflexivity. Qed.

Lemma func_guards :
  handlefunc_refuses_nil_func = true /\ iqfunc_refuses_nil_func = true /\
  messagefunc_refuses_nil_func = true /\ presencefunc_refuses_nil_func = true.
Proof. repeat split; reflexivity. Qed.

Lemma router_map_eq :
  router_map = [(str "iq", str "iqRouter"); (str "message", str "msgRouter"); (str "presence", str "presenceRouter")].
Proof. reflexivity. Qed.

Lemma stanza_locals_eq : stanza_locals = [str "iq"; str "message"; str "presence"].
Proof. reflexivity. Qed.

Lemma fallback_tables :
  fallback_silent_types = [str "error"; str "result"] /\ fallback_swaps_addresses = true /\
  fallback_reply_type = str "error" /\ fallback_error_type = str "cancel" /\
  fallback_condition = str "service-unavailable".
Proof. repeat split; reflexivity. Qed.

Lemma iq_types :
  iqtype_get = str "get" /\ iqtype_set = str "set" /\ iqtype_result = str "result" /\ iqtype_error = str "error".
Proof. repeat split; reflexivity. Qed.

Lemma message_types_eq :
  message_types = [str "normal"; str "chat"; str "error"; str "groupchat"; str "headline"] /\
  message_default = str "normal".
Proof. split; reflexivity. Qed.

(* forChildren: each child is looked up under its own name, the empty stanza
   under the zero name xml.Name{} (not under the stanza's own name) *)
Lemma lookup_args :
  child_lookup_arg_message = NsChild /\ child_lookup_arg_presence = NsChild /\
  wildcard_lookup_arg_message = NsZero /\ wildcard_lookup_arg_presence = NsZero.
Proof. repeat split; reflexivity. Qed.

Lemma wildcard_name k sn : src_name (wildcard_arg k) sn = ([], []).
Proof. destruct k; reflexivity. Qed.

Lemma bufreader_buffers : bufreader_buffers_token_with_error = true.
Proof. reflexivity. Qed.

Lemma name_eqb_eq (a b : name) : name_eqb a b = true <-> a = b.
Proof.
  destruct a as [a1 a2], b as [b1 b2]. unfold name_eqb. cbn [fst snd].
  rewrite andb_true_iff, !bytes_eqb_eq. split.
  - intros [H1 H2]. subst. reflexivity.
  - intro H. inversion H. auto.
Qed.

Lemma in_list_In b l : in_list b l = true <-> In b l.
Proof. exact (existsb_eqb_In bytes_eqb bytes_eqb_eq b l). Qed.

Lemma key_eqb_eq (a b : key) : key_eqb a b = true <-> a = b.
Proof.
  destruct a as [a1 a2 a3], b as [b1 b2 b3]. unfold key_eqb. cbn [k_stanza k_type k_name].
  rewrite !andb_true_iff, !bytes_eqb_eq, name_eqb_eq. split.
  - intros [[H1 H2] H3]. subst. reflexivity.
  - intro H. inversion H. auto.
Qed.

Lemma key_eqb_refl k : key_eqb k k = true.
Proof. apply key_eqb_eq. reflexivity. Qed.

Definition unique_keys (t : table) : Prop := NoDup (map fst t).

Lemma assoc_some_in k h t : assoc k t = Some h -> In (k, h) t.
Proof.
  induction t as [|[k' h'] t IH]; cbn [assoc]; [discriminate|].
  destruct (key_eqb k k') eqn:E.
  - intro H. inversion H; subst. apply key_eqb_eq in E. subst. left. reflexivity.
  - intro H. right. apply IH. exact H.
Qed.

Lemma assoc_none_notin k t : assoc k t = None -> forall h, ~ In (k, h) t.
Proof.
  induction t as [|[k' h'] t IH]; cbn [assoc]; intros H h Hin; [destruct Hin|].
  destruct (key_eqb k k') eqn:E; [discriminate|].
  destruct Hin as [Heq|Hin].
  - inversion Heq; subst. rewrite key_eqb_refl in E. discriminate.
  - exact (IH H h Hin).
Qed.

Lemma in_assoc k h t : unique_keys t -> In (k, h) t -> assoc k t = Some h.
Proof.
  unfold unique_keys. induction t as [|[k' h'] t IH]; cbn [assoc map fst]; intros U Hin; [destruct Hin|].
  inversion U as [|x l Hnot Hnd]; subst.
  destruct Hin as [Heq|Hin].
  - inversion Heq; subst. rewrite key_eqb_refl. reflexivity.
  - destruct (key_eqb k k') eqn:E.
    + apply key_eqb_eq in E. subst. exfalso. apply Hnot. apply in_map_iff. exists (k', h). split; [reflexivity|exact Hin].
    + apply IH; assumption.
Qed.

Lemma assoc_none_iff k t : assoc k t = None <-> (forall h, ~ In (k, h) t).
Proof.
  split; [apply assoc_none_notin|].
  intro H. destruct (assoc k t) eqn:E; [|reflexivity].
  exfalso. exact (H _ (assoc_some_in _ _ _ E)).
Qed.

Lemma assoc_app k t t' :
  assoc k (t ++ t') = match assoc k t with Some h => Some h | None => assoc k t' end.
Proof.
  induction t as [|[k' h'] t IH]; cbn [assoc app]; [reflexivity|].
  destruct (key_eqb k k'); [reflexivity|exact IH].
Qed.

Lemma assoc_app_some k t t' h : assoc k t = Some h -> assoc k (t ++ t') = Some h.
Proof. intro H. rewrite assoc_app, H. reflexivity. Qed.

(* A pattern component matches an element component if it is equal to it or is
   the wildcard (empty). *)
Definition comp_matches (p e : bytes) : Prop := p = e \/ p = [].

(* A pattern name matches an element name if both components match; patterns of
   the top-level table may use at most one wildcard (bare = false). *)
Definition matches (bare : bool) (p e : name) : Prop :=
  comp_matches (fst p) (fst e) /\ comp_matches (snd p) (snd e) /\
  (bare = true \/ fst p = fst e \/ snd p = snd e).

(* Specificity: keeping the local name weighs more than keeping the namespace. *)
Definition rank (p : name) : nat :=
  (match snd p with [] => 0 | _ => 2 end) + (match fst p with [] => 0 | _ => 1 end).

Definition entry (t : table) (stz typ : bytes) (p : name) (h : hid) : Prop := In (mkkey stz typ p, h) t.

(* h is the handler of a registered pattern of this stanza kind and type that
   matches e and is maximal in the specificity order among those that do *)
Definition most_specific (t : table) (stz typ : bytes) (bare : bool) (e : name) (h : hid) : Prop :=
  exists p, entry t stz typ p h /\ matches bare p e /\
            forall p' h', entry t stz typ p' h' -> matches bare p' e -> rank p' <= rank p.

Definition no_match (t : table) (stz typ : bytes) (bare : bool) (e : name) : Prop :=
  forall p h, entry t stz typ p h -> ~ matches bare p e.

(* matching patterns of equal rank have their wildcards in the same places, so they are equal *)
Lemma rank_eq p q : rank p = rank q -> (fst p = [] <-> fst q = []) /\ (snd p = [] <-> snd q = []).
Proof.
  unfold rank. destruct (fst p), (fst q), (snd p), (snd q); cbn [Nat.add]; intro H; try discriminate H;
    split; split; (reflexivity || discriminate).
Qed.

Lemma comp_matches_same a b x : comp_matches a x -> comp_matches b x -> (a = [] <-> b = []) -> a = b.
Proof. intros [->| ->] [->| ->] [H1 H2]; auto; symmetry; auto. Qed.

Definition stanza_of (t : tbl) : bytes :=
  match t with TblTop => [] | TblIq => iq_stanza | TblMsg => msg_stanza | TblPres => pres_stanza end.
Definition type_of (t : tbl) (typ : bytes) : bytes := match t with TblTop => [] | _ => typ end.
Definition bare_of (t : tbl) : bool := match t with TblTop => false | _ => true end.
Definition cascade_of (t : tbl) : list (tbl * bool * bool) :=
  match t with TblTop => top_cascade | TblIq => iq_cascade | TblMsg => msg_cascade | TblPres => pres_cascade end.

Lemma lookup_cascade r t typ e :
  lookup r t typ e = cascade_lookup r (stanza_of t) (type_of t typ) e (cascade_of t).
Proof. destruct t; reflexivity. Qed.

(* the patterns a cascade probes for the name e, in its order *)
Definition cands (e : name) (c : list (tbl * bool * bool)) : list name :=
  map (fun x => proj (snd (fst x)) (snd x) e) c.

(* no candidate is outranked by a later one, unless that one repeats an earlier
   candidate (an empty component of the name makes probes coincide) *)
Fixpoint ordered (seen l : list name) : Prop :=
  match l with
  | [] => True
  | p :: l' => (forall q, In q l' -> rank q <= rank p \/ In q seen) /\ ordered (p :: seen) l'
  end.

(* the first hit among ordered candidates is a hit of maximal rank; seen: the
   candidates that were probed before and missed.  Premises 1, 3 and 4-5 are
   facts about the cascade alone (cascade_table, cascade_ordered, cascade_cands
   for the four of the source); premise 2 is the induction's own. *)
Lemma cascade_first_hit r t stz typ bare e : forall c seen,
  Forall (fun x => fst (fst x) = t) c ->
  (forall q h, In q seen -> ~ entry (table_of r t) stz typ q h) ->
  ordered seen (cands e c) ->
  (forall p, In p (cands e c) -> matches bare p e) ->
  (forall p, matches bare p e -> In p seen \/ In p (cands e c)) ->
  match cascade_lookup r stz typ e c with
  | Some h => most_specific (table_of r t) stz typ bare e h
  | None => no_match (table_of r t) stz typ bare e
  end.
Proof.
  induction c as [|[[t' ks] kl] c IH]; intros seen HT HS HO HM HC.
  - intros p h He Hm. destruct (HC p Hm) as [Hin|[]]. exact (HS _ _ Hin He).
  - inversion HT as [|x l Ht HT']; subst x l. cbn [fst snd] in Ht. subst t'.
    cbn [cascade_lookup cands map fst snd ordered In] in *. destruct HO as [HO1 HO2].
    destruct (assoc (mkkey stz typ (proj ks kl e)) (table_of r t)) as [h|] eqn:E.
    + exists (proj ks kl e). split; [exact (assoc_some_in _ _ _ E)|]. split; [apply HM; left; reflexivity|].
      intros p' h' He Hm. destruct (HC p' Hm) as [Hin|[<-|Hin]].
      * destruct (HS _ _ Hin He).
      * apply le_n.
      * destruct (HO1 _ Hin) as [Hr|Hs]; [exact Hr|destruct (HS _ _ Hs He)].
    + apply (IH (proj ks kl e :: seen)); [exact HT'| |exact HO2| |].
      * intros q h [<-|Hq]; [exact (assoc_none_notin _ _ E h)|exact (HS _ h Hq)].
      * intros p Hp. apply HM. right. exact Hp.
      * intros p Hm. cbn [In]. destruct (HC p Hm) as [H|[H|H]]; auto.
Qed.

(* the tables read from the source: each cascade probes one table, for exactly
   the patterns that match the name, the more specific first (at most four
   candidates, each component empty or not: by enumeration) *)
Lemma cascade_table t : Forall (fun x => fst (fst x) = t) (cascade_of t).
Proof. destruct t; repeat constructor. Qed.

Lemma cands_of t s l :
  cands (s, l) (cascade_of t) = (s, l) :: ([], l) :: (s, []) :: (if bare_of t then [([], [])] else []).
Proof. destruct t; reflexivity. Qed.

Lemma cascade_cands t e p : matches (bare_of t) p e <-> In p (cands e (cascade_of t)).
Proof.
  destruct e as [s l], p as [ps pl]. rewrite cands_of. unfold matches, comp_matches. cbn [fst snd].
  destruct (bare_of t); cbn [In]; split.
  1,3: intros [[H1|H1] [[H2|H2] [H3|[H3|H3]]]]; subst; try discriminate; tauto.
  all: intros H; decompose [or] H; try contradiction;
    match goal with E : (_, _) = (_, _) |- _ => injection E as <- <- end; repeat split; auto.
Qed.

Lemma cascade_ordered t e : ordered [] (cands e (cascade_of t)).
Proof.
  destruct e as [s l]. rewrite cands_of. destruct (bare_of t); cbn [ordered In]; repeat split; intros q H;
    decompose [or] H; try contradiction; subst q; destruct s, l; cbn [rank fst snd Nat.add]; auto with arith.
Qed.

Lemma lookup_most_specific r t typ e :
  match lookup r t typ e with
  | Some h => most_specific (table_of r t) (stanza_of t) (type_of t typ) (bare_of t) e h
  | None => no_match (table_of r t) (stanza_of t) (type_of t typ) (bare_of t) e
  end.
Proof.
  rewrite lookup_cascade. apply (cascade_first_hit r t _ _ _ e _ []).
  - apply cascade_table.
  - intros q h [].
  - apply cascade_ordered.
  - intros p Hp. apply cascade_cands. exact Hp.
  - intros p Hm. right. apply cascade_cands. exact Hm.
Qed.

Definition op_tbl_key (op : regop) : tbl * key :=
  match op with
  | RHandle n _ => (TblTop, mkkey [] [] n)
  | RIq typ n _ => (TblIq, mkkey iq_stanza typ n)
  | RMsg typ n _ => (TblMsg, mkkey msg_stanza typ n)
  | RPres typ n _ => (TblPres, mkkey pres_stanza typ n)
  end.

Definition op_h (op : regop) : hval :=
  match op with RHandle _ h | RIq _ _ h | RMsg _ _ h | RPres _ _ h => h end.

(* Handle refuses the stanza names *)
Definition top_ok (op : regop) : Prop :=
  match op with RHandle n _ => in_list (snd n) stanza_locals = false | _ => True end.

Definition reg_unique (r : registry) : Prop := forall t, unique_keys (table_of r t).
Definition nonzero (r : registry) : Prop := forall t k h, In (k, h) (table_of r t) -> h <> 0.

Definition fresh (r : registry) (tk : tbl * key) : Prop := assoc (snd tk) (table_of r (fst tk)) = None.
Definition put (r : registry) (tk : tbl * key) (h : hid) : registry := store r (fst tk) (snd tk) h.

Lemma register_iff t stzc k hv r r' :
  register (t, true, true, stzc) true k hv r = Some r' <->
  exists h, hv = HOk h /\ (if stzc then in_list (snd (k_name k)) stanza_locals = false else True) /\
            fresh r (t, k) /\ r' = put r (t, k) h.
Proof.
  unfold register, fresh, put. cbn [fst snd]. split.
  - destruct hv as [| |h]; [discriminate|cbn [andb]; discriminate|].
    destruct stzc; cbn [andb]; [destruct (in_list (snd (k_name k)) stanza_locals); [discriminate|]|];
      (destruct (assoc k (table_of r t)); cbn [andb]; [discriminate|]; intro H; inversion H; exists h; auto).
  - intros (h & -> & S & -> & ->). destruct stzc; [rewrite S|]; reflexivity.
Qed.

Lemma apply_op_register r op :
  apply_op r op =
  register (fst (op_tbl_key op), true, true, match op with RHandle _ _ => true | _ => false end) true
           (snd (op_tbl_key op)) (op_h op) r.
Proof. destruct op; reflexivity. Qed.

Lemma apply_op_iff r op r' :
  apply_op r op = Some r' <->
  exists h, op_h op = HOk h /\ top_ok op /\ fresh r (op_tbl_key op) /\ r' = put r (op_tbl_key op) h.
Proof. rewrite apply_op_register. destruct op; apply register_iff. Qed.

Lemma table_of_store_same r t k h : table_of (store r t k h) t = table_of r t ++ [(k, h)].
Proof. destruct t; reflexivity. Qed.

Lemma table_of_store_other r t t' k h : t <> t' -> table_of (store r t k h) t' = table_of r t'.
Proof. destruct t, t'; intro H; try reflexivity; exfalso; apply H; reflexivity. Qed.

Lemma tbl_eq_dec (a b : tbl) : {a = b} + {a <> b}.
Proof. decide equality. Qed.

Lemma in_put r tk h t' k' h' :
  In (k', h') (table_of (put r tk h) t') <-> In (k', h') (table_of r t') \/ (t', k', h') = (tk, h).
Proof.
  destruct tk as [t k]. unfold put. cbn [fst snd]. destruct (tbl_eq_dec t t') as [E|E].
  - subst t'. rewrite table_of_store_same, in_app_iff. cbn [In]. split.
    + intros [H|[[= <- <-]|[]]]; auto.
    + intros [H|[= <- <-]]; auto.
  - rewrite table_of_store_other by exact E. split; [auto|]. intros [H|[= <- <- <-]]; [exact H|]. destruct (E eq_refl).
Qed.

Lemma fresh_put r tk h tk' : fresh (put r tk h) tk' <-> fresh r tk' /\ tk' <> tk.
Proof.
  destruct tk' as [t' k']. unfold fresh. cbn [fst snd]. rewrite !assoc_none_iff. split.
  - intro H. split.
    + intros h' Hin. apply (H h'), in_put. left. exact Hin.
    + intros <-. apply (H h), in_put. right. reflexivity.
  - intros [F N] h' Hin. apply in_put in Hin. destruct Hin as [Hin|[= <- _]]; [exact (F h' Hin)|exact (N eq_refl)].
Qed.

Lemma unique_keys_snoc t k h : unique_keys t -> assoc k t = None -> unique_keys (t ++ [(k, h)]).
Proof.
  unfold unique_keys. intros U A. rewrite map_app. cbn [map fst].
  apply (NoDup_Add (Add_app k (map fst t) [])). rewrite app_nil_r. split; [exact U|].
  intro H. apply in_map_iff in H. destruct H as [[k' h'] [E Hin]]. cbn [fst] in E. subst k'.
  exact (assoc_none_notin _ _ A _ Hin).
Qed.

Lemma put_unique r tk h : reg_unique r -> fresh r tk -> reg_unique (put r tk h).
Proof.
  destruct tk as [t k]. intros U A t'. unfold put. cbn [fst snd]. destruct (tbl_eq_dec t t') as [E|E].
  - subst t'. rewrite table_of_store_same. apply unique_keys_snoc; [apply U|exact A].
  - rewrite table_of_store_other by exact E. apply U.
Qed.

Lemma apply_ops_spec ops : forall r r',
  apply_ops r ops = Some r' ->
  (reg_unique r -> reg_unique r') /\
  NoDup (map op_tbl_key ops) /\
  (forall op, In op ops -> (exists h, op_h op = HOk h) /\ top_ok op /\ fresh r (op_tbl_key op)) /\
  (forall t k h, In (k, h) (table_of r' t) <->
                 In (k, h) (table_of r t) \/ exists op, In op ops /\ op_tbl_key op = (t, k) /\ op_h op = HOk h).
Proof.
  induction ops as [|op ops IH]; intros r r' H.
  - inversion H; subst. split; [auto|]. split; [constructor|]. split; [intros op []|].
    intros t k h. split; [auto|]. intros [H1|[op [[] _]]]. exact H1.
  - cbn [apply_ops] in H. destruct (apply_op r op) as [r1|] eqn:E; [|discriminate].
    apply apply_op_iff in E. destruct E as (h & Hh & Ht & Ha & ->).
    destruct (IH _ _ H) as (IU & IN & IO & II).
    split; [|split; [|split]].
    + intro U. apply IU, put_unique; assumption.
    + cbn [map]. constructor; [|exact IN].
      intro Hin. apply in_map_iff in Hin. destruct Hin as [op' [Ek Hop']].
      destruct (IO _ Hop') as (_ & _ & A'). apply fresh_put in A'. exact (proj2 A' Ek).
    + intros op' [<-|Hin]; [eauto|].
      destruct (IO _ Hin) as (H1 & H2 & H3). apply fresh_put in H3. tauto.
    + intros t k0 h0. rewrite II, in_put. split.
      * intros [[H1|E]|[op' (H1 & H2 & H3)]].
        -- left. exact H1.
        -- right. exists op. injection E as E1 ->. split; [left; reflexivity|]. split; [symmetry; exact E1|exact Hh].
        -- right. exists op'. split; [right; exact H1|]. auto.
      * intros [H1|[op' ([<-|H1] & H2 & H3)]].
        -- left. left. exact H1.
        -- left. right. rewrite H2. congruence.
        -- right. exists op'. auto.
Qed.

Lemma new_mux_spec ops r :
  new_mux ops = Some r ->
  reg_unique r /\ NoDup (map op_tbl_key ops) /\
  (forall op, In op ops -> (exists h, op_h op = HOk h) /\ top_ok op) /\
  (forall t k h, In (k, h) (table_of r t) <-> exists op, In op ops /\ op_tbl_key op = (t, k) /\ op_h op = HOk h).
Proof.
  unfold new_mux. intro H. destruct (apply_ops_spec _ _ _ H) as (A & B & C & D).
  split; [apply A; intros []; constructor|]. split; [exact B|]. split.
  - intros op Hin. destruct (C _ Hin) as (H1 & H2 & _). auto.
  - intros t k h. rewrite D. split.
    + intros [H1|H1]; [destruct t; destruct H1|exact H1].
    + intro H1. right. exact H1.
Qed.

Lemma apply_ops_ok ops : forall r,
  NoDup (map op_tbl_key ops) ->
  (forall op, In op ops -> (exists h, op_h op = HOk h) /\ top_ok op /\ fresh r (op_tbl_key op)) ->
  exists r', apply_ops r ops = Some r'.
Proof.
  induction ops as [|op ops IH]; intros r N H.
  - exists r. reflexivity.
  - cbn [apply_ops]. destruct (H op (or_introl eq_refl)) as ([h Hh] & Ht & Ha).
    assert (apply_op r op = Some (put r (op_tbl_key op) h)) as -> by (apply apply_op_iff; exists h; auto).
    cbn [map] in N. inversion N as [|x l Nin Nd]; subst.
    apply IH; [exact Nd|]. intros op' Hin. destruct (H op' (or_intror Hin)) as (H1 & H2 & H3).
    split; [exact H1|]. split; [exact H2|]. apply fresh_put. split; [exact H3|].
    intro E. apply Nin. rewrite <- E. apply in_map. exact Hin.
Qed.

(* mux.New returns exactly on options that each carry a handler - Handle naming no
   stanza - and whose (table, key) pairs are pairwise distinct *)
Lemma new_mux_iff ops :
  (exists r, new_mux ops = Some r) <->
  NoDup (map op_tbl_key ops) /\ (forall op, In op ops -> (exists h, op_h op = HOk h) /\ top_ok op).
Proof.
  split.
  - intros [r H]. destruct (new_mux_spec _ _ H) as (_ & N & G & _). auto.
  - intros [N G]. apply apply_ops_ok; [exact N|]. intros op Hin. destruct (G op Hin) as (H1 & H2).
    split; [exact H1|]. split; [exact H2|]. unfold fresh. destruct (fst (op_tbl_key op)); reflexivity.
Qed.

(* no option registers the reserved id 0 *)
Definition valid_ids (ops : list regop) : Prop := forall op, In op ops -> op_h op <> HOk 0.

Lemma new_mux_nonzero ops r : new_mux ops = Some r -> valid_ids ops -> nonzero r.
Proof.
  intros H Hz t k h Hin. destruct (new_mux_spec _ _ H) as (_ & _ & _ & D).
  apply D in Hin. destruct Hin as [op (H1 & _ & H3)]. intro E. subst h. exact (Hz _ H1 H3).
Qed.

Lemma bytes_eqb_inj (f : bytes -> bytes) :
  (forall a b, f a = f b -> a = b) -> forall a b, bytes_eqb (f a) (f b) = bytes_eqb a b.
Proof.
  intros Hf a b. destruct (bytes_eqb a b) eqn:E.
  - apply bytes_eqb_eq in E. subst. apply bytes_eqb_refl.
  - destruct (bytes_eqb (f a) (f b)) eqn:E'; [|reflexivity].
    apply bytes_eqb_eq, Hf in E'. subst. rewrite bytes_eqb_refl in E. discriminate.
Qed.

Section Renaming.
  Variables fs fl : bytes -> bytes.
  Hypothesis fs_inj : forall a b, fs a = fs b -> a = b.
  Hypothesis fl_inj : forall a b, fl a = fl b -> a = b.
  Hypothesis fs_nil : fs [] = [].
  Hypothesis fl_nil : fl [] = [].

  Definition rename (n : name) : name := (fs (fst n), fl (snd n)).
  Definition rename_key (k : key) : key := mkkey (k_stanza k) (k_type k) (rename (k_name k)).
  Definition rename_table (t : table) : table := map (fun e => (rename_key (fst e), snd e)) t.
  Definition rename_reg (r : registry) : registry :=
    mkreg (rename_table (r_top r)) (rename_table (r_iq r)) (rename_table (r_msg r)) (rename_table (r_pres r)).

  Lemma rename_key_eqb a b : key_eqb (rename_key a) (rename_key b) = key_eqb a b.
  Proof.
    unfold key_eqb, rename_key, name_eqb, rename. cbn [k_stanza k_type k_name fst snd].
    rewrite (bytes_eqb_inj fs fs_inj), (bytes_eqb_inj fl fl_inj). reflexivity.
  Qed.

  Lemma assoc_rename k t : assoc (rename_key k) (rename_table t) = assoc k t.
  Proof.
    induction t as [|[k' h] t IH]; [reflexivity|].
    cbn [rename_table map assoc fst snd]. rewrite rename_key_eqb. destruct (key_eqb k k'); [reflexivity|exact IH].
  Qed.

  Lemma table_of_rename r t : table_of (rename_reg r) t = rename_table (table_of r t).
  Proof. destruct t; reflexivity. Qed.

  Lemma proj_rename ks kl n : proj ks kl (rename n) = rename (proj ks kl n).
  Proof.
    unfold proj, rename. cbn [fst snd]. destruct ks, kl; cbn [fst snd]; rewrite ?fs_nil, ?fl_nil; reflexivity.
  Qed.

  Lemma cascade_rename r stz typ n c :
    cascade_lookup (rename_reg r) stz typ (rename n) c = cascade_lookup r stz typ n c.
  Proof.
    induction c as [|[[t ks] kl] c IH]; [reflexivity|].
    cbn [cascade_lookup]. rewrite table_of_rename, proj_rename.
    change (mkkey stz typ (rename (proj ks kl n))) with (rename_key (mkkey stz typ (proj ks kl n))).
    rewrite assoc_rename. destruct (assoc _ _); [reflexivity|exact IH].
  Qed.
End Renaming.

Lemma run_reads_no_nest {St} (rdr : St -> rd St) b s :
  run_reads no_nest rdr b s = let '(got, s') := take_n rdr (hb_reads b) s in (got, s', []).
Proof. unfold run_reads, no_nest. destruct (hb_nest b) as [[a j]|]; reflexivity. Qed.

Lemma take_n_u tm k toks : take_n (u_token tm) k toks = (firstn k toks, skipn k toks).
Proof.
  revert toks. induction k as [|k IH]; intro toks; [reflexivity|].
  cbn [take_n]. destruct toks as [|x u]; cbn [u_token].
  - destruct (t_err tm); reflexivity.
  - rewrite IH. reflexivity.
Qed.

(* the content of the element whose start was consumed (d further starts are
   open): everything before its end tag *)
Fixpoint until_close (d : nat) (v : list tok) : list tok :=
  match v with
  | [] => []
  | TStart n :: v' => TStart n :: until_close (S d) v'
  | TEnd :: v' => match d with 0 => [] | S d' => TEnd :: until_close d' v' end
  | t :: v' => t :: until_close d v'
  end.

(* how a token changes the number of open elements; None: it closes the
   element the scan started in *)
Definition step (d : nat) (x : tok) : option nat :=
  match x with
  | TStart _ => Some (S d)
  | TEnd => match d with 0 => None | S m => Some m end
  | _ => Some d
  end.

Lemma step_S d x : step (S d) x = Some (match step d x with Some d' => S d' | None => 0 end).
Proof. destruct x, d; reflexivity. Qed.

Lemma until_close_cons d x v :
  until_close d (x :: v) = match step d x with Some d' => x :: until_close d' v | None => [] end.
Proof. destruct x, d; reflexivity. Qed.

Lemma inner_token_tok {St} (base : St -> rd St) outer d s x e s' :
  base s = RTok x e s' ->
  inner_token base outer (Some d, s) =
  match step d x with
  | Some d' => RTok x e (Some d', s')
  | None => if outer then RTok x e (None, s') else REof (None, s')
  end.
Proof. intro E. unfold inner_token. rewrite E. destruct x, d; reflexivity. Qed.

Lemma iq_reader_cons tm d x v :
  iq_reader tm (Some d, x :: v) =
  match step d x with Some d' => RTok x (fin_err tm v) (Some d', v) | None => REof (None, v) end.
Proof. apply (inner_token_tok (u_token tm) false). reflexivity. Qed.

Lemma iq_reader_nil tm d : iq_reader tm (Some d, []) = if t_err tm then RErr (Some d, []) else REof (Some d, []).
Proof. unfold iq_reader, inner_token. cbn [u_token]. destruct (t_err tm); reflexivity. Qed.

(* what is left for the handler of an IQ to read *)
Definition iq_content (st : option nat * list tok) : list tok :=
  match st with (Some d, v) => until_close d v | (None, _) => [] end.

Lemma take_n_inner tm k : forall st, fst (take_n (iq_reader tm) k st) = firstn k (iq_content st).
Proof.
  induction k as [|k IH]; intros [[d|] v]; try reflexivity.
  cbn [take_n iq_content]. destruct v as [|x v].
  - rewrite iq_reader_nil. destruct (t_err tm); reflexivity.
  - rewrite iq_reader_cons, until_close_cons. destruct (step d x) as [d'|]; [|reflexivity].
    specialize (IH (Some d', v)). destruct (take_n (iq_reader tm) k (Some d', v)).
    cbn [fst firstn iq_content] in *. congruence.
Qed.

Fixpoint drop_ws (v : list tok) : list tok :=
  match v with
  | TText true :: v' => drop_ws v'
  | _ => v
  end.

(* TrimLeftSpace stops at the first token that is not white space; white space
   that is the reader's last token and comes with its error yields that error,
   as reading on would *)
Lemma trim_first_spec tm : forall v fuel,
  length v < fuel ->
  trim_first (iq_reader tm) fuel (Some 0, v) = Some (iq_reader tm (Some 0, drop_ws v)).
Proof.
  induction v as [|x v IH]; intros fuel Hf; (destruct fuel as [|f]; [cbn in Hf; lia|]); cbn [trim_first].
  - cbn [drop_ws]. rewrite iq_reader_nil. destruct (t_err tm); reflexivity.
  - destruct x as [n| |[|]|]; cbn [drop_ws]; rewrite iq_reader_cons; try reflexivity. cbn [step].
    destruct (fin_err tm v) as [e|] eqn:EF; [|apply IH; cbn [length] in Hf; lia].
    destruct v; [|discriminate]. cbn [fin_err] in EF. destruct (t_with tm); inversion EF.
    cbn [drop_ws]. rewrite iq_reader_nil. reflexivity.
Qed.

(* the default answer: type error, addresses swapped, same id, cancel / service-unavailable *)
Definition service_unavailable (sn : name) (h : hdr) : reply :=
  mkreply (fst sn) (str "error") (h_from h) (h_to h) (h_id h) (h_lang h) (str "cancel") (str "service-unavailable").

Lemma iq_fallback_spec sn h :
  iq_fallback sn h =
  if in_list (h_type h) [str "error"; str "result"] then out_nothing
  else mkout [] [service_unavailable sn h] RetOk.
Proof. reflexivity. Qed.

(* the handler chosen for the payload (none: the empty result IQ) runs once, on
   what is left of the IQ's content *)
Lemma invoke_iq_handled r sn h payload tm st script hd :
  lookup_iq r (h_type h) (match payload with Some n => n | None => ([], []) end) = Some hd -> hd <> 0 ->
  invoke_iq no_nest r sn h payload tm st script =
  let b := fst (next_beh script) in
  mkout [EvIq hd (h_type h) payload (firstn (hb_reads b) (iq_content st))] [] (ret_of b).
Proof.
  intros E Hz. unfold invoke_iq. rewrite E. destruct hd as [|hd]; [congruence|].
  destruct (next_beh script) as [b s']. rewrite run_reads_no_nest.
  pose proof (take_n_inner tm (hb_reads b) st) as H.
  destruct (take_n (iq_reader tm) (hb_reads b) st) as [got st']. cbn [fst] in *. subst got. reflexivity.
Qed.

Lemma invoke_iq_left N r sn h payload tm st script :
  lookup_iq r (h_type h) (match payload with Some n => n | None => ([], []) end) = None ->
  invoke_iq N r sn h payload tm st script = iq_fallback sn h.
Proof. intro E. unfold invoke_iq. rewrite E. reflexivity. Qed.

(* what the router answers when no handler can be chosen: the fallback's reply
   (if any) and an error *)
Definition iq_refused (sn : name) (h : hdr) : outcome := mkout [] (o_replies (iq_fallback sn h)) RetErr.

(* what the router does with an IQ: fail; refuse; or invoke the handler chosen for
   a payload (None: the empty result IQ) on the reader as it stands then *)
Inductive iq_way := WErr | WRefuse | WInvoke (payload : option name) (st : option nat * list tok).

(* v: the IQ's tokens after leading white space; result: the IQ is of type result.
   fin_err tm rest: the error the reader returns together with the first payload
   token (only if that is its last token and the reader is of the kind that
   returns its error with the last token); an IQ truncated there is taken for an
   empty one unless it is a result *)
Definition iq_way_of (result : bool) (tm : term) (v : list tok) : iq_way :=
  match v with
  | [] => if t_err tm then WErr else if result then WInvoke None (Some 0, []) else WRefuse
  | TEnd :: rest => if result then WInvoke None (None, rest) else WRefuse
  | x :: rest =>
      match fin_err tm rest, x with
      | Some true, _ => WErr
      | Some false, TStart n => if result then WInvoke (Some n) (Some 1, rest) else WRefuse
      | None, TStart n => WInvoke (Some n) (Some 1, rest)
      | _, _ => WRefuse
      end
  end.

Definition iq_go (N : nestf) (r : registry) (sn : name) (h : hdr) (tm : term) (script : list hbeh) (w : iq_way)
  : outcome :=
  match w with
  | WErr => out_err
  | WRefuse => iq_refused sn h
  | WInvoke p st => invoke_iq N r sn h p tm st script
  end.

(* the router decides from the type, the reader's kind and the tokens after leading
   white space alone; other dispatches N enter through the invoked handler only *)
Lemma iq_router_way N r sn attrs toks tm script :
  iq_router N r sn attrs toks tm script =
  match new_iq sn attrs with
  | None => out_err
  | Some h => iq_go N r sn h tm script (iq_way_of (bytes_eqb (h_type h) iqtype_result) tm (drop_ws toks))
  end.
Proof.
  unfold iq_router. destruct (new_iq sn attrs) as [h|]; [|reflexivity].
  rewrite trim_first_spec by lia.
  destruct (drop_ws toks) as [|x rest]; [rewrite iq_reader_nil|rewrite iq_reader_cons]; cbn [iq_way_of].
  - destruct (t_err tm), (bytes_eqb (h_type h) iqtype_result); reflexivity.
  - destruct x as [n| |ws|]; cbn [step]; destruct (fin_err tm rest) as [[|]|], (bytes_eqb (h_type h) iqtype_result);
      reflexivity.
Qed.

(* rest of the token list after the end tag that closes the current element
   (d further elements open); None if it is never closed *)
Fixpoint skip_elem (d : nat) (v : list tok) : option (list tok) :=
  match v with
  | [] => None
  | TStart _ :: v' => skip_elem (S d) v'
  | TEnd :: v' => match d with 0 => Some v' | S d' => skip_elem d' v' end
  | _ :: v' => skip_elem d v'
  end.

(* names of the element children at depth 0, in order, up to the closing end tag *)
Fixpoint child_names (d : nat) (v : list tok) : list name :=
  match v with
  | [] => []
  | TStart n :: v' => (match d with 0 => [n] | _ => [] end) ++ child_names (S d) v'
  | TEnd :: v' => match d with 0 => [] | S d' => child_names d' v' end
  | _ :: v' => child_names d v'
  end.

Lemma skip_elem_cons d x v :
  skip_elem d (x :: v) = match step d x with Some d' => skip_elem d' v | None => Some v end.
Proof. destruct x, d; reflexivity. Qed.

Lemma child_names_cons d x v :
  child_names d (x :: v) =
  (match d, x with 0, TStart n => [n] | _, _ => [] end) ++
  match step d x with Some d' => child_names d' v | None => [] end.
Proof. destruct x, d; reflexivity. Qed.

Lemma skip_elem_len : forall v d r, skip_elem d v = Some r -> length r < length v.
Proof.
  induction v as [|x v IH]; intros d r; [discriminate|].
  rewrite skip_elem_cons. cbn [length]. destruct (step d x); [intro H; apply IH in H; lia|intros [= <-]; lia].
Qed.

Lemma skip_elem_nonnil d v v2 : skip_elem d v = Some v2 -> v <> [].
Proof. intros H E. subst v. discriminate. Qed.

(* the child whose start was consumed at depth d ends right before v2: the end tag
   of the element one level up closes what follows it, and the names that follow
   the child at that level are those found from v2 on *)
Lemma child_closes : forall v d r,
  skip_elem (S d) v = Some r ->
  exists v2, skip_elem d v = Some v2 /\ skip_elem 0 v2 = Some r /\ child_names (S d) v = child_names 0 v2.
Proof.
  induction v as [|x v IH]; intros d r; [discriminate|].
  rewrite !skip_elem_cons, child_names_cons, step_S. cbn [app]. destruct (step d x); [apply IH|].
  intro H. exists v. auto.
Qed.

(* bufReader.Token at the end of its buffer: the token fetched from the
   underlying reader is appended to the buffer and handed on together with the
   error that came with it, whatever that is *)
Lemma b_token_fetch tm b x u :
  b_off b = length (b_buf b) -> b_und b = x :: u ->
  b_token tm b = RTok x (fin_err tm u) (mkbr (b_buf b ++ [x]) (S (b_off b)) u).
Proof.
  intros Ho Hu. unfold b_token. rewrite Ho, Nat.ltb_irrefl, Hu. cbn [u_token].
  rewrite bufreader_buffers. reflexivity.
Qed.

Section ForChildren.
  Variable tm : term.
  Variable all : list tok.          (* the stanza's start token followed by everything after it *)

  (* buffer invariant: buf is a prefix of the stanza's tokens, the underlying
     reader sits right behind it, and the reader's own position is inside buf *)
  Definition Inv (b : breader) (v : list tok) : Prop :=
    b_buf b ++ b_und b = all /\ b_off b <= length (b_buf b) /\ skipn (b_off b) all = v.

  Lemma Inv_at pre v : all = pre ++ v -> Inv (mkbr pre (length pre) v) v.
  Proof. intro E. unfold Inv. cbn [b_buf b_off b_und]. rewrite E, skipn_app_exact. auto. Qed.

  Lemma Inv_covers b v : Inv b v -> length all <= length (b_buf b) + length v.
  Proof. intros (_ & Ho & <-). rewrite skipn_length. lia. Qed.

  Lemma skipn_cons_nth {A} (l : list A) n x v d : skipn n l = x :: v -> nth n l d = x /\ skipn (S n) l = v.
  Proof.
    revert n. induction l as [|y l IH]; intros n H.
    - destruct n; discriminate.
    - destruct n as [|n].
      + cbn in H. inversion H. subst. split; reflexivity.
      + cbn [skipn] in H. apply IH in H. exact H.
  Qed.

  (* the next token of the stanza is handed out - replayed from the buffer, or
     fetched from the underlying reader and appended; only the reader's very last
     token can come with an error *)
  Lemma b_token_cons b x v :
    Inv b (x :: v) ->
    exists b' e, b_token tm b = RTok x e b' /\ Inv b' v /\ length (b_buf b) <= length (b_buf b') /\
               (v <> [] -> e = None).
  Proof.
    intros (Ha & Ho & Hv). destruct (skipn_cons_nth _ _ _ _ TOther Hv) as [Hn Hs].
    destruct (b_off b <? length (b_buf b)) eqn:E.
    - unfold b_token. rewrite E. apply Nat.ltb_lt in E. rewrite <- Ha in Hn. rewrite app_nth1 in Hn by exact E. rewrite Hn.
      eexists. exists None. split; [reflexivity|]. unfold Inv. cbn [b_buf b_off b_und]. repeat split; auto; lia.
    - apply Nat.ltb_ge in E. assert (Eo : b_off b = length (b_buf b)) by lia.
      rewrite Eo, <- Ha, skipn_app, skipn_all, Nat.sub_diag in Hv. cbn [app skipn] in Hv.
      rewrite (b_token_fetch tm b x v Eo Hv). eexists. exists (fin_err tm v). split; [reflexivity|]. unfold Inv. cbn [b_buf b_off b_und].
      rewrite app_length, <- app_assoc. cbn [length app]. rewrite <- Hv.
      repeat split; auto; try lia. intro Hne. destruct v; [contradiction|reflexivity].
  Qed.

  Lemma b_token_nil b : Inv b [] -> b_token tm b = if t_err tm then RErr b else REof b.
  Proof.
    intros (Ha & Ho & Hv). unfold b_token.
    apply (f_equal (@length _)) in Hv. rewrite skipn_length, <- Ha, app_length in Hv. cbn [length] in Hv.
    assert (b_off b <? length (b_buf b) = false) as -> by (apply Nat.ltb_ge; lia).
    destruct (b_und b); [cbn [u_token]; destruct (t_err tm); reflexivity|cbn [length] in Hv; lia].
  Qed.

  Lemma take_n_b k : forall b v,
    Inv b v ->
    exists b', take_n (b_token tm) k b = (firstn k v, b') /\ Inv b' (skipn k v) /\
               length (b_buf b) <= length (b_buf b').
  Proof.
    induction k as [|k IH]; intros b v HI.
    - exists b. cbn. auto.
    - cbn [take_n]. destruct v as [|x v].
      + rewrite (b_token_nil _ HI). exists b. destruct (t_err tm); cbn; auto.
      + destruct (b_token_cons _ _ _ HI) as (b1 & e & E1 & I1 & L1 & _). rewrite E1.
        destruct (IH _ _ I1) as (b2 & E2 & I2 & L2). rewrite E2. exists b2. cbn [firstn skipn].
        repeat split; auto; try apply I2. lia.
  Qed.

  (* Inner(r) between children (count 0) and inside a child (count > 0) *)
  Lemma ir_token_nil c b :
    Inv b [] -> ir_token tm (Some c, b) = if t_err tm then RErr (Some c, b) else REof (Some c, b).
  Proof. intro HI. unfold ir_token, inner_token. rewrite (b_token_nil _ HI). destruct (t_err tm); reflexivity. Qed.

  Lemma ir_token_cons c b x v :
    Inv b (x :: v) ->
    exists b' e, Inv b' v /\ (v <> [] -> e = None) /\
      ir_token tm (Some c, b) =
      match step c x with Some c' => RTok x e (Some c', b') | None => REof (None, b') end.
  Proof.
    intro HI. destruct (b_token_cons _ _ _ HI) as (b' & e & E & I' & _ & N). exists b', e.
    split; [exact I'|]. split; [exact N|]. exact (inner_token_tok _ false _ _ _ _ _ E).
  Qed.

  (* draining a child whose end is ahead - and is not the reader's last token -
     leaves the iterator right behind it.  The state is InnerElement's counter d
     over Inner's, which stands one higher since it counted the child's start. *)
  Lemma drain_closed : forall v d b fuel v2,
    Inv b v -> skip_elem d v = Some v2 -> v2 <> [] -> length v < fuel ->
    exists b', drain_elem tm fuel (Some d, (Some (S d), b)) = Some (false, (Some 0, b')) /\ Inv b' v2.
  Proof.
    induction v as [|x v IH]; intros d b fuel v2 HI Hs Hne Hf; [discriminate|].
    destruct fuel as [|f]; [lia|]. cbn [length] in Hf. rewrite skip_elem_cons in Hs.
    destruct (ir_token_cons (S d) _ _ _ HI) as (b1 & e & I1 & N1 & E1). rewrite step_S in E1.
    cbn [drain_elem]. rewrite (inner_token_tok _ true _ _ _ _ _ E1).
    destruct (step d x) as [d'|].
    - rewrite (N1 (skip_elem_nonnil _ _ _ Hs)).
      exact (IH d' b1 f v2 I1 Hs Hne ltac:(lia)).
    - (* the child's own end tag *)
      injection Hs as <-. rewrite (N1 Hne). destruct f as [|f]; [lia|].
      exists b1. split; [reflexivity|exact I1].
  Qed.

  (* a handler is given a reader over the same buffer that starts at the stanza's
     start token; afterwards the iterator goes on where it was, over the buffer
     the handler has extended *)
  Lemma handler_reads bh b v :
    Inv b v ->
    exists br, run_reads no_nest (b_token tm) bh (mkbr (b_buf b) 0 (b_und b)) = (firstn (hb_reads bh) all, br, []) /\
               Inv (mkbr (b_buf br) (b_off b) (b_und br)) v.
  Proof.
    intros (A1 & A2 & A3).
    assert (I0 : Inv (mkbr (b_buf b) 0 (b_und b)) all) by (unfold Inv; cbn [b_buf b_off b_und skipn]; repeat split; [exact A1|lia]).
    destruct (take_n_b (hb_reads bh) _ _ I0) as (br & ET & (B1 & _ & _) & LT). cbn [b_buf] in LT.
    exists br. rewrite run_reads_no_nest, ET. split; [reflexivity|].
    unfold Inv. cbn [b_buf b_off b_und]. repeat split; [exact B1|lia|exact A3].
  Qed.
End ForChildren.

(* the invocations forChildren has to make: for each element child in order the
   handler its name selects (none if no pattern matches), each given the stanza
   from its start token on; script entries are consumed by invoked handlers only *)
Fixpoint spec_events (r : registry) (k : skind) (typ : bytes) (all : list tok) (names : list name)
  (script : list hbeh) : list event * bool :=
  match names with
  | [] => ([], false)
  | n :: ns =>
      match lookup_child r k typ n with
      | None => spec_events r k typ all ns script
      | Some h =>
          let '(b, s') := next_beh script in
          let '(evs, f) := spec_events r k typ all ns s' in
          (child_event k h typ (firstn (hb_reads b) all) :: evs, hb_fail b || f)
      end
  end.

Section Loop.
  Variable tm : term.
  Variable all : list tok.
  Variable r : registry.
  Variable k : skind.
  Variable typ : bytes.
  Hypothesis nz : forall n h, lookup_child r k typ n = Some h -> h <> 0.

  (* where the iterator stands: Next first drains the child it returned last
     (if that was an element); b is the reader this leaves, between children *)
  Definition stands (fuel : nat) (it : iter) (b : breader) : Prop :=
    match it_cur it with
    | CElem c => drain_elem tm fuel (c, (it_cnt it, it_b it))
    | _ => Some (false, (it_cnt it, it_b it))
    end = Some (false, (Some 0, b)).

  Lemma iter_next_spec fuel it b x v1 rest :
    stands fuel it b -> Inv all b (x :: v1) -> skip_elem 0 (x :: v1) = Some rest ->
    exists b', Inv all b' v1 /\
      iter_next tm fuel it =
      match x with
      | TStart n => NItem (Some n) (mkiter (Some 1) (CElem (Some 0)) b')
      | TEnd => NStop false (mkiter None (it_cur it) b')
      | _ => NItem None (mkiter (Some 0) CTok b')
      end.
  Proof.
    intros HD I1 HS. unfold iter_next. rewrite HD.
    destruct (ir_token_cons tm all 0 _ _ _ I1) as (b2 & e & I2 & N2 & ->). exists b2. split; [exact I2|].
    destruct x as [n| |ws|]; cbn [step skip_elem] in *; [|reflexivity|..];
      rewrite (N2 (skip_elem_nonnil _ _ _ HS)); reflexivity.
  Qed.

  Lemma fc_loop_spec : forall fuel it b v rest script failed,
    stands (pred fuel) it b -> Inv all b v -> skip_elem 0 v = Some rest -> S (length v) < fuel ->
    exists bfin,
      fc_loop no_nest tm r k typ fuel it script failed =
      (let '(evs, f) := spec_events r k typ all (child_names 0 v) script in LDone evs bfin false (failed || f)) /\
      Inv all bfin rest.
  Proof.
    induction fuel as [|f IH]; intros it b v rest script failed HD HI HS HL; [lia|]. cbn [pred] in HD.
    destruct v as [|x v1]; [discriminate|].
    destruct (iter_next_spec _ _ _ _ _ _ HD HI HS) as (b' & I' & EN).
    cbn [fc_loop]. rewrite EN. cbn [skip_elem child_names length] in *.
    destruct x as [n| |ws|].
    (* character data and other tokens between children are passed over *)
    3,4: apply (IH _ b'); [reflexivity|exact I'|exact HS|lia].
    - (* an element child: the next round first drains it, whatever its handler has read *)
      destruct (child_closes _ _ _ HS) as (v2 & HS1 & HS2 & ->). cbn [app spec_events].
      assert (HA : forall b'', Inv all b'' v1 -> exists b1,
                stands (pred f) (mkiter (Some 1) (CElem (Some 0)) b'') b1 /\ Inv all b1 v2)
        by (intros b'' I''; apply (drain_closed tm all v1 0 b'' _ v2 I'' HS1); [intros ->; discriminate|lia]).
      pose proof (skip_elem_len _ _ _ HS1) as HL2.
      destruct (lookup_child r k typ n) as [h|] eqn:EL.
      2: { destruct (HA _ I') as (b1 & D1 & I1). apply (IH _ b1); auto. lia. }
      pose proof (nz _ _ EL) as Hnz. destruct h as [|h]; [congruence|].
      destruct (next_beh script) as [bh script']. cbn [it_b it_cnt it_cur].
      destruct (handler_reads tm all bh _ _ I') as (br & -> & I''). cbn [fold_right].
      destruct (HA _ I'') as (b1 & D1 & I1).
      destruct (IH _ b1 v2 rest script' (failed || hb_fail bh) D1 I1 HS2 ltac:(lia)) as (bfin & EF & IF).
      rewrite EF. exists bfin. split; [|exact IF].
      destruct (spec_events r k typ all (child_names 0 v2) script') as [evs f']. cbn [l_cons].
      rewrite orb_assoc. reflexivity.
    - (* the stanza's end tag *)
      injection HS as <-. exists b'. split; [|exact I']. cbn [spec_events]. rewrite orb_false_r. reflexivity.
  Qed.
End Loop.

Definition children_spec (r : registry) (k : skind) (sn : name) (typ : bytes) (toks : list tok)
  (script : list hbeh) : outcome :=
  let all := TStart sn :: toks in
  match toks with
  | TEnd :: _ =>
      (* empty stanza: the type wildcard, offered the whole stanza *)
      match lookup_child r k typ ([], []) with
      | None => out_nothing
      | Some h =>
          let b := fst (next_beh script) in
          mkout [child_event k h typ (firstn (hb_reads b) all)] [] (ret_of b)
      end
  | _ =>
      let '(evs, f) := spec_events r k typ all (child_names 0 toks) script in
      mkout evs [] (if f then RetErr else RetOk)
  end.

Lemma children_spec_cases r k sn typ toks script :
  (exists t', toks = TEnd :: t') \/
  (forall t', toks <> TEnd :: t') /\
  children_spec r k sn typ toks script =
  (let '(evs, f) := spec_events r k typ (TStart sn :: toks) (child_names 0 toks) script in
   mkout evs [] (if f then RetErr else RetOk)).
Proof. destruct toks as [|[n| |ws|] t']; eauto; right; (split; [discriminate|reflexivity]). Qed.

Lemma for_children_spec r k sn typ toks tm script rest :
  (forall n h, lookup_child r k typ n = Some h -> h <> 0) ->
  skip_elem 0 toks = Some rest ->
  for_children no_nest r k sn typ toks tm script = children_spec r k sn typ toks script.
Proof.
  intros nz HS. unfold for_children.
  destruct (children_spec_cases r k sn typ toks script) as [[toks' ->]|[NE ->]].
  - (* the empty stanza: the loop stops at the end tag, having buffered it *)
    rewrite wildcard_name. cbn [length]. replace (S (length toks') + 3) with (S (S (length toks' + 2))) by lia.
    cbn [fc_loop]. unfold iter_next, ir_token. cbn [it_cur it_cnt it_b].
    rewrite (inner_token_tok _ false 0 _ _ _ _
               (b_token_fetch tm (mkbr [TStart sn] 1 (TEnd :: toks')) TEnd toks' eq_refl eq_refl)).
    cbn [step it_b b_buf b_off b_und length Nat.eqb app skipn own_count filter]. unfold children_spec.
    destruct (lookup_child r k typ ([], [])) as [h|] eqn:EL; [|reflexivity].
    pose proof (nz _ _ EL) as Hnz. destruct h as [|h]; [congruence|].
    destruct (next_beh script) as [bh s']. cbn [fst].
    destruct (handler_reads tm _ bh _ _ (Inv_at _ [TStart sn; TEnd] toks' eq_refl)) as (br & E & _). cbn [b_buf b_und] in E.
    rewrite E. reflexivity.
  - (* fuel: fc_loop_spec asks for two more than the tokens ahead, since a round drains
       the child before on one unit less than it has and drain_closed wants more units
       than that child has tokens; the model's + 3 leaves one spare *)
    destruct (fc_loop_spec tm (TStart sn :: toks) r k typ nz (length toks + 3) (mkiter (Some 0) CNone (mkbr [TStart sn] 1 toks)) _ _ _ script false
                eq_refl (Inv_at _ [TStart sn] toks eq_refl) HS ltac:(lia))
      as (bfin & EF & IF).
    rewrite EF. destruct (spec_events r k typ (TStart sn :: toks) (child_names 0 toks) script) as [evs f].
    cbn [orb]. destruct f; [reflexivity|].
    (* the end tag of a stanza that is not empty is not its second token *)
    assert (length (b_buf bfin) =? 2 = false) as ->; [|reflexivity].
    assert (L : length rest + 2 <= length toks).
    { destruct toks as [|x t']; [discriminate|].
      destruct x; cbn [skip_elem] in HS; try (apply skip_elem_len in HS; cbn [length]; lia). destruct (NE t' eq_refl). }
    apply Nat.eqb_neq. apply Inv_covers in IF. cbn [length] in IF. lia.
Qed.

Lemma handle_top r ns sn attrs toks tm script h :
  lookup_top r sn = Some h -> h <> 0 ->
  handle r ns sn attrs toks tm script =
  let b := fst (next_beh script) in mkout [EvTop h sn (firstn (hb_reads b) toks)] [] (ret_of b).
Proof.
  intros E Hz. unfold handle, handle_gen. rewrite E. unfold run_top. destruct h as [|h]; [congruence|].
  destruct (next_beh script) as [b s']. rewrite run_reads_no_nest, take_n_u. reflexivity.
Qed.

Lemma handle_not_stanza r ns sn attrs toks tm script :
  lookup_top r sn = None -> stanza_is sn ns = false -> handle r ns sn attrs toks tm script = out_nothing.
Proof. intros E1 E2. unfold handle, handle_gen. rewrite E1, E2. reflexivity. Qed.

Lemma handle_iq r ns sn attrs toks tm script :
  lookup_top r sn = None -> stanza_is sn ns = true -> snd sn = str "iq" ->
  handle r ns sn attrs toks tm script = iq_router no_nest r sn attrs toks tm script.
Proof. intros E1 E2 E3. unfold handle, handle_gen. rewrite E1, E2, E3. reflexivity. Qed.

Lemma stanza_is_spec sn ns :
  stanza_is sn ns = true <->
  (snd sn = str "iq" \/ snd sn = str "message" \/ snd sn = str "presence") /\ (ns = [] \/ fst sn = ns).
Proof.
  unfold stanza_is. rewrite andb_true_iff, orb_true_iff, in_list_In, bytes_eqb_eq, stanza_locals_eq.
  assert (is_nil ns = true <-> ns = []) as -> by (destruct ns; split; (reflexivity || discriminate)).
  cbn [In]. split; intros [H1 H2]; (split; [|exact H2]); decompose [or] H1; auto; contradiction.
Qed.

(* the options given to mux.New contain Handle / IQ / Message / Presence (typ, p, handler h) for table t *)
Definition registered (ops : list regop) (t : tbl) (typ : bytes) (p : name) (h : hid) : Prop :=
  match t with
  | TblTop => In (RHandle p (HOk h)) ops
  | TblIq => In (RIq typ p (HOk h)) ops
  | TblMsg => In (RMsg typ p (HOk h)) ops
  | TblPres => In (RPres typ p (HOk h)) ops
  end.

Lemma entry_registered ops r t typ p h :
  new_mux ops = Some r ->
  (entry (table_of r t) (stanza_of t) (type_of t typ) p h <-> registered ops t typ p h).
Proof.
  intro H. destruct (new_mux_spec _ _ H) as (_ & _ & _ & D). unfold entry. rewrite D. split.
  - intros [op (Hin & Hk & Hh)].
    destruct op as [n hv|ty n hv|ty n hv|ty n hv]; cbn [op_tbl_key op_h] in *; inversion Hk; subst; exact Hin.
  - intro Hr. destruct t; cbn [registered] in Hr; eexists; (split; [exact Hr|]); split; reflexivity.
Qed.

Lemma for_children_no_replies r k sn typ toks tm script : o_replies (for_children no_nest r k sn typ toks tm script) = [].
Proof.
  unfold for_children. destruct (fc_loop _ _ _ _ _ _ _ _) as [|evs|evs b ie f]; try reflexivity.
  destruct ie; [reflexivity|]. destruct f; [reflexivity|]. destruct (length (b_buf b) =? 2); [|reflexivity].
  destruct (lookup_child r k typ _) as [[|h]|]; try reflexivity.
  destruct (next_beh _) as [bh s']. destruct (run_reads _ _ _ _) as [[got br] ne]. reflexivity.
Qed.

Lemma spec_events_none r k typ all names script :
  (forall n, In n names -> lookup_child r k typ n = None) -> spec_events r k typ all names script = ([], false).
Proof.
  induction names as [|n ns IH]; intro H; [reflexivity|].
  cbn [spec_events]. rewrite (H n (or_introl eq_refl)). apply IH. intros m Hm. apply H. right. exact Hm.
Qed.

Lemma spec_events_prefix r k typ all names : forall script e,
  In e (fst (spec_events r k typ all names script)) -> exists h n, e = child_event k h typ (firstn n all).
Proof.
  induction names as [|nm ns IH]; intros script e H; [destruct H|].
  cbn [spec_events] in H. destruct (lookup_child r k typ nm) as [h|]; [|exact (IH _ _ H)].
  destruct (next_beh script) as [b s']. specialize (IH s' e). destruct (spec_events r k typ all ns s') as [evs f].
  destruct H as [<-|H]; [eauto|exact (IH H)].
Qed.

(* the handlers the element children select, in document order *)
Fixpoint chosen (r : registry) (k : skind) (typ : bytes) (names : list name) : list hid :=
  match names with
  | [] => []
  | n :: ns => match lookup_child r k typ n with Some h => h :: chosen r k typ ns | None => chosen r k typ ns end
  end.

Definition event_hid (e : event) : hid :=
  match e with EvTop h _ _ | EvIq h _ _ _ | EvMsg h _ _ | EvPres h _ _ => h | EvNested _ _ _ _ => 0 end.

Lemma spec_events_chosen r k typ all names : forall script,
  map event_hid (fst (spec_events r k typ all names script)) = chosen r k typ names.
Proof.
  induction names as [|n ns IH]; intro script; [reflexivity|].
  cbn [spec_events chosen]. destruct (lookup_child r k typ n) as [h|]; [|apply IH].
  destruct (next_beh script) as [b s']. specialize (IH s'). destruct (spec_events r k typ all ns s') as [evs f].
  cbn [fst map] in *. rewrite IH. destruct k; reflexivity.
Qed.

Lemma lookup_nonzero r t typ n h : nonzero r -> lookup r t typ n = Some h -> h <> 0.
Proof.
  intros NZ H. pose proof (lookup_most_specific r t typ n) as L. rewrite H in L.
  destruct L as (p & E & _). exact (NZ _ _ _ E).
Qed.

Definition child_tbl (k : skind) : tbl := match k with SMsg => TblMsg | SPres => TblPres end.

Lemma lookup_child_lookup r k typ n : lookup_child r k typ n = lookup r (child_tbl k) typ n.
Proof. destruct k; reflexivity. Qed.

(* an IQ that no handler is chosen for (and whose reader does not fail with an
   error other than io.EOF before the payload is known) *)
Definition iq_unhandled (r : registry) (h : hdr) (toks : list tok) (tm : term) : Prop :=
  match drop_ws toks with
  | [] => t_err tm = false /\ (h_type h = str "result" -> lookup_iq r (h_type h) ([], []) = None)
  | TEnd :: _ => h_type h = str "result" -> lookup_iq r (h_type h) ([], []) = None
  | x :: rest =>
      fin_err tm rest <> Some true /\
      match x with TStart n => lookup_iq r (h_type h) n = None | _ => True end
  end.

Definition is_request (typ : bytes) : bool := bytes_eqb typ (str "get") || bytes_eqb typ (str "set").

(* the defaults clause for IQs, as the property states it *)
Definition iq_defaults_at (r : registry) (ns : bytes) (sn : name) (attrs : list attr) (toks : list tok)
  (tm : term) (script : list hbeh) (h : hdr) : Prop :=
  lookup_top r sn = None -> stanza_is sn ns = true -> snd sn = str "iq" -> new_iq sn attrs = Some h ->
  iq_unhandled r h toks tm ->
  o_events (handle r ns sn attrs toks tm script) = [] /\
  o_replies (handle r ns sn attrs toks tm script) =
    (if is_request (h_type h) then [service_unavailable sn h] else []).

Lemma result_eqb typ : bytes_eqb typ iqtype_result = true <-> typ = str "result".
Proof. destruct iq_types as (_ & _ & R & _). rewrite R. apply bytes_eqb_eq. Qed.

Definition left_to_fallback (sn : name) (h : hdr) (o : outcome) : Prop :=
  o_events o = [] /\ o_replies o = o_replies (iq_fallback sn h).

(* an unhandled IQ does not make the router fail, and whatever payload a handler is
   looked up for selects none *)
Lemma way_unhandled r h toks tm :
  iq_unhandled r h toks tm ->
  match iq_way_of (bytes_eqb (h_type h) iqtype_result) tm (drop_ws toks) with
  | WErr => False
  | WRefuse => True
  | WInvoke p _ => lookup_iq r (h_type h) (match p with Some n => n | None => ([], []) end) = None
  end.
Proof.
  unfold iq_unhandled, iq_way_of. destruct (drop_ws toks) as [|x rest].
  - intros [-> HU]. destruct (bytes_eqb _ _) eqn:ER; [apply HU, result_eqb, ER|exact I].
  - destruct x as [n| |ws|].
    2: { intro HU. destruct (bytes_eqb _ _) eqn:ER; [apply HU, result_eqb, ER|exact I]. }
    all: intros [Uf U]; destruct (fin_err tm rest) as [[|]|]; try congruence; try exact I.
    destruct (bytes_eqb _ _); [exact U|exact I].
Qed.

Lemma iq_unhandled_replies r ns sn attrs toks tm script h :
  lookup_top r sn = None -> stanza_is sn ns = true -> snd sn = str "iq" -> new_iq sn attrs = Some h ->
  iq_unhandled r h toks tm ->
  left_to_fallback sn h (handle r ns sn attrs toks tm script).
Proof.
  intros E1 E2 E3 Hh U.
  rewrite (handle_iq _ _ _ _ _ _ _ E1 E2 E3), iq_router_way, Hh. apply way_unhandled in U.
  destruct (iq_way_of _ tm (drop_ws toks)) as [| |p st]; [destruct U|split; reflexivity|].
  cbn [iq_go]. rewrite (invoke_iq_left _ _ _ _ _ _ _ _ U), iq_fallback_spec. split; [|reflexivity].
  destruct (in_list _ _); reflexivity.
Qed.

Definition child_local (k : skind) : bytes := match k with SMsg => str "message" | SPres => str "presence" end.
Definition child_hdr (k : skind) (sn : name) (attrs : list attr) : option hdr :=
  match k with SMsg => new_message sn attrs | SPres => new_presence sn attrs end.

Lemma handle_children r ns sn attrs toks tm script k h :
  lookup_top r sn = None -> stanza_is sn ns = true -> snd sn = child_local k -> child_hdr k sn attrs = Some h ->
  handle r ns sn attrs toks tm script = for_children no_nest r k sn (h_type h) toks tm script.
Proof.
  intros E1 E2 E3 Hh. unfold handle, handle_gen, msg_router, pres_router. rewrite E1, E2, E3.
  destruct k; cbn [child_local child_hdr] in *; rewrite Hh; reflexivity.
Qed.

(* for the zero name all four probes are the same one: the lookup made for the
   empty stanza can find the bare type wildcard and nothing else *)
Lemma lookup_zero r t typ :
  t <> TblTop ->
  lookup r t typ ([], []) = assoc (mkkey (stanza_of t) (type_of t typ) ([], [])) (table_of r t).
Proof.
  intro Ht. rewrite lookup_cascade.
  destruct t; [contradiction| | |]; unfold cascade_of, iq_cascade, msg_cascade, pres_cascade;
    cbn [cascade_lookup proj fst snd table_of]; destruct (assoc _ _); reflexivity.
Qed.
