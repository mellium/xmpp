(* C14/Properties.v — the property theorems of C14: "the multiplexer always
   picks the most specific registered handler".  The matching vocabulary
   (matches, rank, registered) is defined in C14/Proofs.v; the readers with
   their terminal condition tm, and handle_gen N / handle_in for several
   stanzas on one mux, in C14/Model.v.  Every theorem that mentions tm holds
   for all four kinds of reader. *)
From XV Require Import lib.Bytes gen.Mux C14.Model C14.Proofs C14.Reentry.

(* Every lookup (Handler, IQHandler, MessageHandler, PresenceHandler) returns the
   handler of a registered pattern of the element's own kind and type that
   matches the name and is maximal in the specificity order; it returns the
   default exactly when no registered pattern of that kind and type matches.
   The order of the probes is read from the source (gen/Mux.v). *)
Theorem C14_most_specific : forall ops r t typ e,
  new_mux ops = Some r ->
  match lookup r t typ e with
  | Some h =>
      exists p, registered ops t typ p h /\ matches (bare_of t) p e /\
                forall p' h', registered ops t typ p' h' -> matches (bare_of t) p' e -> rank p' <= rank p
  | None => forall p h, registered ops t typ p h -> ~ matches (bare_of t) p e
  end.
Proof.
  intros ops r t typ e H. pose proof (lookup_most_specific r t typ e) as L.
  destruct (lookup r t typ e); unfold most_specific, no_match in L;
    setoid_rewrite (entry_registered _ _ _ _ _ _ H) in L; exact L.
Qed.
Print Assumptions C14_most_specific.

(* The most specific handler is unique.  (Stated for any table with unique keys;
   for a mux built by mux.New, new_mux_spec gives unique_keys and
   entry_registered turns entries into the registered patterns of
   C14_most_specific.) *)
Theorem C14_choice_is_unique : forall t stz typ bare e h1 h2,
  unique_keys t -> most_specific t stz typ bare e h1 -> most_specific t stz typ bare e h2 -> h1 = h2.
Proof.
  intros t stz typ bare e h1 h2 U [p1 [E1 [M1 B1]]] [p2 [E2 [M2 B2]]].
  assert (R : rank p1 = rank p2) by (pose proof (B1 _ _ E2 M2); pose proof (B2 _ _ E1 M1); lia).
  assert (P : p1 = p2).
  { destruct (rank_eq _ _ R) as [F S]. destruct M1 as (A1 & C1 & _), M2 as (A2 & C2 & _).
    destruct p1, p2; cbn [fst snd] in *. f_equal; eapply comp_matches_same; eassumption. }
  subst p2. pose proof (in_assoc _ _ _ U E1) as A1. pose proof (in_assoc _ _ _ U E2) as A2. congruence.
Qed.
Print Assumptions C14_choice_is_unique.

(* Top-level dispatch: a matching top-level pattern wins over everything (its
   handler runs once, on the element's own tokens); an element that is not a
   stanza of the mux's namespace and matches nothing is ignored. *)
Theorem C14_top_level_dispatch : forall ops r ns sn attrs toks tm script,
  new_mux ops = Some r -> valid_ids ops ->
  match lookup_top r sn with
  | Some h =>
      handle r ns sn attrs toks tm script =
      let b := fst (next_beh script) in mkout [EvTop h sn (firstn (hb_reads b) toks)] [] (ret_of b)
  | None => stanza_is sn ns = false -> handle r ns sn attrs toks tm script = out_nothing
  end.
Proof.
  intros ops r ns sn attrs toks tm script H V. pose proof (new_mux_nonzero _ _ H V) as NZ.
  destruct (lookup_top r sn) as [h|] eqn:E.
  - apply handle_top; [exact E|]. exact (lookup_nonzero r TblTop [] sn h NZ E).
  - intro S. apply handle_not_stanza; assumption.
Qed.
Print Assumptions C14_top_level_dispatch.

(* IQs: the handler chosen (by C14_most_specific) for the IQ's type and the name
   of its first payload element - leading whitespace skipped - runs exactly once
   and can read the rest of the IQ's content, never its end tag.  (rest <> []:
   the payload's start element is not the reader's last token, as in every IQ
   that is closed.) *)
Theorem C14_iq_dispatch : forall ops r ns sn attrs toks tm script h n rest hd,
  new_mux ops = Some r -> valid_ids ops ->
  lookup_top r sn = None -> stanza_is sn ns = true -> snd sn = str "iq" ->
  new_iq sn attrs = Some h ->
  drop_ws toks = TStart n :: rest -> rest <> [] ->
  lookup_iq r (h_type h) n = Some hd ->
  handle r ns sn attrs toks tm script =
  let b := fst (next_beh script) in
  mkout [EvIq hd (h_type h) (Some n) (firstn (hb_reads b) (until_close 1 rest))] [] (ret_of b).
Proof.
  intros ops r ns sn attrs toks tm script h n rest hd H V E1 E2 E3 Hh Hd Hne Hl.
  pose proof (new_mux_nonzero _ _ H V) as NZ.
  rewrite (handle_iq _ _ _ _ _ _ _ E1 E2 E3), iq_router_way, Hh, Hd.
  destruct rest as [|y rest']; [contradiction|]. cbn [iq_way_of fin_err iq_go].
  exact (invoke_iq_handled _ _ _ (Some n) _ _ _ _ Hl (lookup_nonzero r TblIq (h_type h) n hd NZ Hl)).
Qed.
Print Assumptions C14_iq_dispatch.

(* Defaults for IQs, as the property states them: an IQ no handler is chosen for
   (no pattern matches its payload; or it has no payload element at all) runs no
   handler and is answered by exactly one service-unavailable error with swapped
   addresses if it is a get or a set, and by nothing otherwise. *)
Definition C14_defaults_statement : Prop :=
  forall r ns sn attrs toks tm script h, iq_defaults_at r ns sn attrs toks tm script h.

(* Proved for the four IQ types of RFC 6120. *)
Theorem C14_defaults_partial : forall r ns sn attrs toks tm script h,
  In (h_type h) [str "get"; str "set"; str "result"; str "error"] ->
  iq_defaults_at r ns sn attrs toks tm script h.
Proof.
  intros r ns sn attrs toks tm script h HT E1 E2 E3 Hh U.
  destruct (iq_unhandled_replies _ _ _ _ _ _ script _ E1 E2 E3 Hh U) as [A B].
  split; [exact A|]. rewrite B, iq_fallback_spec.
  destruct HT as [T|[T|[T|[T|[]]]]]; rewrite <- T; reflexivity.
Qed.
Print Assumptions C14_defaults_partial.

(* False as stated for the code as it is: an IQ whose type attribute is missing
   (or not one of the four) is answered too (case 0 of mux's TestFallback
   expects that answer). *)
Theorem C14_defaults_refuted :
  exists r ns sn attrs toks tm script h, ~ iq_defaults_at r ns sn attrs toks tm script h.
Proof.
  exists empty_reg, (str "jabber:client"), (str "jabber:client", str "iq"),
         [mkattr [] (str "id") (str "x1") None], [TStart (str "x", str "a"); TEnd; TEnd], (mkterm false false), [],
         (mkhdr [] (str "x1") None None []).
  intro H. unfold iq_defaults_at in H.
  assert (U : iq_unhandled empty_reg (mkhdr [] (str "x1") None None []) [TStart (str "x", str "a"); TEnd; TEnd] (mkterm false false)).
  { split; [discriminate|reflexivity]. }
  destruct (H eq_refl eq_refl eq_refl eq_refl U) as [_ H']. vm_compute in H'. discriminate.
Qed.
Print Assumptions C14_defaults_refuted.

(* Messages and presences (k): for every token sequence in which the stanza is
   closed, every script of handler behaviours (how many tokens each invoked
   handler reads, whether it fails) and every terminal condition of the reader
   (in particular: the stanza's end element returned together with io.EOF),
   what forChildren does - bufReader offsets, Inner/InnerElement counters, Iter
   with draining, the "buffer has length 2" rule - equals [children_spec]: one
   invocation per element child whose name selects a handler, in document
   order, each given the first (as many as it reads) tokens of the WHOLE stanza
   starting at its start element; an error iff one of them failed. *)
Theorem C14_child_dispatch_replays_whole_stanza : forall ops r ns sn attrs toks tm script k h rest,
  new_mux ops = Some r -> valid_ids ops ->
  lookup_top r sn = None -> stanza_is sn ns = true -> snd sn = child_local k -> child_hdr k sn attrs = Some h ->
  skip_elem 0 toks = Some rest ->
  handle r ns sn attrs toks tm script = children_spec r k sn (h_type h) toks script.
Proof.
  intros ops r ns sn attrs toks tm script k h rest H V E1 E2 E3 Hh HS.
  pose proof (new_mux_nonzero _ _ H V) as NZ.
  rewrite (handle_children _ _ _ _ _ _ _ _ _ E1 E2 E3 Hh).
  apply (for_children_spec _ _ _ _ _ _ _ rest); [|exact HS].
  intros n hd. rewrite lookup_child_lookup. apply lookup_nonzero, NZ.
Qed.
Print Assumptions C14_child_dispatch_replays_whole_stanza.

(* ... in particular every handler that runs is handed a prefix of the complete
   stanza, from its start element, regardless of what other handlers consumed *)
Theorem C14_every_child_handler_sees_the_stanza_from_its_start :
  forall ops r ns sn attrs toks tm script k h rest e,
  new_mux ops = Some r -> valid_ids ops ->
  lookup_top r sn = None -> stanza_is sn ns = true -> snd sn = child_local k -> child_hdr k sn attrs = Some h ->
  skip_elem 0 toks = Some rest ->
  In e (o_events (handle r ns sn attrs toks tm script)) ->
  exists hd n, e = child_event k hd (h_type h) (firstn n (TStart sn :: toks)).
Proof.
  intros ops r ns sn attrs toks tm script k h rest e H V E1 E2 E3 Hh HS Hin.
  rewrite (C14_child_dispatch_replays_whole_stanza _ _ _ _ _ _ _ _ _ _ _ H V E1 E2 E3 Hh HS) in Hin.
  destruct (children_spec_cases r k sn (h_type h) toks script) as [[t' ->]|[_ E]].
  - unfold children_spec in Hin. destruct (lookup_child r k (h_type h) ([], [])) as [hd|]; [|destruct Hin].
    destruct Hin as [<-|[]]. eauto.
  - rewrite E in Hin.
    pose proof (spec_events_prefix r k (h_type h) (TStart sn :: toks) (child_names 0 toks) script e) as P.
    destruct (spec_events _ _ _ _ _ _) as [evs f]. exact (P Hin).
Qed.
Print Assumptions C14_every_child_handler_sees_the_stanza_from_its_start.

(* ... and the handlers that run are those selected by the element children, in order *)
Theorem C14_child_handlers_are_the_selected_ones : forall ops r ns sn attrs toks tm script k h rest,
  new_mux ops = Some r -> valid_ids ops ->
  lookup_top r sn = None -> stanza_is sn ns = true -> snd sn = child_local k -> child_hdr k sn attrs = Some h ->
  skip_elem 0 toks = Some rest -> (forall t', toks <> TEnd :: t') ->
  map event_hid (o_events (handle r ns sn attrs toks tm script)) = chosen r k (h_type h) (child_names 0 toks).
Proof.
  intros ops r ns sn attrs toks tm script k h rest H V E1 E2 E3 Hh HS NE.
  rewrite (C14_child_dispatch_replays_whole_stanza _ _ _ _ _ _ _ _ _ _ _ H V E1 E2 E3 Hh HS).
  destruct (children_spec_cases r k sn (h_type h) toks script) as [[t' ->]|[_ ->]]; [destruct (NE t' eq_refl)|].
  pose proof (spec_events_chosen r k (h_type h) (TStart sn :: toks) (child_names 0 toks) script) as C.
  destruct (spec_events _ _ _ _ _ _) as [evs f]. exact C.
Qed.
Print Assumptions C14_child_handlers_are_the_selected_ones.

(* Defaults for messages and presences: the mux never writes anything, and runs
   nothing when no child selects a handler (and, for an empty stanza, there is
   no type wildcard). *)
Theorem C14_defaults_children_write_nothing : forall r ns sn attrs toks tm script k h,
  lookup_top r sn = None -> stanza_is sn ns = true -> snd sn = child_local k -> child_hdr k sn attrs = Some h ->
  o_replies (handle r ns sn attrs toks tm script) = [].
Proof.
  intros r ns sn attrs toks tm script k h E1 E2 E3 Hh.
  rewrite (handle_children _ _ _ _ _ _ _ _ _ E1 E2 E3 Hh). apply for_children_no_replies.
Qed.
Print Assumptions C14_defaults_children_write_nothing.

Theorem C14_defaults_children_unhandled : forall ops r ns sn attrs toks tm script k h rest,
  new_mux ops = Some r -> valid_ids ops ->
  lookup_top r sn = None -> stanza_is sn ns = true -> snd sn = child_local k -> child_hdr k sn attrs = Some h ->
  skip_elem 0 toks = Some rest ->
  (forall n, In n (child_names 0 toks) -> lookup_child r k (h_type h) n = None) ->
  (forall t', toks = TEnd :: t' -> lookup_child r k (h_type h) ([], []) = None) ->
  handle r ns sn attrs toks tm script = out_nothing.
Proof.
  intros ops r ns sn attrs toks tm script k h rest H V E1 E2 E3 Hh HS HN HW.
  rewrite (C14_child_dispatch_replays_whole_stanza _ _ _ _ _ _ _ _ _ _ _ H V E1 E2 E3 Hh HS).
  destruct (children_spec_cases r k sn (h_type h) toks script) as [[t' ->]|[_ ->]].
  - unfold children_spec. rewrite (HW t' eq_refl). reflexivity.
  - rewrite (spec_events_none _ _ _ _ _ _ HN). reflexivity.
Qed.
Print Assumptions C14_defaults_children_unhandled.

(* Invariant behind the replay: a reader whose buffer is a prefix of the stanza,
   with the underlying reader right behind it, hands out the next k tokens of
   the stanza and keeps the invariant (buffer only grows). *)
Theorem C14_replay_buffer_invariant : forall tm all k b v,
  Inv all b v ->
  exists b', take_n (b_token tm) k b = (firstn k v, b') /\ Inv all b' (skipn k v) /\
             length (b_buf b) <= length (b_buf b').
Proof. exact take_n_b. Qed.
Print Assumptions C14_replay_buffer_invariant.

(* At the end of its buffer bufReader.Token fetches a token from the underlying
   reader, appends it to the buffer and hands it on together with the error
   that came with it - also when that token is the reader's last one and comes
   with io.EOF or another error (fin_err tm [] = Some _ for such readers). *)
Theorem C14_token_with_error_is_buffered : forall tm b x u,
  b_off b = length (b_buf b) -> b_und b = x :: u ->
  b_token tm b = RTok x (fin_err tm u) (mkbr (b_buf b ++ [x]) (S (b_off b)) u).
Proof. exact b_token_fetch. Qed.
Print Assumptions C14_token_with_error_is_buffered.

(* An empty message or presence goes to the type wildcard of its type (and only
   there), which is offered the whole (two-token) stanza. *)
Theorem C14_empty_stanza_to_wildcard : forall ops r ns sn attrs rest tm script k h,
  new_mux ops = Some r -> valid_ids ops ->
  lookup_top r sn = None -> stanza_is sn ns = true -> snd sn = child_local k -> child_hdr k sn attrs = Some h ->
  handle r ns sn attrs (TEnd :: rest) tm script =
  match lookup_child r k (h_type h) ([], []) with
  | None => out_nothing
  | Some hd =>
      let b := fst (next_beh script) in
      mkout [child_event k hd (h_type h) (firstn (hb_reads b) (TStart sn :: TEnd :: rest))] [] (ret_of b)
  end.
Proof.
  intros ops r ns sn attrs rest tm script k h H V E1 E2 E3 Hh.
  exact (C14_child_dispatch_replays_whole_stanza _ _ _ _ _ (TEnd :: rest) _ _ _ _ rest H V E1 E2 E3 Hh eq_refl).
Qed.
Print Assumptions C14_empty_stanza_to_wildcard.

(* ... and that lookup - made with the zero name, not with the stanza's own -
   finds exactly the registered bare type wildcard, for every set of registered
   patterns: a pattern with a name (for instance the stanza element's own local
   name "message" or its name space jabber:client, registered for payloads such
   as body or show) is never chosen for the empty stanza. *)
Theorem C14_empty_stanza_lookup_is_the_bare_wildcard : forall ops r k typ hd,
  new_mux ops = Some r ->
  (lookup_child r k typ ([], []) = Some hd <-> registered ops (child_tbl k) typ ([], []) hd).
Proof.
  intros ops r k typ hd H. destruct (new_mux_spec _ _ H) as (U & _).
  rewrite lookup_child_lookup, lookup_zero by (destruct k; discriminate).
  rewrite <- (entry_registered _ _ _ _ _ _ H). split.
  - apply assoc_some_in.
  - apply in_assoc. apply U.
Qed.
Print Assumptions C14_empty_stanza_lookup_is_the_bare_wildcard.

(* Registration: a nil handler, a nil func through a Func wrapper, a top-level
   pattern with a stanza name, or a pattern registered twice make mux.New panic;
   any other sequence of options is accepted. *)
Theorem C14_registration_refusals : forall ops,
  (exists op, In op ops /\ (op_h op = HNil \/ op_h op = HNilFunc \/ ~ top_ok op)) \/ ~ NoDup (map op_tbl_key ops) ->
  new_mux ops = None.
Proof.
  intros ops H. destruct (new_mux ops) as [r|] eqn:E; [|reflexivity]. exfalso.
  destruct (proj1 (new_mux_iff ops) (ex_intro _ r E)) as [N O].
  destruct H as [[op (Hin & Hbad)]|Hd]; [|exact (Hd N)].
  destruct (O _ Hin) as ([h Hh] & Ht). destruct Hbad as [Hb|[Hb|Hb]]; [congruence|congruence|exact (Hb Ht)].
Qed.
Print Assumptions C14_registration_refusals.

Theorem C14_registration_accepts : forall ops,
  NoDup (map op_tbl_key ops) -> (forall op, In op ops -> (exists h, op_h op = HOk h) /\ top_ok op) ->
  exists r, new_mux ops = Some r.
Proof.
  intros ops N H. apply new_mux_iff. auto.
Qed.
Print Assumptions C14_registration_accepts.

(* Lookups commute with injective renamings of namespaces and local names that
   keep the wildcard: the lookups observe nothing but equalities between names
   and emptiness, so the 2 x 2 name universe of the harness exercises every case
   the functions can distinguish. *)
Theorem C14_renaming_invariance : forall fs fl : bytes -> bytes,
  (forall a b, fs a = fs b -> a = b) -> (forall a b, fl a = fl b -> a = b) -> fs [] = [] -> fl [] = [] ->
  forall r t typ n, lookup (rename_reg fs fl r) t typ (rename fs fl n) = lookup r t typ n.
Proof.
  intros fs fl fs_inj fl_inj fs_nil fl_nil r t typ n.
  destruct t; apply (cascade_rename fs fl fs_inj fl_inj fs_nil fl_nil).
Qed.
Print Assumptions C14_renaming_invariance.

(* Dispatch of a stanza does not depend on what else the mux is in the middle of:
   for every N - whatever other dispatches the stanza's handlers start on the same
   mux, at whatever point of their reading, and whatever those do - the handlers
   invoked for this stanza, the tokens each of them obtains, the replies written
   and the result are those of [handle] (strip forgets the records EvNested of
   the other dispatches, nothing else). *)
Theorem C14_dispatch_is_independent_of_other_dispatches : forall N r ns sn attrs toks tm script,
  strip (handle_gen N r ns sn attrs toks tm script) = handle r ns sn attrs toks tm script.
Proof. intros. exact (proj1 (handle_gen_alone _ _ _ _ _ _ _ _)). Qed.
Print Assumptions C14_dispatch_is_independent_of_other_dispatches.

(* ... so the clause "every handler chosen for a child is handed the complete
   stanza from its start element" holds for a message or presence on a mux that
   is re-entered by its handlers (or shared with another session whose stanza is
   dispatched while a handler of this one is parked between two reads) *)
Theorem C14_reentrant_child_dispatch_replays_whole_stanza : forall N ops r ns sn attrs toks tm script k h rest,
  new_mux ops = Some r -> valid_ids ops ->
  lookup_top r sn = None -> stanza_is sn ns = true -> snd sn = child_local k -> child_hdr k sn attrs = Some h ->
  skip_elem 0 toks = Some rest ->
  strip (handle_gen N r ns sn attrs toks tm script) = children_spec r k sn (h_type h) toks script.
Proof.
  intros N ops r ns sn attrs toks tm script k h rest H V E1 E2 E3 Hh HS.
  rewrite C14_dispatch_is_independent_of_other_dispatches.
  exact (C14_child_dispatch_replays_whole_stanza _ _ _ _ _ _ _ _ _ _ _ H V E1 E2 E3 Hh HS).
Qed.
Print Assumptions C14_reentrant_child_dispatch_replays_whole_stanza.

(* ... and for stanzas dispatched from handlers of stanzas dispatched from
   handlers ...: the dispatch of e and every dispatch nested in it, at any depth,
   is - once the records of the dispatches nested in IT are set aside - the
   dispatch of that stanza alone (all_solo, C14/Reentry.v). *)
Theorem C14_every_dispatch_on_a_shared_mux_is_a_dispatch_alone : forall r ns elems e,
  all_solo r ns elems e (handle_in r ns elems e).
Proof. intros. unfold handle_in. apply handle_from_all_solo; lia. Qed.
Print Assumptions C14_every_dispatch_on_a_shared_mux_is_a_dispatch_alone.

(* What ties this to the code: no field of the shared ServeMux is assigned,
   incremented, sliced, appended to or has its address taken by anything but New
   and the options it applies, and forChildren allocates its replay buffer itself
   (make): state of one dispatch does not live on the mux. *)
Theorem C14_mux_has_no_per_call_state :
  servemux_fields_touched_after_new = [] /\ forchildren_buffer_is_local = true.
Proof. exact (conj mux_is_immutable_after_new replay_buffer_is_per_call). Qed.
Print Assumptions C14_mux_has_no_per_call_state.

(* The cascades, registration flags, stanza strings, fallback, lookup-argument
   and buffering tables are the ones in the source today.  (The remaining
   tables the proofs compute through - stanza_locals, router_map, the IQ and
   message types - are stanza_locals_eq, router_map_eq, iq_types and
   message_types_eq in C14/Proofs.v.) *)
Theorem C14_tables :
  (top_cascade = [(TblTop, true, true); (TblTop, false, true); (TblTop, true, false)] /\
   iq_cascade = [(TblIq, true, true); (TblIq, false, true); (TblIq, true, false); (TblIq, false, false)] /\
   msg_cascade = [(TblMsg, true, true); (TblMsg, false, true); (TblMsg, true, false); (TblMsg, false, false)] /\
   pres_cascade = [(TblPres, true, true); (TblPres, false, true); (TblPres, true, false); (TblPres, false, false)]) /\
  (reg_handle = (TblTop, true, true, true) /\ reg_iq = (TblIq, true, true, false) /\
   reg_message = (TblMsg, true, true, false) /\ reg_presence = (TblPres, true, true, false)) /\
  (handlefunc_refuses_nil_func = true /\ iqfunc_refuses_nil_func = true /\
   messagefunc_refuses_nil_func = true /\ presencefunc_refuses_nil_func = true) /\
  (iq_stanza = reg_iq_stanza /\ msg_stanza = reg_message_stanza /\ pres_stanza = reg_presence_stanza) /\
  (fallback_silent_types = [str "error"; str "result"] /\ fallback_swaps_addresses = true /\
   fallback_reply_type = str "error" /\ fallback_error_type = str "cancel" /\
   fallback_condition = str "service-unavailable") /\
  (child_lookup_arg_message = NsChild /\ child_lookup_arg_presence = NsChild /\
   wildcard_lookup_arg_message = NsZero /\ wildcard_lookup_arg_presence = NsZero) /\
  bufreader_buffers_token_with_error = true.
Proof.
  exact (conj (conj top_cascade_eq (conj iq_cascade_eq (conj msg_cascade_eq pres_cascade_eq)))
        (conj reg_flags (conj func_guards (conj stanza_keys_agree (conj fallback_tables
        (conj lookup_args bufreader_buffers)))))).
Qed.
Print Assumptions C14_tables.
