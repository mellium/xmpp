(* C14/Examples.v — non-vacuity: concrete, non-trivial instances of the
   hypotheses of the property theorems, and a few worked dispatches. *)
From XV Require Import lib.Bytes gen.Mux C14.Model C14.Proofs C14.Reentry.

Definition nsc : bytes := str "jabber:client".
Definition sep_eof : term := mkterm false false.   (* (nil, io.EOF) after the last token: xml.Decoder *)
Definition with_eof : term := mkterm false true.   (* the last token together with io.EOF: xmlstream.Wrap *)
Definition with_err : term := mkterm true true.    (* the last token together with another error *)
Definition xa : name := (str "x", str "a").
Definition yb : name := (str "y", str "b").

(* a registry: namespace-only and local-only message patterns, an exact IQ
   pattern, a type wildcard for chat messages, a top-level pattern *)
Definition ex_ops : list regop :=
  [RMsg (str "chat") (str "x", []) (HOk 1); RMsg (str "chat") ([], str "a") (HOk 2);
   RMsg (str "chat") ([], []) (HOk 3); RIq (str "get") xa (HOk 4); RHandle (str "z", []) (HOk 5);
   RPres [] yb (HOk 6); RMsg (str "chat") yb (HOk 7)].

Definition ex_reg : registry :=
  match new_mux ex_ops with Some r => r | None => empty_reg end.

Example ex_new_mux : new_mux ex_ops = Some ex_reg.
Proof. vm_compute. reflexivity. Qed.

Example ex_valid_ids : valid_ids ex_ops.
Proof. intros op H. cbn in H. repeat (destruct H as [H|H]; [subst op; discriminate|]). destruct H. Qed.

(* local name only beats namespace only; both beat the bare wildcard *)
Example ex_local_beats_space : lookup ex_reg TblMsg (str "chat") xa = Some 2.
Proof. vm_compute. reflexivity. Qed.
Example ex_space_beats_bare : lookup ex_reg TblMsg (str "chat") (str "x", str "c") = Some 1.
Proof. vm_compute. reflexivity. Qed.
Example ex_bare : lookup ex_reg TblMsg (str "chat") (str "q", str "q") = Some 3.
Proof. vm_compute. reflexivity. Qed.
Example ex_other_type : lookup ex_reg TblMsg (str "normal") xa = None.
Proof. vm_compute. reflexivity. Qed.
Example ex_matches : matches true ([], str "a") xa /\ matches true (str "x", []) xa /\ rank (str "x", []) < rank ([], str "a").
Proof. unfold matches, comp_matches, rank. cbn. repeat split; auto. Qed.
Example ex_registered : registered ex_ops TblMsg (str "chat") ([], str "a") 2.
Proof. cbn. auto. Qed.

(* hypotheses of the dispatch theorems *)
Definition msg_name : name := (nsc, str "message").
Definition chat_attrs : list attr :=
  [mkattr [] (str "type") (str "chat") None; mkattr [] (str "from") (str "a@b/c") (Some (str "a@b/c"))].

Example ex_not_top : lookup_top ex_reg msg_name = None.
Proof. vm_compute. reflexivity. Qed.
Example ex_stanza_is : stanza_is msg_name nsc = true /\ snd msg_name = child_local SMsg.
Proof. vm_compute. split; reflexivity. Qed.
Example ex_hdr : child_hdr SMsg msg_name chat_attrs = Some (mkhdr (str "chat") [] None (Some (str "a@b/c")) []).
Proof. vm_compute. reflexivity. Qed.

(* <message type='chat'><a xmlns='x'>text</a><b xmlns='y'/></message> *)
Definition two_children : list tok := [TStart xa; TText false; TEnd; TStart yb; TEnd; TEnd].
Example ex_closed : skip_elem 0 two_children = Some [].
Proof. reflexivity. Qed.
Example ex_child_names : child_names 0 two_children = [xa; yb].
Proof. reflexivity. Qed.

(* the first handler reads the whole stanza, the second still sees it from the start *)
Example ex_replay :
  handle ex_reg nsc msg_name chat_attrs two_children sep_eof [mkbeh 99 false; mkbeh 3 false] =
  mkout [EvMsg 2 (str "chat") (TStart msg_name :: two_children);
         EvMsg 7 (str "chat") [TStart msg_name; TStart xa; TText false]] [] RetOk.
Proof. vm_compute. reflexivity. Qed.

(* an empty chat message goes to the type wildcard *)
Example ex_empty : handle ex_reg nsc msg_name chat_attrs [TEnd] sep_eof [mkbeh 5 false] =
  mkout [EvMsg 3 (str "chat") [TStart msg_name; TEnd]] [] RetOk.
Proof. vm_compute. reflexivity. Qed.

(* the same two dispatches when the reader returns the stanza's end element
   together with io.EOF (or with another error): the first handler obtains that
   token, it is buffered, and the second handler is replayed the complete stanza *)
Example ex_replay_with_eof :
  handle ex_reg nsc msg_name chat_attrs two_children with_eof [mkbeh 99 false; mkbeh 99 false] =
  mkout [EvMsg 2 (str "chat") (TStart msg_name :: two_children);
         EvMsg 7 (str "chat") (TStart msg_name :: two_children)] [] RetOk.
Proof. vm_compute. reflexivity. Qed.
Example ex_replay_with_err :
  handle ex_reg nsc msg_name chat_attrs two_children with_err [mkbeh 99 false; mkbeh 99 false] =
  mkout [EvMsg 2 (str "chat") (TStart msg_name :: two_children);
         EvMsg 7 (str "chat") (TStart msg_name :: two_children)] [] RetOk.
Proof. vm_compute. reflexivity. Qed.
Example ex_empty_with_eof : handle ex_reg nsc msg_name chat_attrs [TEnd] with_eof [mkbeh 5 false] =
  mkout [EvMsg 3 (str "chat") [TStart msg_name; TEnd]] [] RetOk.
Proof. vm_compute. reflexivity. Qed.
Example ex_fin_err : fin_err with_eof [] = Some false /\ fin_err with_err [] = Some true /\ fin_err sep_eof [] = None.
Proof. repeat split; reflexivity. Qed.
(* hypotheses of C14_token_with_error_is_buffered: the reader at the end of a
   two-token buffer, the underlying reader about to return its last token with io.EOF *)
Example ex_fetch :
  b_token with_eof (mkbr [TStart msg_name; TStart xa] 2 [TEnd]) =
  RTok TEnd (Some false) (mkbr [TStart msg_name; TStart xa; TEnd] 3 []).
Proof. vm_compute. reflexivity. Qed.

(* a registry whose message patterns are named like the stanza element itself
   (exact, local name only, name space only - say, to catch body and subject):
   none of them is chosen for the empty message, with or without a bare type
   wildcard; each is chosen for a child of that name *)
Definition own_ops : list regop :=
  [RMsg (str "chat") (nsc, str "message") (HOk 1); RMsg (str "chat") ([], str "message") (HOk 2);
   RMsg (str "chat") (nsc, []) (HOk 3)].
Definition own_reg : registry := match new_mux own_ops with Some r => r | None => empty_reg end.
Definition own_reg_w : registry :=
  match new_mux (own_ops ++ [RMsg (str "chat") ([], []) (HOk 4)]) with Some r => r | None => empty_reg end.
Example ex_own_new : new_mux own_ops = Some own_reg /\
                     new_mux (own_ops ++ [RMsg (str "chat") ([], []) (HOk 4)]) = Some own_reg_w.
Proof. vm_compute. split; reflexivity. Qed.
Example ex_own_empty : handle own_reg nsc msg_name chat_attrs [TEnd] with_eof [mkbeh 5 false] = out_nothing.
Proof. vm_compute. reflexivity. Qed.
Example ex_own_empty_w : handle own_reg_w nsc msg_name chat_attrs [TEnd] sep_eof [mkbeh 5 false] =
  mkout [EvMsg 4 (str "chat") [TStart msg_name; TEnd]] [] RetOk.
Proof. vm_compute. reflexivity. Qed.
Example ex_own_child :
  handle own_reg_w nsc msg_name chat_attrs [TStart (nsc, str "body"); TEnd; TEnd] sep_eof [mkbeh 1 false] =
  mkout [EvMsg 3 (str "chat") [TStart msg_name]] [] RetOk.
Proof. vm_compute. reflexivity. Qed.
Example ex_own_registered : registered (own_ops ++ [RMsg (str "chat") ([], []) (HOk 4)]) (child_tbl SMsg) (str "chat") ([], []) 4.
Proof. cbn. auto 8. Qed.

(* a truncated IQ whose payload start comes together with io.EOF is taken for an
   empty IQ: the hypothesis rest <> [] of C14_iq_dispatch is needed *)
Example ex_iq_truncated :
  handle ex_reg nsc (nsc, str "iq") [mkattr [] (str "type") (str "get") None] [TStart xa] with_eof [mkbeh 9 false] =
  mkout [] [mkreply nsc (str "error") None None [] [] (str "cancel") (str "service-unavailable")] RetErr.
Proof. vm_compute. reflexivity. Qed.

(* re-entrancy: the handler chosen for the first child of two_children reads two
   tokens, hands an inner message (one child yb, handled by 7, which reads all of
   it) to the same mux, reads on to the end; the handler of the second child is
   still replayed the whole OUTER stanza *)
Definition inner_toks : list tok := [TStart yb; TText false; TEnd; TEnd].
Definition inner_elem : elem := mkelem msg_name chat_attrs inner_toks with_eof [mkbeh 99 false].
Definition outer_elem : elem :=
  mkelem msg_name chat_attrs two_children sep_eof [mkbehn 99 false (Some (2, 0)); mkbeh 99 false].
Example ex_reentrant :
  handle_in ex_reg nsc [inner_elem] outer_elem =
  mkout [EvMsg 2 (str "chat") (TStart msg_name :: two_children);
         EvNested 0 [EvMsg 7 (str "chat") (TStart msg_name :: inner_toks)] [] RetOk;
         EvMsg 7 (str "chat") (TStart msg_name :: two_children)] [] RetOk.
Proof. vm_compute. reflexivity. Qed.
Example ex_reentrant_strip :
  strip (handle_in ex_reg nsc [inner_elem] outer_elem) =
  handle ex_reg nsc msg_name chat_attrs two_children sep_eof (e_script outer_elem).
Proof. vm_compute. reflexivity. Qed.
(* a request for a stanza that is not there is ignored *)
Example ex_reentrant_none : handle_in ex_reg nsc [] outer_elem = solo ex_reg nsc outer_elem.
Proof. vm_compute. reflexivity. Qed.
(* readers that have reported their end stay there (hypothesis of take_n_split) *)
Example ex_sticky : sticky (b_token with_eof) /\ sticky (iq_reader with_err) /\ sticky (u_token sep_eof).
Proof. repeat split; [apply sticky_b|apply sticky_iq|apply sticky_u]. Qed.

Definition iq_name : name := (nsc, str "iq").
Definition get_attrs : list attr :=
  [mkattr [] (str "type") (str "get") None; mkattr [] (str "id") (str "i1") None;
   mkattr [] (str "from") (str "a@b/c") (Some (str "a@b/c")); mkattr [] (str "to") (str "d") (Some (str "d"))].
Definition get_hdr : hdr := mkhdr (str "get") (str "i1") (Some (str "d")) (Some (str "a@b/c")) [].

Example ex_new_iq : new_iq iq_name get_attrs = Some get_hdr.
Proof. vm_compute. reflexivity. Qed.
Example ex_iq_hyps : lookup_top ex_reg iq_name = None /\ stanza_is iq_name nsc = true /\ snd iq_name = str "iq".
Proof. vm_compute. repeat split; reflexivity. Qed.
Example ex_iq_handled :
  handle ex_reg nsc iq_name get_attrs [TText true; TStart xa; TText false; TEnd; TEnd] sep_eof [mkbeh 9 false] =
  mkout [EvIq 4 (str "get") (Some xa) [TText false; TEnd]] [] RetOk.
Proof. vm_compute. reflexivity. Qed.
Example ex_iq_unhandled : iq_unhandled ex_reg get_hdr [TStart yb; TEnd; TEnd] sep_eof.
Proof. split; [discriminate|vm_compute; reflexivity]. Qed.
Example ex_iq_default :
  handle ex_reg nsc iq_name get_attrs [TStart yb; TEnd; TEnd] sep_eof [] =
  mkout [] [mkreply nsc (str "error") (Some (str "a@b/c")) (Some (str "d")) (str "i1") [] (str "cancel")
              (str "service-unavailable")] RetOk.
Proof. vm_compute. reflexivity. Qed.
(* an empty get IQ is answered, and the router returns an error *)
Example ex_iq_empty_get :
  handle ex_reg nsc iq_name get_attrs [TEnd] sep_eof [] =
  mkout [] [service_unavailable iq_name get_hdr] RetErr.
Proof. vm_compute. reflexivity. Qed.

Example ex_refuse_dup : new_mux [RIq (str "get") xa (HOk 1); RIq (str "get") xa (HOk 2)] = None.
Proof. vm_compute. reflexivity. Qed.
Example ex_refuse_nil : new_mux [RMsg (str "chat") xa HNil] = None /\ new_mux [RMsg (str "chat") xa HNilFunc] = None.
Proof. vm_compute. split; reflexivity. Qed.
Example ex_refuse_stanza_name : new_mux [RHandle (str "x", str "message") (HOk 1)] = None.
Proof. vm_compute. reflexivity. Qed.
Example ex_nodup : NoDup (map op_tbl_key ex_ops).
Proof.
  destruct (new_mux_spec _ _ ex_new_mux) as (_ & N & _). exact N.
Qed.

(* a renaming satisfying the hypotheses of C14_renaming_invariance *)
Definition pre (b : bytes) : bytes := match b with [] => [] | _ => "p"%byte :: b end.
Example ex_pre_inj : (forall a b, pre a = pre b -> a = b) /\ pre [] = [].
Proof.
  split; [|reflexivity]. intros [|x a] [|y b] H; cbn in H; try discriminate; [reflexivity|].
  inversion H. reflexivity.
Qed.
Example ex_renamed : lookup (rename_reg pre pre ex_reg) TblMsg (str "chat") (rename pre pre xa) = Some 2.
Proof. vm_compute. reflexivity. Qed.

(* the buffer invariant holds initially *)
Example ex_inv : Inv (TStart msg_name :: two_children) (mkbr [TStart msg_name] 1 two_children) two_children.
Proof. unfold Inv. cbn. auto. Qed.
