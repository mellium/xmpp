(* C19/ProofsA.v — for the payload types whose XML is a fixed frame of
   attributes and text leaves: the name lists and value ranges their theorems
   mention, and the lemmas other types use (paging.Set, stanza.ID), the
   evaluated table of commands.Actions, the range of pubsub conditions. *)
From Coq Require Import ZArith Lia.
From XV Require Import lib.Bytes lib.Xml lib.Schema C19.Form C19.Types C19.Spec C19.ProofsLib.

Arguments copy_uint : simpl never.
Arguments copy_int : simpl never.
Arguments dec : simpl never.
Arguments dec_int : simpl never.

#[local] Arguments opt_attr : simpl never.
#[local] Arguments opt_leaf : simpl never.

Definition version_els := [mkname ns_version (str "query"); ln (str "name"); ln (str "version"); ln (str "os")].

Definition oobq_els := [oobq_name; ln (str "url"); ln (str "desc")].
Definition oobx_els := [oobx_name; ln (str "url"); ln (str "desc")].

Arguments jid_attr : simpl never.

Lemma jid_attr_canon o j cur : jid_canon o j -> jid_attr o j cur = Ok j.
Proof.
  intros [->|H]; [reflexivity|]. unfold jid_attr. destruct j; [reflexivity|exact H].
Qed.

Lemma f_jid_takes {A} o l (get : A -> bytes) (put : bytes -> A -> A) t v a a' :
  payload_text t = v -> jid_canon o v -> a' = put v a -> takes (f_set (f_jid o l get put)) t a a'.
Proof. unfold takes. intros <- H ->. cbn. rewrite (jid_attr_canon o _ _ H). reflexivity. Qed.

#[export] Hint Resolve f_jid_takes : c19reads.
#[export] Hint Resolve copy_int_dec_int : c19reads.

Definition ditem_dom (o : oracles) (v : ditem) : Prop := jid_canon o (di_jid v).

Definition rsm_els := [set_name; ln (str "max"); ln (str "after"); ln (str "before"); ln (str "index");
                       ln (str "first"); ln (str "last"); ln (str "count")].

Definition fits64 (n : N) : Prop := (n < two64)%N.

Definition fits64o (n : option N) : Prop := match n with Some x => fits64 x | None => True end.

Lemma rset_un_tr s : fits64o (rs_index s) /\ fits64o (rs_count s) -> rset_un (rset_tr s) = Ok s.
Proof.
  destruct s as [f i l c]; cbn [rs_index rs_count]; intros [Hi Hc].
  unfold rset_tr; cbn [rs_first rs_index rs_last rs_count].
  destruct i as [i|], c as [c|]; cbn in Hi, Hc; reads; reflexivity.
Qed.

Lemma rset_un_into_safe init t : safe (rset_un_into init t).
Proof.
  apply unmarshal_struct_safe. auto 20 with c19safe.
Qed.

Lemma sid_un_wire o v : same_on (sid_un o) (sid_tr v).
Proof. eauto 20 with c19wire nocore. Qed.

#[export] Hint Resolve sid_un_wire : c19wire.

Lemma sid_un_tr o v : jid_canon o (s_by v) -> sid_un o (sid_tr v) = Ok v.
Proof. destruct v as [i b]; cbn [s_by]; intro H. reads. reflexivity. Qed.

#[export] Hint Resolve sid_un_tr : c19reads.

Lemma sid_un_safe o t : or_safe o -> safe (sid_un o t).
Proof. intro H. apply unmarshal_struct_safe. auto 20 with c19safe. Qed.

#[export] Hint Resolve rset_un_into_safe sid_un_safe : c19safe.

Definition fits_int64 (z : Z) : Prop := (- Z.of_N two63 <= z < Z.of_N two63)%Z.

Definition actions_norm (a : N) : N :=
  let a := (a mod 256)%N in
  let ex := N.land (N.shiftr a 3) 7 in
  N.lor (if N.eqb ex 1 || N.eqb ex 2 || N.eqb ex 4 then N.shiftl ex 3 else 0) (N.land a 7).

Definition res_N_eqb (a b : res N) : bool :=
  match a, b with Ok x, Ok y => N.eqb x y | _, _ => false end.

Lemma res_N_eqb_eq a b : res_N_eqb a b = true -> a = b.
Proof. destruct a, b; cbn; try discriminate. intro H. apply N.eqb_eq in H. subst; reflexivity. Qed.

Definition actions_els := [ln (str "actions"); ln (str "prev"); ln (str "next"); ln (str "complete")].

(* the encoder looks at the low byte only: the 256 cases are evaluated *)
Lemma actions_table :
  forallb (fun a => let t := actions_tr a in
                    res_N_eqb (actions_un t) (Ok (actions_norm a)) && res_N_eqb (actions_un (wire1 t)) (Ok (actions_norm a)))
          (map N.of_nat (seq 0 256)) = true.
Proof. vm_compute. reflexivity. Qed.

Lemma actions_mod a : actions_tr a = actions_tr (a mod 256) /\ actions_norm a = actions_norm (a mod 256).
Proof. unfold actions_tr, actions_norm. rewrite N.mod_mod by discriminate. split; reflexivity. Qed.

Lemma actions_tr_spec a :
  actions_un (actions_tr a) = Ok (actions_norm a) /\ actions_un (wire1 (actions_tr a)) = Ok (actions_norm a).
Proof.
  destruct (actions_mod a) as [-> ->].
  pose proof (forallb_below _ 256 actions_table (a mod 256) (N.mod_lt a 256 ltac:(discriminate))) as H.
  cbv beta zeta in H. apply andb_true_iff in H. destruct H as [H1 H2].
  split; apply res_N_eqb_eq; assumption.
Qed.

Lemma actions_kids_safe kids acc : safe (actions_kids kids acc).
Proof. revert acc. induction kids as [|k r IH]; intro acc; cbn; [exact I|]. destruct k; try exact I. apply IH. Qed.

#[export] Hint Resolve actions_kids_safe : c19safe.

Lemma cond_index_range s l i : (cond_index s l i = 0 \/ i <= cond_index s l i < i + N.of_nat (length l))%N.
Proof.
  revert i. induction l as [|c r IH]; intro i; cbn [cond_index length]; [left; reflexivity|].
  destruct (beq c s); [right; lia|]. destruct (IH (i + 1)%N) as [H|H]; [left; exact H|right; lia].
Qed.
