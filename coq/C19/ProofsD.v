(* C19/ProofsD.v — crypto.Key, OwnedKeys, TrustMessage (after the repair of
   Key.UnmarshalXML: the key id is read from the character data tokens). *)
From Coq Require Import ZArith.
From XV Require Import lib.Bytes lib.Xml lib.Schema C19.Types C19.Spec C19.ProofsLib
  C19.ProofsA C19.ProofsC.

Lemma ckey_un_tr o v : b64_roundtrip o (k_id v) -> ckey_un o (ckey_tr v) = Ok v.
Proof.
  destruct v as [tr id]. cbn [k_id]. intro H. unfold ckey_tr; cbn [k_trusted k_id].
  destruct (b64enc id) as [|e0 e] eqn:Ee.
  - apply b64enc_nil in Ee. subst. destruct tr; reflexivity.
  - destruct H as [->|H]; [discriminate|]. rewrite Ee in H.
    destruct tr; cbn; rewrite ?app_nil_r, H; reflexivity.
Qed.

#[export] Hint Resolve ckey_un_tr : c19reads.

Definition is_text (k : tree) : bool := match k with Text _ => true | _ => false end.

Lemma all_text_merge l : forallb is_text (merge_text l) = forallb is_text l.
Proof.
  induction l as [|[n a k|b|k b] r IH]; cbn [merge_text forallb is_text]; try reflexivity.
  rewrite <- IH. destruct (merge_text r) as [|[]]; reflexivity.
Qed.

Lemma all_text_wire ns l : forallb is_text (flat_map (wire ns) l) = forallb is_text l.
Proof.
  induction l as [|[n a k|b|k b] r IH]; cbn [flat_map wire app forallb is_text]; try reflexivity; try exact IH.
  destruct b; cbn [is_nil app forallb is_text]; exact IH.
Qed.

(* Key.UnmarshalXML looks at the local name, at whether every child is character data, and at the
   character data joined: the passage changes none of the three, on any tree *)
Lemma ckey_un_stable o : stable_dec (ckey_un o).
Proof.
  intros [n a k|b|m b]; [|apply same_on_nonelem; reflexivity..]. intros ns c' E. injection E as <-.
  cbn [ckey_un nlocal]. fold is_text.
  rewrite all_text_merge, all_text_wire, direct_text_merge, direct_text_wire. reflexivity.
Qed.

#[export] Hint Resolve ckey_un_stable : c19wire.

Definition key_els := [ln (str "trust"); ln (str "distrust"); ln (str "key-owner"); mkname ns_trust (str "trust-message")].
Definition key_ats := [ln (str "jid"); ln (str "usage"); ln (str "encryption")].

Lemma ckey_tr_names v : names_within key_els key_ats (ckey_tr v) = true.
Proof. destruct v as [[] id]; reflexivity. Qed.

#[export] Hint Resolve ckey_tr_names : c19names.

Lemma ckey_un_safe o t : or_safe o -> safe (ckey_un o t).
Proof.
  intro H. destruct t as [n a k|b|k b]; cbn; try exact I.
  destruct (_ && _); [exact I|]. destruct (negb _); [exact I|]. auto with c19safe.
Qed.

#[export] Hint Resolve ckey_un_safe : c19safe.

Definition owned_dom (o : oracles) (v : owned) : Prop :=
  jid_canon o (ow_owner v) /\ Forall (fun k => b64_roundtrip o (k_id k)) (ow_keys v).

Lemma owned_un_tr o v : owned_dom o v -> owned_un o (owned_tr v) = Ok v.
Proof.
  destruct v as [j ks]. intros [Hj Hk]. cbn in Hj, Hk. pose proof (proj1 (Forall_forall _ _) Hk) as Hi.
  epose proof (kids_map (owned_fields o) ckey_tr _ (fun l => mkowned _ l) ks) as G.
  reads. reflexivity.
Qed.

#[export] Hint Resolve owned_un_tr : c19reads.

Lemma owned_un_stable o : stable_dec (owned_un o).
Proof. apply plain_struct_stable; [auto 30 with c19wire|reflexivity]. Qed.

#[export] Hint Resolve owned_un_stable : c19wire.

Lemma owned_tr_names v : names_within key_els key_ats (owned_tr v) = true.
Proof. eauto with c19names nocore. Qed.

#[export] Hint Resolve owned_tr_names : c19names.

Lemma owned_un_safe o t : or_safe o -> safe (owned_un o t).
Proof. intro H. apply unmarshal_struct_safe. auto 20 with c19safe. Qed.

#[export] Hint Resolve owned_un_safe : c19safe.

Definition trust_dom (o : oracles) (v : trustmsg) : Prop := Forall (owned_dom o) (tm_keys v).

Lemma trust_un_tr o v : trust_dom o v -> trust_un o (trust_tr v) = Ok v.
Proof.
  destruct v as [u e ks]. unfold trust_dom; cbn [tm_keys]. intro Hk. pose proof (proj1 (Forall_forall _ _) Hk) as Hi.
  epose proof (kids_map (trust_fields o) owned_tr _ (fun l => mktrust _ _ l) ks) as G.
  reads. reflexivity.
Qed.
