(* C19/Properties.v — the property theorems of C19.
   "Extension payloads encode consistently, safely and round-trip."

   Vocabulary (C19/Spec.v), for a payload type with model codec c:
     roundtrip c dom norm   for every value v in dom: TokenReader yields one element t, and decoding t
                            from the token stream and decoding the document written for t (wire1 t)
                            both give norm v                        (round trip; paths agree on dom;
                                                                     building the XML does not panic)
     wellformed c els ats   whatever TokenReader yields is well-bracketed, is determined by its tokens,
                            and every element/attribute name is one of the literal names els/ats
                            (user text occurs only as character data and attribute values)
     dec_total c            unmarshalling ANY tree gives a value or an error when the external
                            functions (jid.Parse, time.Parse, base64, url.Parse) do
   MarshalXML and WriteXML of every type copy the tokens of TokenReader (tied by the harness),
   so the two encodings are one model function. dom names the oracle assumptions (C19/Spec.v:
   jid_canon, time_utc_roundtrip, b64_roundtrip, ...) and the Go value ranges (uint64 etc.).

   How the round trips go (ProofsLib.roundtrip1): the two decoding paths agree because a struct-tag
   schema reads the same from an element and from the document written for it (same_on,
   unmarshal_struct_wire: from every element when no tag names a name space, plain_struct_wire1;
   otherwise shown along the children written, each met by the field it goes to, hints c19wire; so
   do crypto.Key and form.Data, on every tree; the other hand-written decoders have a lemma about what
   their encoder writes, or are evaluated on it); what is left is the decoder on the element TokenReader builds:
   each attribute and child written goes to the field whose tag it meets and changes the value as
   the field's kind says (ProofsLib: takes, struct_takes, hints c19reads; an optional text is taken
   as written, since the empty text changes nothing). Names: those of every piece written are in the
   lists (names_elem, hints c19names). Totality: no field assignment of a schema panics (hints
   c19safe), hence the interpreter does not (unmarshal_struct_safe, which is C19_schema_unmarshal_total). *)
From Coq Require Import ZArith Lia.
From XV Require Import lib.Bytes lib.ListAux lib.Xml lib.Schema C19.Form C19.Types C19.Model C19.Spec C19.ProofsLib
  C19.ProofsA C19.ProofsB C19.ProofsC C19.ProofsD C19.ProofsE C19.ProofsF C19.ProofsG
  C19.ProofsForm1 C19.ProofsForm2 C19.ProofsForm3 C19.ProofsForm4 C19.ProofsH C19.ProofsS C19.ProofsI gen.Payloads C19.ProofsGen.

#[local] Arguments opt_attr : simpl never.
#[local] Arguments opt_leaf : simpl never.
#[local] Arguments set_child : simpl nomatch.

Theorem C19_tables_are_source :
  gen_payload_ns = model_ns /\ (gen_hash_parse = hash_table /\ gen_hash_string = hash_table) /\
  gen_pubsub_conditions = pubsub_conditions /\ gen_form_consts = model_form_consts /\ gen_reason_spam = reason_spam.
Proof.
  exact (conj namespaces_are_source (conj hash_table_is_source (conj pubsub_conditions_are_source
          (conj form_consts_are_source reason_spam_is_source)))).
Qed.
Print Assumptions C19_tables_are_source.

(* internal/saslerr: the names are the model's table (value = position), the
   stringer index has one entry more than there are names, and the range checks
   are the ones the model has: TokenReader writes nothing for ConditionNone and
   for c >= len-1, String switches to "Condition(n)" at the same bound, and
   UnmarshalXML tries the conditions 1 .. len-2 *)
Theorem C19_saslerr_tables_are_source :
  gen_sasl_conditions = sasl_conditions /\ gen_sasl_index_len = (sasl_count + 1)%N /\ gen_sasl_ns = ns_sasl /\
  gen_sasl_tr_check = (true, 0, 1)%N /\ gen_sasl_string_check = (0, 1)%N /\ gen_sasl_un_loop = (1, 2, 1)%N.
Proof. repeat split; vm_compute; reflexivity. Qed.
Print Assumptions C19_saslerr_tables_are_source.

Theorem C19_roundtrip_gives_paths_agree : forall T (c : codec T) dom norm,
  roundtrip c dom norm -> paths_agree c dom /\ enc_total c dom.
Proof.
  intros T c dom norm H. split.
  - intros o v t Hd E. destruct (H o v Hd) as [t' [E' [H1 H2]]].
    rewrite E in E'. injection E' as <-. rewrite H1, H2. reflexivity.
  - intros o v Hd. destruct (H o v Hd) as [t [E _]]. exists [t]. exact E.
Qed.
Print Assumptions C19_roundtrip_gives_paths_agree.

(* any forest a TokenReader yields is well-bracketed and parses back to itself *)
Theorem C19_token_streams_wellbracketed : forall ts : list tree,
  balanced (tokens_of_forest ts) = true /\ parse_forest (S (fsize ts)) (tokens_of_forest ts) = Some (ts, []).
Proof. intro ts. exact (conj (balanced_forest ts) (forest_parses ts)). Qed.
Print Assumptions C19_token_streams_wellbracketed.

(* the struct-tag interpreter (encoding/xml's reflection unmarshaller as the library uses it)
   never panics when no field assignment does *)
Theorem C19_schema_unmarshal_total : forall A (fs : list (Schema.field A)) xn init t,
  Forall field_safe fs -> safe (unmarshal_struct xn fs init t).
Proof. intros A fs xn init t H. exact (unmarshal_struct_safe fs xn init t H). Qed.
Print Assumptions C19_schema_unmarshal_total.

(* version.Query *)
Theorem C19_version_roundtrip : roundtrip version_c any (fun v => v).
Proof.
  apply plain_codec_roundtrip; [auto 30 with c19wire|]. intros o [a b c] _.
  reads. reflexivity.
Qed.
Print Assumptions C19_version_roundtrip.
Theorem C19_version_wellformed : wellformed version_c version_els [].
Proof. wf. eauto 40 with c19names nocore. Qed.
Print Assumptions C19_version_wellformed.
Theorem C19_version_unmarshal_total : dec_total version_c.
Proof. apply struct_codec_dec_total. auto 20 with c19safe. Qed.
Print Assumptions C19_version_unmarshal_total.

(* oob.Query *)
Theorem C19_oob_query_roundtrip : roundtrip oobq_c any (fun v => v).
Proof.
  apply plain_codec_roundtrip; [auto 30 with c19wire|]. intros o [u d] _.
  reads. reflexivity.
Qed.
Print Assumptions C19_oob_query_roundtrip.
Theorem C19_oob_query_wellformed : wellformed oobq_c oobq_els [].
Proof. wf. eauto 40 with c19names nocore. Qed.
Print Assumptions C19_oob_query_wellformed.
Theorem C19_oob_query_unmarshal_total : dec_total oobq_c.
Proof. apply struct_codec_dec_total. auto 20 with c19safe. Qed.
Print Assumptions C19_oob_query_unmarshal_total.

(* oob.Data *)
Theorem C19_oob_data_roundtrip : roundtrip oobx_c any (fun v => v).
Proof.
  apply plain_codec_roundtrip; [auto 30 with c19wire|]. intros o [u d] _.
  reads. reflexivity.
Qed.
Print Assumptions C19_oob_data_roundtrip.
Theorem C19_oob_data_wellformed : wellformed oobx_c oobx_els [].
Proof. wf. eauto 40 with c19names nocore. Qed.
Print Assumptions C19_oob_data_wellformed.
Theorem C19_oob_data_unmarshal_total : dec_total oobx_c.
Proof. apply struct_codec_dec_total. auto 20 with c19safe. Qed.
Print Assumptions C19_oob_data_unmarshal_total.

(* disco.ItemsQuery *)
Theorem C19_disco_itemsquery_roundtrip : roundtrip itemsq_c any (fun v => v).
Proof.
  apply plain_codec_roundtrip; [auto 30 with c19wire|]. intros o v _.
  reads. reflexivity.
Qed.
Print Assumptions C19_disco_itemsquery_roundtrip.
Theorem C19_disco_itemsquery_wellformed : wellformed itemsq_c [itemsq_name] [ln (str "node")].
Proof. wf. eauto 40 with c19names nocore. Qed.
Print Assumptions C19_disco_itemsquery_wellformed.
Theorem C19_disco_itemsquery_unmarshal_total : dec_total itemsq_c.
Proof. apply struct_codec_dec_total. auto 20 with c19safe. Qed.
Print Assumptions C19_disco_itemsquery_unmarshal_total.

(* items.Item *)
Theorem C19_disco_item_roundtrip : roundtrip ditem_c ditem_dom (fun v => v).
Proof.
  apply plain_codec_roundtrip; [auto 30 with c19wire|]. intros o [j n d] H. unfold ditem_dom in H; cbn in H.
  reads. reflexivity.
Qed.
Print Assumptions C19_disco_item_roundtrip.
Theorem C19_disco_item_wellformed : wellformed ditem_c [ditem_name] [ln (str "jid"); ln (str "node"); ln (str "name")].
Proof. wf. eauto 40 with c19names nocore. Qed.
Print Assumptions C19_disco_item_wellformed.
Theorem C19_disco_item_unmarshal_total : dec_total ditem_c.
Proof. apply struct_codec_dec_total. auto 20 with c19safe. Qed.
Print Assumptions C19_disco_item_unmarshal_total.

(* info.Feature *)
Theorem C19_disco_feature_roundtrip : roundtrip feature_c any (fun v => v).
Proof.
  apply plain_codec_roundtrip; [auto 30 with c19wire|]. intros o v _.
  reflexivity.
Qed.
Print Assumptions C19_disco_feature_roundtrip.
Theorem C19_disco_feature_wellformed : wellformed feature_c [feature_name] [ln (str "var")].
Proof. wf. Qed.
Print Assumptions C19_disco_feature_wellformed.
Theorem C19_disco_feature_unmarshal_total : dec_total feature_c.
Proof. apply struct_codec_dec_total. auto 20 with c19safe. Qed.
Print Assumptions C19_disco_feature_unmarshal_total.

(* info.Identity *)
Theorem C19_disco_identity_roundtrip : roundtrip ident_c any (fun v => v).
Proof.
  apply plain_codec_roundtrip; [auto 30 with c19wire|]. intros o [c t n l] _.
  reads. reflexivity.
Qed.
Print Assumptions C19_disco_identity_roundtrip.
Theorem C19_disco_identity_wellformed : wellformed ident_c [ident_name] [ln (str "category"); ln (str "type"); ln (str "name"); mkname xml_ns (str "lang")].
Proof. wf. eauto 40 with c19names nocore. Qed.
Print Assumptions C19_disco_identity_wellformed.
Theorem C19_disco_identity_unmarshal_total : dec_total ident_c.
Proof. apply struct_codec_dec_total. auto 20 with c19safe. Qed.
Print Assumptions C19_disco_identity_unmarshal_total.

(* paging.RequestCount *)
Theorem C19_rsm_count_roundtrip : roundtrip rcount_c any (fun v => v).
Proof. intros o [] _. eexists; split; [reflexivity|]. split; reflexivity. Qed.
Print Assumptions C19_rsm_count_roundtrip.
Theorem C19_rsm_count_wellformed : wellformed rcount_c rsm_els [ln (str "index")].
Proof. wf. Qed.
Print Assumptions C19_rsm_count_wellformed.
Theorem C19_rsm_count_unmarshal_total : dec_total rcount_c.
Proof. apply struct_codec_dec_total. auto 20 with c19safe. Qed.
Print Assumptions C19_rsm_count_unmarshal_total.

(* paging.RequestNext *)
Theorem C19_rsm_next_roundtrip : roundtrip rnext_c (fun _ v => fits64 (rn_max v)) (fun v => v).
Proof.
  apply plain_codec_roundtrip; [auto 30 with c19wire|]. intros o [m a] H. cbn in H.
  reads. reflexivity.
Qed.
Print Assumptions C19_rsm_next_roundtrip.
Theorem C19_rsm_next_wellformed : wellformed rnext_c rsm_els [ln (str "index")].
Proof. wf. eauto 40 with c19names nocore. Qed.
Print Assumptions C19_rsm_next_wellformed.
Theorem C19_rsm_next_unmarshal_total : dec_total rnext_c.
Proof. apply struct_codec_dec_total. auto 20 with c19safe. Qed.
Print Assumptions C19_rsm_next_unmarshal_total.

(* paging.RequestPrev *)
Theorem C19_rsm_prev_roundtrip : roundtrip rprev_c (fun _ v => fits64 (rp_max v)) (fun v => v).
Proof.
  apply plain_codec_roundtrip; [auto 30 with c19wire|]. intros o [m a] H. cbn in H.
  reads. reflexivity.
Qed.
Print Assumptions C19_rsm_prev_roundtrip.
Theorem C19_rsm_prev_wellformed : wellformed rprev_c rsm_els [ln (str "index")].
Proof. wf. eauto 40 with c19names nocore. Qed.
Print Assumptions C19_rsm_prev_wellformed.
Theorem C19_rsm_prev_unmarshal_total : dec_total rprev_c.
Proof. apply struct_codec_dec_total. auto 20 with c19safe. Qed.
Print Assumptions C19_rsm_prev_unmarshal_total.

(* paging.RequestIndex *)
Theorem C19_rsm_index_roundtrip : roundtrip rindex_c (fun _ v => fits64 (ri_max v) /\ fits64 (ri_index v)) (fun v => v).
Proof.
  apply plain_codec_roundtrip; [auto 30 with c19wire|]. intros o [m i] [Hm Hi]. cbn in Hm, Hi.
  reads. reflexivity.
Qed.
Print Assumptions C19_rsm_index_roundtrip.
Theorem C19_rsm_index_wellformed : wellformed rindex_c rsm_els [ln (str "index")].
Proof. wf. Qed.
Print Assumptions C19_rsm_index_wellformed.
Theorem C19_rsm_index_unmarshal_total : dec_total rindex_c.
Proof. apply struct_codec_dec_total. auto 20 with c19safe. Qed.
Print Assumptions C19_rsm_index_unmarshal_total.

(* paging.Set *)
Theorem C19_rsm_set_roundtrip : roundtrip rset_c (fun _ v => fits64o (rs_index v) /\ fits64o (rs_count v)) (fun v => v).
Proof. apply plain_codec_roundtrip; [auto 30 with c19wire|]. intros o v H. exact (rset_un_tr v H). Qed.
Print Assumptions C19_rsm_set_roundtrip.
Theorem C19_rsm_set_wellformed : wellformed rset_c rsm_els [ln (str "index")].
Proof. wf. destruct v as [f i l c]. unfold rset_tr; cbn [rs_first rs_index rs_last rs_count]. destruct i, c; reflexivity. Qed.
Print Assumptions C19_rsm_set_wellformed.
Theorem C19_rsm_set_unmarshal_total : dec_total rset_c.
Proof. intros o t _. apply rset_un_into_safe. Qed.
Print Assumptions C19_rsm_set_unmarshal_total.

(* delay.Delay *)
Theorem C19_delay_roundtrip : roundtrip delay_c delay_dom delay_norm.
Proof. apply roundtrip1; intros o v H; [apply same_on_wire1, delay_un_into_wire|exact (delay_un_tr o v H)]. Qed.
Print Assumptions C19_delay_roundtrip.
Theorem C19_delay_wellformed : wellformed delay_c [forwarded_name; delay_name] delay_ats.
Proof. wf. eauto 40 with c19names nocore. Qed.
Print Assumptions C19_delay_wellformed.
Theorem C19_delay_unmarshal_total : dec_total delay_c.
Proof. intros o t H. apply delay_un_into_safe; exact H. Qed.
Print Assumptions C19_delay_unmarshal_total.

(* stanza.Delay *)
Theorem C19_stanza_delay_roundtrip : roundtrip sdelay_c delay_dom delay_norm.
Proof.
  intros o [f t r] [Ht Hj]. cbn in Ht, Hj. unfold time_utc_roundtrip in Ht. eexists; split; [reflexivity|].
  unfold sdelay_c, c_dec, sdelay_un, sdelay_tr, delay_norm; cbn [dl_from dl_time dl_reason].
  destruct r; cbn; rewrite ?(jid_attr_canon o _ _ Hj); cbn; rewrite Ht; cbn; split; reflexivity.
Qed.
Print Assumptions C19_stanza_delay_roundtrip.
Theorem C19_stanza_delay_wellformed : wellformed sdelay_c [delay_name] delay_ats.
Proof. wf. Qed.
Print Assumptions C19_stanza_delay_wellformed.
Theorem C19_stanza_delay_unmarshal_total : dec_total sdelay_c.
Proof.
  intros o t H. destruct t as [n a k|b|k b]; cbn; try exact I.
  apply bind_safe; [apply sdelay_attrs_safe; exact H|]. intro v. destruct k as [|[]]; exact I.
Qed.
Print Assumptions C19_stanza_delay_unmarshal_total.

(* xtime.Time *)
Theorem C19_xtime_roundtrip : roundtrip xtime_c xtime_dom xtime_norm.
Proof.
  apply roundtrip1; [intros o v _; unfold xtime_un; rewrite plain_struct_wire1 by auto 30 with c19wire; reflexivity|].
  intros o [s n f] [Hu [z [Hz Ho]]]. unfold time_utc_roundtrip in Hu. cbn [t_off] in Hz, Ho.
  unfold xtime_un, xtime_tr, xtime_norm; cbn [t_off t_sec t_nsec].
  reads. cbn. rewrite Hz. cbn [bind]. rewrite Hu. cbn. rewrite Ho. reflexivity.
Qed.
Print Assumptions C19_xtime_roundtrip.
Theorem C19_xtime_wellformed : wellformed xtime_c [time_name; ln (str "tzo"); ln (str "utc")] [].
Proof. wf. Qed.
Print Assumptions C19_xtime_wellformed.
Theorem C19_xtime_unmarshal_total : dec_total xtime_c.
Proof. intros o t H. unfold xtime_c, c_dec, xtime_un. auto 20 with c19safe. Qed.
Print Assumptions C19_xtime_unmarshal_total.

(* forward.Forwarded *)
Theorem C19_forwarded_roundtrip : roundtrip forwarded_c delay_dom delay_norm.
Proof.
  apply roundtrip1; intros o v H.
  - apply same_on_wire1. eauto with c19wire nocore.
  - change (bind (bind (delay_un o (delay_tr o v)) (fun d => Ok d)) (fun d => Ok d) = Ok (delay_norm v)).
    rewrite (delay_un_tr o v H). reflexivity.
Qed.
Print Assumptions C19_forwarded_roundtrip.
Theorem C19_forwarded_wellformed : wellformed forwarded_c [forwarded_name; delay_name] delay_ats.
Proof. wf. eauto 40 with c19names nocore. Qed.
Print Assumptions C19_forwarded_wellformed.
Theorem C19_forwarded_unmarshal_total : dec_total forwarded_c.
Proof. apply struct_codec_dec_total. auto 20 with c19safe. Qed.
Print Assumptions C19_forwarded_unmarshal_total.

(* roster.Item *)
Theorem C19_roster_item_roundtrip : roundtrip ritem_c (fun o v => jid_canon o (r_jid v)) (fun v => v).
Proof.
  apply plain_codec_roundtrip; [auto 30 with c19wire|]. intros o v H.
  exact (ritem_un_tr o v H).
Qed.
Print Assumptions C19_roster_item_roundtrip.
Theorem C19_roster_item_wellformed : wellformed ritem_c ritem_els ritem_ats.
Proof. wf. eauto 40 with c19names nocore. Qed.
Print Assumptions C19_roster_item_wellformed.
Theorem C19_roster_item_unmarshal_total : dec_total ritem_c.
Proof. apply struct_codec_dec_total. auto 20 with c19safe. Qed.
Print Assumptions C19_roster_item_unmarshal_total.

(* stanza.ID *)
Theorem C19_stanza_id_roundtrip : roundtrip sid_c (fun o v => jid_canon o (s_by v)) (fun v => v).
Proof.
  apply plain_codec_roundtrip; [auto 30 with c19wire|]. intros o v H.
  exact (sid_un_tr o v H).
Qed.
Print Assumptions C19_stanza_id_roundtrip.
Theorem C19_stanza_id_wellformed : wellformed sid_c [sid_name] [ln (str "id"); ln (str "by")].
Proof. wf. Qed.
Print Assumptions C19_stanza_id_wellformed.
Theorem C19_stanza_id_unmarshal_total : dec_total sid_c.
Proof. intros o t H. apply sid_un_safe; exact H. Qed.
Print Assumptions C19_stanza_id_unmarshal_total.

(* stanza.OriginID *)
Theorem C19_origin_id_roundtrip : roundtrip oid_c any (fun v => v).
Proof.
  apply plain_codec_roundtrip; [auto 30 with c19wire|]. intros o v _.
  reflexivity.
Qed.
Print Assumptions C19_origin_id_roundtrip.
Theorem C19_origin_id_wellformed : wellformed oid_c [oid_name] [ln (str "id")].
Proof. wf. Qed.
Print Assumptions C19_origin_id_wellformed.
Theorem C19_origin_id_unmarshal_total : dec_total oid_c.
Proof. apply struct_codec_dec_total. auto 20 with c19safe. Qed.
Print Assumptions C19_origin_id_unmarshal_total.

(* blocklist.Item *)
Theorem C19_blocklist_item_roundtrip : roundtrip bitem_c bitem_dom bitem_norm.
Proof. apply roundtrip1; intros o v H; [apply same_on_wire1; eauto 30 with c19wire nocore|exact (bitem_un_tr o v H)]. Qed.
Print Assumptions C19_blocklist_item_roundtrip.
Theorem C19_blocklist_item_wellformed : wellformed bitem_c bitem_els bitem_ats.
Proof. wf. eauto 40 with c19names nocore. Qed.
Print Assumptions C19_blocklist_item_wellformed.
Theorem C19_blocklist_item_unmarshal_total : dec_total bitem_c.
Proof. apply struct_codec_dec_total. auto 20 with c19safe. Qed.
Print Assumptions C19_blocklist_item_unmarshal_total.

(* upload.File *)
Theorem C19_upload_file_roundtrip : roundtrip ufile_c (fun _ v => fits_int64 (uf_size v)) (fun v => v).
Proof.
  apply plain_codec_roundtrip; [auto 30 with c19wire|]. intros o [n z t] H. cbn in H.
  reads. reflexivity.
Qed.
Print Assumptions C19_upload_file_roundtrip.
Theorem C19_upload_file_wellformed : wellformed ufile_c [ufile_name] [ln (str "filename"); ln (str "size"); ln (str "content-type")].
Proof. wf. eauto 40 with c19names nocore. Qed.
Print Assumptions C19_upload_file_wellformed.
Theorem C19_upload_file_unmarshal_total : dec_total ufile_c.
Proof. apply struct_codec_dec_total. auto 20 with c19safe. Qed.
Print Assumptions C19_upload_file_unmarshal_total.

(* upload.Slot *)
Theorem C19_upload_slot_roundtrip : roundtrip slot_c (fun o v => url_canon o (sl_put v) /\ url_canon o (sl_get v)) slot_norm.
Proof.
  apply roundtrip1; intros o v [Hp Hg]; [|exact (slot_un_tr o v Hp Hg)].
  unfold slot_un. rewrite plain_struct_wire1 by auto 30 with c19wire. reflexivity.
Qed.
Print Assumptions C19_upload_slot_roundtrip.
Theorem C19_upload_slot_wellformed : wellformed slot_c slot_els slot_ats.
Proof. wf. eauto 40 with c19names nocore. Qed.
Print Assumptions C19_upload_slot_wellformed.
Theorem C19_upload_slot_unmarshal_total : dec_total slot_c.
Proof. intros o t H. unfold slot_c, c_dec, slot_un. auto 20 with c19safe. Qed.
Print Assumptions C19_upload_slot_unmarshal_total.

(* crypto.Hash *)
Theorem C19_hash_roundtrip : roundtrip hash_c (fun _ h => hash_known h) (fun h => h).
Proof.
  intros o h [n Hn]. unfold hash_c, c_enc, c_dec, hash_tr, hash_un. rewrite Hn. eexists; split; [reflexivity|].
  cbn. rewrite (hash_parse_name h n Hn). split; reflexivity.
Qed.
Print Assumptions C19_hash_roundtrip.
Theorem C19_hash_wellformed : wellformed hash_c hash_els [ln (str "algo")].
Proof.
  intros o v ts E. unfold hash_c, c_enc, hash_tr in E. destruct (hash_name v hash_table); [|discriminate].
  injection E as <-. apply forest_wellformed_intro; reflexivity.
Qed.
Print Assumptions C19_hash_wellformed.
Theorem C19_hash_unmarshal_total : dec_total hash_c.
Proof. intros o t _. destruct t; cbn; try exact I. apply hash_algo_safe. Qed.
Print Assumptions C19_hash_unmarshal_total.

(* crypto.HashOutput *)
Theorem C19_hashoutput_roundtrip : roundtrip hashout_c hashout_dom (fun v => v).
Proof.
  intros o v H. destruct (proj1 H) as [n Hn]. exists (hashout_el n v).
  unfold hashout_c, c_enc, c_dec. rewrite (hashout_tree_named v n Hn). split; [reflexivity|].
  apply both_paths; [apply same_on_wire1, hashout_el_wire, H|exact (hashout_un_el o v n H Hn)].
Qed.
Print Assumptions C19_hashoutput_roundtrip.
Theorem C19_hashoutput_wellformed : wellformed hashout_c hash_els [ln (str "algo")].
Proof.
  intros o v ts E. unfold hashout_c, c_enc in E. destruct (hashout_tree v) eqn:Et; try discriminate.
  injection E as <-. destruct (hashout_tree_inv v a Et) as [n ->]. apply forest_wellformed_intro; reflexivity.
Qed.
Print Assumptions C19_hashoutput_wellformed.
Theorem C19_hashoutput_unmarshal_total : dec_total hashout_c.
Proof. intros o t H. apply hashout_un_safe; exact H. Qed.
Print Assumptions C19_hashoutput_unmarshal_total.

(* crypto.Key *)
Theorem C19_key_roundtrip : roundtrip ckey_c (fun o v => b64_roundtrip o (k_id v)) (fun v => v).
Proof. apply roundtrip1; intros o v H; [apply same_on_wire1, ckey_un_stable|exact (ckey_un_tr o v H)]. Qed.
Print Assumptions C19_key_roundtrip.
Theorem C19_key_wellformed : wellformed ckey_c key_els key_ats.
Proof. wf. eauto 40 with c19names nocore. Qed.
Print Assumptions C19_key_wellformed.
Theorem C19_key_unmarshal_total : dec_total ckey_c.
Proof. intros o t H. apply ckey_un_safe; exact H. Qed.
Print Assumptions C19_key_unmarshal_total.

(* crypto.OwnedKeys *)
Theorem C19_ownedkeys_roundtrip : roundtrip owned_c owned_dom (fun v => v).
Proof. apply plain_codec_roundtrip; [auto 30 with c19wire|exact owned_un_tr]. Qed.
Print Assumptions C19_ownedkeys_roundtrip.
Theorem C19_ownedkeys_wellformed : wellformed owned_c key_els key_ats.
Proof. wf. eauto 40 with c19names nocore. Qed.
Print Assumptions C19_ownedkeys_wellformed.
Theorem C19_ownedkeys_unmarshal_total : dec_total owned_c.
Proof. intros o t H. apply owned_un_safe; exact H. Qed.
Print Assumptions C19_ownedkeys_unmarshal_total.

(* crypto.TrustMessage *)
Theorem C19_trustmessage_roundtrip : roundtrip trust_c trust_dom (fun v => v).
Proof. apply plain_codec_roundtrip; [auto 30 with c19wire|exact trust_un_tr]. Qed.
Print Assumptions C19_trustmessage_roundtrip.
Theorem C19_trustmessage_wellformed : wellformed trust_c key_els key_ats.
Proof. wf. eauto 40 with c19names nocore. Qed.
Print Assumptions C19_trustmessage_wellformed.
Theorem C19_trustmessage_unmarshal_total : dec_total trust_c.
Proof. apply struct_codec_dec_total. auto 20 with c19safe. Qed.
Print Assumptions C19_trustmessage_unmarshal_total.

(* styling.Unstyled *)
Theorem C19_unstyled_roundtrip : roundtrip unstyled_c any (fun _ => true).
Proof. intros o v _. eexists; split; [reflexivity|]. split; reflexivity. Qed.
Print Assumptions C19_unstyled_roundtrip.
Theorem C19_unstyled_wellformed : wellformed unstyled_c [unstyled_name] [].
Proof. wf. Qed.
Print Assumptions C19_unstyled_wellformed.
Theorem C19_unstyled_unmarshal_total : dec_total unstyled_c.
Proof. intros o t _. destruct t; exact I. Qed.
Print Assumptions C19_unstyled_unmarshal_total.

(* commands.Actions *)
Theorem C19_actions_roundtrip : roundtrip actions_c any actions_norm.
Proof. intros o a _. exists (actions_tr a). split; [reflexivity|]. exact (actions_tr_spec a). Qed.
Print Assumptions C19_actions_roundtrip.
Theorem C19_actions_wellformed : wellformed actions_c actions_els [ln (str "execute")].
Proof. wf. eauto 40 with c19names nocore. Qed.
Print Assumptions C19_actions_wellformed.
Theorem C19_actions_unmarshal_total : dec_total actions_c.
Proof. intros o t _. destruct t; cbn; try exact I. apply actions_kids_safe. Qed.
Print Assumptions C19_actions_unmarshal_total.

(* history.Result *)
Theorem C19_history_result_roundtrip : roundtrip hresult_c (fun _ v => rset_dom (hr_set v)) (fun v => v).
Proof. apply roundtrip1; intros o v H; [apply same_on_wire1, hresult_un_wire|exact (hresult_un_tr v H)]. Qed.
Print Assumptions C19_history_result_roundtrip.
Theorem C19_history_result_wellformed : wellformed hresult_c hresult_els hresult_ats.
Proof.
  wf. destruct v as [c u [f i l n]]. unfold hresult_tr, rset_tr; cbn [hr_complete hr_unstable hr_set rs_first rs_index rs_last rs_count].
  destruct i, n; reflexivity.
Qed.
Print Assumptions C19_history_result_wellformed.
Theorem C19_history_result_unmarshal_total : dec_total hresult_c.
Proof.
  intros o t _. destruct t as [n a k|b|k b]; cbn [hresult_c c_dec hresult_un]; try exact I.
  destruct (hresult_attrs a false false false false) as [c u].
  destruct k as [|[] r]; try exact I. unfold rset_un. auto with c19safe.
Qed.
Print Assumptions C19_history_result_unmarshal_total.

(* file.Meta *)
Theorem C19_file_meta_roundtrip : roundtrip fmeta_c fmeta_dom fmeta_norm.
Proof.
  intros o [media name date size h w ht len] [Hd [Hs [Hw [Hh [Hl Hx]]]]]. cbn in Hd, Hs, Hw, Hh, Hl, Hx. unfold time_text_roundtrip in Hd.
  unfold fmeta_c, c_enc, c_dec, fmeta_tr, fmeta_norm, fmeta_un; cbn [fm_media fm_name fm_date fm_size fm_hash fm_width fm_height fm_length].
  fold (hash_unset h). destruct (hash_unset h) eqn:Eu.
  - eexists. split; [reflexivity|]. apply both_paths; [apply same_on_wire1; eauto 30 with c19wire nocore|]. reads. reflexivity.
  - destruct Hx as [Hx|Hx]; [discriminate|]. destruct (proj1 Hx) as [n Hn]. rewrite (hashout_tree_named _ n Hn).
    (* the hash element, read by its own decoder on both paths *)
    pose proof (hashout_un_el o _ n Hx Hn) as U. pose proof (hashout_el_wire o _ n (proj1 (proj2 Hx))) as W.
    eexists. split; [reflexivity|]. apply both_paths; [apply same_on_wire1; eauto 30 with c19wire nocore|]. reads. reflexivity.
Qed.
Print Assumptions C19_file_meta_roundtrip.
Theorem C19_file_meta_wellformed : wellformed fmeta_c fmeta_els [ln (str "algo")].
Proof.
  intros o v ts E. unfold fmeta_c, c_enc, fmeta_tr in E.
  destruct (N.eqb _ 0 && _).
  - cbn in E. injection E as <-. apply forest_wellformed_intro; reflexivity.
  - destruct (hashout_tree (fm_hash v)) as [th| | |] eqn:Et; try discriminate.
    cbn in E. injection E as <-. apply forest_wellformed_intro; try reflexivity.
    destruct (hashout_tree_inv _ th Et) as [n ->]. eauto 40 with c19names nocore.
Qed.
Print Assumptions C19_file_meta_wellformed.
Theorem C19_file_meta_unmarshal_total : dec_total fmeta_c.
Proof. apply struct_codec_dec_total. auto 20 with c19safe. Qed.
Print Assumptions C19_file_meta_unmarshal_total.

(* the model's formatter (not an oracle: compared with the code's output on every case) and the
   reading of the text are inverse: for every offset within a day, in seconds, the text denotes
   the offset in whole minutes; for whole-minute offsets the offset itself *)
Theorem C19_tzo_parse_format : forall off, (-86400 < off < 86400)%Z ->
  parse_tzo (format_tzo off) = Some (Z.quot off 60 * 60)%Z.
Proof.
  intros off H. unfold format_tzo. fold (fmt_zone (Z.quot off 60)). destruct (Z.eqb_spec off 0) as [->|E]; [reflexivity|].
  apply parse_fmt_zone. pose proof (Z.quot_rem' off 60) as Q. destruct (Z_le_gt_dec 0 off) as [P|P].
  - pose proof (Z.rem_bound_pos_pos off 60 ltac:(lia) P). lia.
  - pose proof (Z.rem_bound_pos_neg off 60 ltac:(lia) ltac:(lia)). lia.
Qed.
Print Assumptions C19_tzo_parse_format.

Theorem C19_tzo_parse_format_minutes : forall off, (-86400 < off < 86400)%Z -> Z.rem off 60 = 0%Z ->
  parse_tzo (format_tzo off) = Some off.
Proof. intros off H R. rewrite (C19_tzo_parse_format off H). f_equal. pose proof (Z.quot_rem' off 60). lia. Qed.
Print Assumptions C19_tzo_parse_format_minutes.

(* hence the tzo premise of C19_xtime_roundtrip holds whenever time.Parse("Z07:00") reads what
   the text denotes *)
Theorem C19_xtime_tzo_premise : forall o t, tzo_parse_agrees o -> (-86400 < t_off t < 86400)%Z -> tzo_roundtrip o t.
Proof. intros o t Ha Hr. exact (Ha _ _ (C19_tzo_parse_format (t_off t) Hr)). Qed.
Print Assumptions C19_xtime_tzo_premise.

(* internal/saslerr: the SASL failure payload *)

(* for EVERY condition value (a uint16; defined: 1..11) and every text and language: one failure
   element, read back from both paths as the normalised value (an undefined condition is not
   written and comes back as ConditionNone; the language exists only with a text) *)
Theorem C19_saslerr_roundtrip : roundtrip saslerr_c any saslerr_norm.
Proof.
  apply roundtrip1; intros o v _; [|exact (saslerr_un_tr v)].
  unfold saslerr_un. rewrite plain_struct_wire1 by exact saslerr_fields_plain. reflexivity.
Qed.
Print Assumptions C19_saslerr_roundtrip.
Theorem C19_saslerr_wellformed : wellformed saslerr_c sasl_els sasl_ats.
Proof. wf. eauto 40 with c19names nocore. Qed.
Print Assumptions C19_saslerr_wellformed.
Theorem C19_saslerr_unmarshal_total : dec_total saslerr_c.
Proof. intros o t _. unfold saslerr_c, c_dec, saslerr_un. auto 20 with c19safe. Qed.
Print Assumptions C19_saslerr_unmarshal_total.

(* Condition on its own: a defined condition is one element that reads back; ConditionNone and
   every value at or beyond the table (12, ..., 65535) write no token at all *)
Theorem C19_saslerr_condition_roundtrip : forall o c,
  match sasl_name c with
  | Some n => exists t, c_enc scond_c o c = Ok [t] /\ c_dec scond_c o t = Ok c /\ c_dec scond_c o (wire1 t) = Ok c
  | None => c_enc scond_c o c = Ok []
  end.
Proof.
  intros o c. destruct (sasl_name c) as [n|] eqn:En.
  - unfold scond_c, c_enc, c_dec, scond_tr. rewrite En. eexists; split; [reflexivity|].
    destruct (sasl_name_spec c n En) as [_ [H2 _]]. cbn. rewrite !H2. split; reflexivity.
  - unfold scond_c, c_enc, scond_tr. rewrite En. reflexivity.
Qed.
Print Assumptions C19_saslerr_condition_roundtrip.
Theorem C19_saslerr_condition_undefined : forall c, (c = 0 \/ 12 <= c)%N -> sasl_name c = None.
Proof.
  intros c H. unfold sasl_name. change sasl_count with 12%N.
  destruct H as [->|H]; [reflexivity|]. apply N.leb_le in H. rewrite H, orb_true_r. reflexivity.
Qed.
Print Assumptions C19_saslerr_condition_undefined.
Theorem C19_saslerr_condition_wellformed : wellformed scond_c sasl_els sasl_ats.
Proof.
  intros o c ts E. injection E as <-. apply forest_wellformed_intro; try reflexivity. apply Forall_forallb, scond_tr_names.
Qed.
Print Assumptions C19_saslerr_condition_wellformed.
Theorem C19_saslerr_condition_unmarshal_total : dec_total scond_c.
Proof. intros o t _. destruct t; exact I. Qed.
Print Assumptions C19_saslerr_condition_unmarshal_total.

(* the statements of all UnmarshalXML bodies through which a result can depend on the previous
   contents of the destination (a receiver field resliced from itself, appended to, accumulated),
   with their guards, are exactly the known ones (read from the source on every run) *)
Theorem C19_unmarshal_reuse_sites_are_known : gen_reuse_sites = known_reuse_sites.
Proof. vm_compute. reflexivity. Qed.
Print Assumptions C19_unmarshal_reuse_sites_are_known.

(* crypto.Key re-uses the destination's KeyID buffer: for every previous content and length of
   it, the key id is exactly the decoded data *)
Theorem C19_key_buffer_independent : forall old data explen,
  length data <= explen -> key_buf false old data explen = data.
Proof.
  intros old data explen H. unfold key_buf.
  set (buf := if length old <? explen then repeat x00 explen else old).
  assert (Hb : explen <= length buf).
  { unfold buf. destruct (length old <? explen) eqn:E; [rewrite repeat_length; lia|apply Nat.ltb_ge in E; exact E]. }
  destruct (length data <? length buf) eqn:E.
  - apply firstn_app_exact.
  - apply Nat.ltb_ge in E. rewrite skipn_all2 by lia. apply app_nil_r.
Qed.
Print Assumptions C19_key_buffer_independent.

Theorem C19_key_unmarshal_ignores_destination : forall o old t,
  b64_len_ok o -> ckey_un_into old o t = ckey_un o t.
Proof.
  intros o old t Hl. destruct t as [n a kids|b|k b]; try reflexivity. unfold ckey_un_into, ckey_un_into_gen, ckey_un.
  destruct (negb _ && negb _); [reflexivity|]. destruct (negb (forallb _ kids)); [reflexivity|].
  destruct (is_nil (direct_text kids)) eqn:En.
  - cbn [bind]. rewrite C19_key_buffer_independent by (cbn; lia). reflexivity.
  - destruct (o_b64dec o (direct_text kids)) as [d| | |] eqn:Ed; try reflexivity.
    cbn [bind]. rewrite C19_key_buffer_independent by (apply Hl; exact Ed). reflexivity.
Qed.
Print Assumptions C19_key_unmarshal_ignores_destination.

(* trimming only when fewer bytes than expected were decoded would keep the tail of a longer key *)
Theorem C19_key_buffer_guard_on_expected_length_refuted :
  exists old data explen, length data <= explen /\ key_buf true old data explen <> data.
Proof. exists (str "previous-key"), (str "abc"), 3. split; [cbn; lia|]. vm_compute. discriminate. Qed.
Print Assumptions C19_key_buffer_guard_on_expected_length_refuted.

Theorem C19_hashoutput_unmarshal_ignores_destination : forall o old t,
  hashout_un_into old o t = hashout_un o t.
Proof.
  intros o old t. destruct t as [n a kids|b|k b]; try reflexivity. unfold hashout_un_into, hashout_un.
  destruct (hash_algo a); try reflexivity. cbn [bind]. destruct kids as [|[| |] r]; try reflexivity.
  destruct (if is_nil b then Ok [] else o_b64dec o b); try reflexivity. cbn [bind].
  unfold hash_buf. rewrite firstn_app_exact. reflexivity.
Qed.
Print Assumptions C19_hashoutput_unmarshal_ignores_destination.

(* saslerr.Error: the condition never depends on the destination; language and text are the
   destination's exactly when the element has no text *)
Theorem C19_saslerr_unmarshal_condition_ignores_destination : forall old old' t,
  rmap se_cond (saslerr_un_into old t) = rmap se_cond (saslerr_un_into old' t).
Proof.
  intros old old' t. unfold saslerr_un_into. destruct (unmarshal_struct None saslerr_fields _ t) as [r| | |]; try reflexivity.
  cbn. destruct (sw_texts r) as [|[l d] x]; reflexivity.
Qed.
Print Assumptions C19_saslerr_unmarshal_condition_ignores_destination.

Theorem C19_saslerr_unmarshal_kept_fields : forall old t v, saslerr_un_into old t = Ok v ->
  (se_lang v = se_lang old /\ se_text v = se_text old) \/ (forall old', saslerr_un_into old' t = Ok v).
Proof.
  intros old t v. unfold saslerr_un_into. destruct (unmarshal_struct None saslerr_fields _ t) as [r| | |]; try discriminate.
  cbn. destruct (sw_texts r) as [|[l d] x]; intro E; injection E as <-; [left; split; reflexivity|right; intro; reflexivity].
Qed.
Print Assumptions C19_saslerr_unmarshal_kept_fields.

(* from the source: the loops of TokenReader and Submit range over copies of the fields and
   nothing assigns through an element; hence the form after Submit/TokenReader is the form before *)
Theorem C19_form_submit_leaves_form : 
  (form_by_ref = false /\ map fst gen_form_field_loops = [str "TokenReader"; str "Submit"]) /\
  forall jp d, fields_after jp form_by_ref d (fields d) = Ok (fields d).
Proof. split; [exact form_loops_copy|]. intros jp d. rewrite (proj1 form_loops_copy). apply fields_after_copy. Qed.
Print Assumptions C19_form_submit_leaves_form.

Theorem C19_form_submit_through_pointer_refuted :
  exists d, fields_after (fun _ => Err) true d (fields d) <> Ok (fields d).
Proof.
  exists (mkdata [] [] ty_submit [mkfld t_text_multi (str "t") [] [] [] [] false] (Some [(str "t", VStr (str "a"))])).
  vm_compute. discriminate.
Qed.
Print Assumptions C19_form_submit_through_pointer_refuted.

(* styling.Unstyled: the hint is written whatever the value, so false does not round-trip
   (known finding C19/styling.Unstyled/roundtrip/value:false-written-as-present) *)
Definition C19_unstyled_roundtrip_statement : Prop := roundtrip unstyled_c any (fun v => v).
Theorem C19_unstyled_roundtrip_refuted :
  exists o v t, c_enc unstyled_c o v = Ok [t] /\ c_dec unstyled_c o t <> Ok v.
Proof. exists no_or, false. eexists; split; [reflexivity|]. cbn. discriminate. Qed.
Print Assumptions C19_unstyled_roundtrip_refuted.

(* receipts.Requested: true is the element, false is no element at all *)
Theorem C19_requested_roundtrip : forall o,
  c_enc requested_c o false = Ok [] /\
  exists t, c_enc requested_c o true = Ok [t] /\ c_dec requested_c o t = Ok true /\ c_dec requested_c o (wire1 t) = Ok true.
Proof. intro o. split; [reflexivity|]. eexists; split; [reflexivity|]. split; reflexivity. Qed.
Print Assumptions C19_requested_roundtrip.
Theorem C19_requested_wellformed : wellformed requested_c [request_name] [].
Proof. wf. eauto 40 with c19names nocore. Qed.
Print Assumptions C19_requested_wellformed.
Theorem C19_requested_unmarshal_total : dec_total requested_c.
Proof. intros o t _. destruct t; exact I. Qed.
Print Assumptions C19_requested_unmarshal_total.

(* pubsub.Condition (decoding only): total, and the result is 0 or one of the 22 conditions *)
Theorem C19_pubsub_condition_unmarshal_total : dec_total pcond_c.
Proof. intros o t _. destruct t; exact I. Qed.
Print Assumptions C19_pubsub_condition_unmarshal_total.
Theorem C19_pubsub_condition_range : forall o t n, c_dec pcond_c o t = Ok n -> (n <= 22)%N.
Proof.
  intros o [m a k|b|k b] n H; try discriminate H.
  (* [injection] would evaluate the table against the name *)
  assert (E0 : cond_index (nlocal m) pubsub_conditions 1 = n) by exact (f_equal (fun r => match r with Ok x => x | _ => n end) H).
  subst n.
  destruct (cond_index_range (nlocal m) pubsub_conditions 1) as [E|E]; [rewrite E; lia|].
  change (N.of_nat (length pubsub_conditions)) with 22%N in E. lia.
Qed.
Print Assumptions C19_pubsub_condition_range.

(* crypto.Hash: TokenReader panics exactly outside the table of names (documented) *)
Theorem C19_hash_tokenreader_panics_outside_table : forall o h,
  hash_name h hash_table = None -> c_enc hash_c o h = Panic.
Proof. intros o h H. unfold hash_c, c_enc, hash_tr. rewrite H. reflexivity. Qed.
Print Assumptions C19_hash_tokenreader_panics_outside_table.

(* crypto.HashOutput with an empty output: the paths differ — the token stream decodes, the
   written document does not (known finding C19/crypto.HashOutput/roundtrip/error:empty-output) *)
Definition C19_hashoutput_paths_agree_statement : Prop := paths_agree hashout_c (fun _ v => hash_known (ho_hash v)).
Theorem C19_hashoutput_paths_agree_refuted : forall o h n, hash_name h hash_table = Some n ->
  exists t, c_enc hashout_c o (mkhashout h []) = Ok [t] /\
            c_dec hashout_c o t = Ok (mkhashout h []) /\ c_dec hashout_c o (wire1 t) = Err.
Proof.
  intros o h n Hn. unfold hashout_c, c_enc, c_dec, hashout_tree; cbn [ho_hash ho_out]. rewrite Hn.
  eexists; split; [reflexivity|]. cbn. rewrite (hash_parse_name h n Hn). cbn. split; reflexivity.
Qed.
Print Assumptions C19_hashoutput_paths_agree_refuted.

(* bin.Data: max-age travels in whole seconds; n is the integer strconv reads from the text
   FormatFloat wrote *)
Theorem C19_bin_data_roundtrip : forall o n v, bob_dom o n v ->
  exists t, c_enc bob_c o v = Ok [t] /\ c_dec bob_c o t = Ok (bob_norm n v) /\ c_dec bob_c o (wire1 t) = Ok (bob_norm n v).
Proof.
  intros o n [cid age nc ty data] [Hb Ha]. cbn in Hb, Ha. eexists; split; [reflexivity|].
  apply both_paths; [unfold bob_c, c_dec, bob_un; rewrite plain_struct_wire1 by auto 30 with c19wire; reflexivity|].
  unfold bob_c, c_dec, bob_un, bob_tr, bob_norm; cbn [bb_cid bb_maxage bb_nocache bb_type bb_data].
  destruct nc; [|destruct (Z.ltb_spec 0 age) as [Eage|Eage]; [specialize (Ha eq_refl Eage)|]];
    reads; cbn; rewrite (b64_back o data Hb); reflexivity.
Qed.
Print Assumptions C19_bin_data_roundtrip.
Theorem C19_bin_data_wellformed : wellformed bob_c [bob_name] [ln (str "type"); ln (str "max-age"); ln (str "cid")].
Proof. wf. eauto 40 with c19names nocore. Qed.
Print Assumptions C19_bin_data_wellformed.
Theorem C19_bin_data_unmarshal_total : dec_total bob_c.
Proof. intros o t H. unfold bob_c, c_dec, bob_un. auto 20 with c19safe. Qed.
Print Assumptions C19_bin_data_unmarshal_total.

(* bookmarks.Channel: round trip up to the extensions (raw XML, outside the tree model) *)
Theorem C19_bookmarks_channel_roundtrip : roundtrip channel_c any channel_norm.
Proof.
  apply plain_codec_roundtrip; [auto 30 with c19wire|]. intros o [aj n k p he ext] _.
  reads. destruct he; reflexivity.
Qed.
Print Assumptions C19_bookmarks_channel_roundtrip.
Theorem C19_bookmarks_channel_wellformed : forall o v ts, ch_hasext v = false -> c_enc channel_c o v = Ok ts ->
  forest_wellformed channel_els channel_ats ts.
Proof.
  intros o [aj n k p he ext] ts Hx E. cbn in Hx, E. subst he. injection E as <-. apply forest_wellformed_intro; try reflexivity.
  unfold channel_tr, opt_attr, opt_leaf; cbn [ch_autojoin ch_name ch_nick ch_password ch_hasext ch_ext]. destruct n, k, p; reflexivity.
Qed.
Print Assumptions C19_bookmarks_channel_wellformed.
Theorem C19_bookmarks_channel_unmarshal_total : dec_total channel_c.
Proof. apply struct_codec_dec_total. auto 20 with c19safe. Qed.
Print Assumptions C19_bookmarks_channel_unmarshal_total.

(* file.Meta: building the XML does not panic without a hash (after the repair) *)
Theorem C19_file_meta_constructors_no_panic :
  enc_total fmeta_c (fun _ v => hash_unset (fm_hash v) = true \/ hash_known (ho_hash (fm_hash v))).
Proof.
  intros o v H. unfold fmeta_c, c_enc, fmeta_tr. fold (hash_unset (fm_hash v)).
  destruct (hash_unset (fm_hash v)) eqn:E; [eexists; reflexivity|].
  destruct H as [H|H]; [discriminate|]. destruct H as [n Hn]. rewrite (hashout_tree_named _ n Hn). eexists; reflexivity.
Qed.
Print Assumptions C19_file_meta_constructors_no_panic.

(* history.Query: the query submits a seven-field data form and reads the filters back through
   Get. Round trip through both paths: times come back in UTC (the zero time as the zero time),
   empty ids are not sent; building never panics, unmarshalling is total (after the repairs) *)
Theorem C19_history_query_roundtrip : roundtrip hquery_c hq_dom hq_norm.
Proof.
  intros o q Hd. destruct (hq_el_un o q Hd) as [ps [Ev Hu]]. exists (hq_el o q ps).
  split; [rewrite hquery_tr_vals, Ev; reflexivity|].
  apply both_paths; [apply hquery_un_wire|exact Hu].
Qed.
Print Assumptions C19_history_query_roundtrip.
Theorem C19_history_query_wellformed : wellformed hquery_c hquery_els hquery_ats.
Proof.
  intros o q ts E. rewrite hquery_tr_vals in E.
  destruct (form_vals (o_jid o) (hq_sub o q)) as [ps| | |]; try discriminate E. injection E as <-.
  apply forest_wellformed_intro; try reflexivity. cbn [forallb]. rewrite hq_el_names. reflexivity.
Qed.
Print Assumptions C19_history_query_wellformed.
Theorem C19_history_query_constructors_no_panic : forall o q, or_safe o -> safe (c_enc hquery_c o q).
Proof.
  intros o q H. unfold hquery_c, c_enc, hquery_tr.
  apply bind_safe; [apply submit_safe; apply (os_jid o H)|]. intros [f b]. exact I.
Qed.
Print Assumptions C19_history_query_constructors_no_panic.
Theorem C19_history_query_unmarshal_total : dec_total hquery_c.
Proof.
  intros o t H. unfold hquery_c, c_dec, hquery_un.
  pose proof (os_jid o H) as Hj. pose proof (get_safe _ Hj) as Hg. pose proof (fun d id => get_string_safe _ d id Hj) as Hs.
  apply bind_safe; [apply unmarshal_struct_safe; pose proof unmarshal_into_safe; auto 20 with c19safe|].
  (* every later step is a Get, or time.Parse on what it returned *)
  intro r. repeat (apply bind_safe; [auto with c19safe|intros []]). exact I.
Qed.
Print Assumptions C19_history_query_unmarshal_total.

(* no function of the form API panics: Get (nil receiver included), Set (zero value included),
   TokenReader, Submit (nil receiver included), for every form, identifier and value *)
Theorem C19_form_constructors_no_panic : forall jp, (forall s, safe (jp s)) ->
  (forall d id, safe (get jp d id)) /\
  (forall d id v, exists r, set d id v = Ok r) /\
  (forall d, safe (token_reader jp d)) /\
  (forall d, safe (submit jp d)).
Proof. intros jp H. exact (conj (get_safe jp H) (conj set_ok (conj (token_reader_safe jp H) (submit_safe jp H)))). Qed.
Print Assumptions C19_form_constructors_no_panic.

(* stronger: Get, TokenReader and Submit always return a value (an element): an address jid.Parse
   rejects is simply not written *)
Theorem C19_form_always_yields : forall jp, (forall s, safe (jp s)) ->
  (forall d id, yields (get jp d id)) /\ (forall d, yields (token_reader jp d)) /\ (forall d, yields (submit jp d)).
Proof.
  intros jp H. repeat split; intros; apply ok_yields.
  - apply get_ok, H.
  - apply token_reader_ok, H.
  - apply submit_ok, H.
Qed.
Print Assumptions C19_form_always_yields.

(* the three panics of the pinned tree, as witnesses against its code *)
Theorem C19_form_pinned_panics :
  (split_lines_pinned 3 (str "a" ++ [nl]) [] = Panic /\ split_lines_pinned 1 [] [] = Panic) /\
  (forall id v, set_type_ok [] v = true -> set_pinned zero_data id v = Panic) /\
  (forall jp id, get_pinned jp None id = Panic).
Proof.
  split; [split; reflexivity|]. split; [|reflexivity].
  intros id v H. unfold set_pinned, set_gen. cbn [zero_data fields find_field values].
  change (beq [] t_fixed) with false. cbn [andb]. rewrite H. reflexivity.
Qed.
Print Assumptions C19_form_pinned_panics.

(* text-multi: the submitted lines are the segments between line breaks, an empty last one
   dropped; the loop ends within its fuel for every value *)
Theorem C19_form_text_multi_split : forall typed lines,
  split_lines (S (length typed)) typed lines = Ok (lines ++ trim_last (runs [] typed)).
Proof. intros typed lines. exact (split_lines_spec (S (length typed)) typed lines (Nat.lt_succ_diag_r _)). Qed.
Print Assumptions C19_form_text_multi_split.

Theorem C19_form_text_multi_lines_clean : forall typed, exists ls,
  split_lines (S (length typed)) typed [] = Ok ls /\ Forall (fun l => no_nl l = true) ls.
Proof. intro typed. exact (split_lines_ok (S (length typed)) typed [] (Nat.lt_succ_diag_r _) (Forall_nil _)). Qed.
Print Assumptions C19_form_text_multi_lines_clean.

(* one encode/decode gives the documented normal form, from the token stream and from the
   written document alike (so the two paths agree for every form) *)
Theorem C19_form_roundtrip : forall jp d t, token_reader jp d = Ok t ->
  exists n, norm jp d = Ok n /\ unmarshal t = Ok n /\ unmarshal (wire1 t) = Ok n.
Proof. exact form_roundtrip. Qed.
Print Assumptions C19_form_roundtrip.

Theorem C19_form_paths_agree : forall jp d t, token_reader jp d = Ok t -> unmarshal (wire1 t) = unmarshal t.
Proof. intros jp d t _. apply unmarshal_wire1. Qed.
Print Assumptions C19_form_paths_agree.

Theorem C19_form_wellformed : forall jp d t, token_reader jp d = Ok t -> forest_wellformed form_els form_ats [t].
Proof. exact form_wellformed. Qed.
Print Assumptions C19_form_wellformed.

(* what is written obeys XEP-0004: title and instruction lines without line breaks, no empty
   instruction line; per field no empty value, booleans and JIDs well-formed, at most one value
   unless the field is multi-valued *)
Theorem C19_form_values_normalised : forall jp d t, token_reader jp d = Ok t ->
  exists ps, t = gform [] false [at_ (str "type") (dtyp d)] d ps /\
    no_nl (space_replace (title d)) = true /\
    Forall (fun l => no_nl l = true /\ l <> []) (nonempty_runs (instructions d)) /\
    Forall (fun p => Forall (value_ok jp (typ (fst p))) (snd p) /\
                     (is_multi (typ (fst p)) = false -> length (snd p) <= 1)) ps.
Proof.
  intros jp d t. rewrite token_reader_vals. unfold form_vals.
  destruct (emitted_fields jp d (fields d)) as [fs| | |]; cbn [bind rmap]; try discriminate.
  destruct (field_vals jp fs) as [ps| | |] eqn:Hp; cbn [bind]; try discriminate. intro E. injection E as <-.
  exists ps. split; [reflexivity|]. split; [apply space_replace_no_nl|]. split; [apply nonempty_runs_spec|].
  exact (field_vals_spec jp fs ps Hp).
Qed.
Print Assumptions C19_form_values_normalised.

Theorem C19_form_unmarshal_total : forall t, safe (unmarshal t).
Proof. intro t. exact (unmarshal_into_safe zero_data t). Qed.
Print Assumptions C19_form_unmarshal_total.
