(* C19/ProofsI.v — shared state and histories: decoding into a destination that
   already holds a value (re-used buffers, kept fields), and deriving a
   submission from a form. *)
From Coq Require Import Lia.
From XV Require Import lib.Bytes lib.Schema gen.Payloads C19.Form C19.Types.

(* base64 never decodes to more than DecodedLen bytes *)
Definition b64_len_ok (o : oracles) : Prop :=
  forall s d, o_b64dec o s = Ok d -> length d <= decoded_len (length s).

Lemma saslerr_into_zero t : saslerr_un_into (mksaslerr 0 [] []) t = saslerr_un t.
Proof. reflexivity. Qed.

(* as the translator prints them: file, receiver type, statement, innermost guard ([] = none) *)
Definition known_reuse_sites : list (bytes * bytes * bytes * bytes) :=
  [ (str "form/form.go", str "*Data", str "d.instructions += ""\n"" + s.Inner", []);
    (str "form/form.go", str "*Data", str "d.fields = append(d.fields, f)", []);
    (str "bin/bob.go", str "*Data", str "d.Data = d.Data[:n]", str "l > 0");
    (str "crypto/crypto.go", str "*HashOutput", str "h.Out = append(h.Out, make([]byte, l-len(h.Out))...)", str "len(h.Out) < l");
    (str "crypto/crypto.go", str "*HashOutput", str "h.Out = h.Out[:n]", []);
    (str "crypto/trustmsg.go", str "*Key", str "k.KeyID = k.KeyID[:decoded]", str "decoded < len(k.KeyID)") ].

(* read from the source: every loop over the fields in TokenReader and Submit ranges over copies,
   and no statement takes the address of, or assigns through, an element of a fields slice *)
Definition form_by_ref : bool :=
  negb (forallb snd gen_form_field_loops) || gen_form_writes_through_fields.

Lemma form_loops_copy :
  form_by_ref = false /\ map fst gen_form_field_loops = [str "TokenReader"; str "Submit"].
Proof. split; vm_compute; reflexivity. Qed.

Section WithJid.
  Variable jp : bytes -> res bytes.

  (* the fields of the form after TokenReader ran on it: with a copy as loop variable they are
     untouched; through a pointer into d.fields the values computed for a submission are stored *)
  Fixpoint fields_after (by_ref : bool) (d : data) (fs : list field) : res (list field) :=
    match fs with
    | [] => Ok []
    | f :: r =>
        bind (if by_ref && beq (dtyp d) ty_submit then submit_field jp d f else Ok None) (fun o =>
        rmap (cons (match o with Some f' => f' | None => f end)) (fields_after by_ref d r))
    end.

  Lemma fields_after_copy d fs : fields_after false d fs = Ok fs.
  Proof. induction fs as [|f r IH]; cbn [fields_after andb bind]; [reflexivity|]. rewrite IH. reflexivity. Qed.

End WithJid.
