(* C19/Examples.v — non-vacuity: concrete, non-trivial instances of the
   hypotheses used by the theorems of C19/Properties.v (all but hq_dom,
   fits_int64, b64_len_ok and tzo_parse_agrees), and a few payloads of the XEPs
   run through the models. *)
From Coq Require Import ZArith Lia.
From XV Require Import lib.Bytes lib.Xml lib.Schema C19.Form C19.Types C19.Model C19.Spec
  C19.ProofsA C19.ProofsB C19.ProofsC C19.ProofsD C19.ProofsE C19.ProofsF.

(* an oracle given by tables, as the case files give it *)
Definition t1 : tm := mktm 1000 500000000 3600.
Definition t1_utc := str "1970-01-01T00:16:40.5Z".
Definition t1_zone := str "1970-01-01T01:16:40.5+01:00".
Definition j1 := str "juliet@example.net/balcony".
Definition k1 := str "abc".
Definition u1 := str "https://example.net/up/1?x=%20".

Definition ex_or : oracles :=
  mk_or [(j1, Some j1); (str "not a jid@", None)]
        [(L_utc_nano, t1, t1_utc); (L_tzo, t1, str "+01:00"); (L_zone_nano, t1, t1_zone)]
        [(P_rfc3339, t1_utc, Some (utc t1)); (P_tzo, str "+01:00", Some (mktm 0 0 3600)); (P_text, t1_zone, Some t1); (P_text, t1_utc, Some (utc t1))]
        [(b64enc k1, Some k1)] [(u1, Some u1)] [(1500000000%Z, str "2")].

(* a total oracle: the premise of the totality theorems *)
Definition total_or : oracles :=
  mkor (fun s => if is_nil s then Err else Ok s) (fun _ _ => str "x") (fun _ _ => Err) (fun s => Ok s) (fun s => Ok s) (fun _ => str "0").

Example total_or_safe : or_safe total_or.
Proof. constructor; intros; cbn; try exact I. destruct (is_nil s); exact I. Qed.

Example ex_jid_canon : jid_canon ex_or j1 /\ jid_canon ex_or [].
Proof. split; [right; reflexivity|left; reflexivity]. Qed.

Example ex_time : time_utc_roundtrip ex_or t1 /\ tzo_roundtrip ex_or t1 /\ time_text_roundtrip ex_or t1.
Proof. split; [reflexivity|]. split; [|reflexivity]. exists (mktm 0 0 3600). split; reflexivity. Qed.

Example ex_b64 : b64_roundtrip ex_or k1 /\ b64enc k1 = str "YWJj".
Proof. split; [right; reflexivity|reflexivity]. Qed.

Definition ex_delay := mkdelay j1 t1 (str "Offline <storage> & more").
Example ex_delay_dom : delay_dom ex_or ex_delay.
Proof. split; [reflexivity|right; reflexivity]. Qed.
Example ex_delay_run :
  c_enc delay_c ex_or ex_delay =
    Ok [Elem delay_name [at_ (str "stamp") t1_utc; at_ (str "from") j1] [Text (str "Offline <storage> & more")]] /\
  delay_norm ex_delay <> ex_delay.   (* the zone is not carried: the stamp is UTC *)
Proof. split; [reflexivity|discriminate]. Qed.

Example ex_xtime_dom : xtime_dom ex_or t1.
Proof. split; [reflexivity|]. exists (mktm 0 0 3600). split; reflexivity. Qed.

Example ex_rset_dom : rset_dom (mkrset (str "a<b") (Some 18446744073709551615%N) (str "z") (Some 0%N)).
Proof. split; cbn; unfold fits64, two64; lia. Qed.
Example ex_rnext_not_all : ~ fits64 18446744073709551616.
Proof. unfold fits64, two64. lia. Qed.

Definition ex_bitem := mkbitem j1 [] [mksid (str "id1") j1; mksid (str "") []] (str "spam &c").
Example ex_bitem_dom : bitem_dom ex_or ex_bitem.
Proof.
  split; [right; reflexivity|]. apply Forall_cons; [right; reflexivity|]. apply Forall_cons; [left; reflexivity|]. apply Forall_nil.
Qed.
Example ex_bitem_norm : b_reason (bitem_norm ex_bitem) = reason_spam.
Proof. reflexivity. Qed.

Definition ex_trust := mktrust (str "urn:xmpp:atm:1") (str "urn:xmpp:omemo:2")
                               [mkowned j1 [mkckey true k1; mkckey false []]; mkowned [] []].
Example ex_trust_dom : trust_dom ex_or ex_trust.
Proof.
  apply Forall_cons; [|apply Forall_cons; [|apply Forall_nil]].
  - split; [right; reflexivity|]. apply Forall_cons; [right; reflexivity|]. apply Forall_cons; [left; reflexivity|apply Forall_nil].
  - split; [left; reflexivity|apply Forall_nil].
Qed.

Example ex_hash_known : hash_known 5 /\ hash_name 5 hash_table = Some (str "sha-256") /\ hash_name 0 hash_table = None.
Proof. split; [eexists; reflexivity|]. split; reflexivity. Qed.
Example ex_hashout_dom : hashout_dom ex_or (mkhashout 5 k1).
Proof. split; [eexists; reflexivity|]. split; [discriminate|reflexivity]. Qed.

(* file.Meta with and without a hash *)
Definition ex_meta (h : hashout) := mkfmeta (str "text/plain") (str "a&b.txt") t1 12 h 0 18446744073709551615 3.
Example ex_fmeta_dom : fmeta_dom ex_or (ex_meta (mkhashout 5 k1)) /\ fmeta_dom ex_or (ex_meta zero_hashout).
Proof.
  split; (split; [reflexivity|]); repeat (split; [unfold fits64, two64; cbn; lia|]).
  - right. exact ex_hashout_dom.
  - left. reflexivity.
Qed.
Example ex_fmeta_pinned_panics : hashout_tree zero_hashout = Panic.  (* what the pinned TokenReader called *)
Proof. reflexivity. Qed.

(* bin.Data: 1.5 s is written as "2" and comes back as 2 s; 0.4 s would come back as no-cache *)
Definition ex_bob := mkbob (str "sha1+8f35@bob.xmpp.org") 1500000000 false (str "image/png") k1.
Example ex_bob_dom : bob_dom ex_or 2 ex_bob.
Proof. split; [right; reflexivity|]. intros _ _. reflexivity. Qed.
Example ex_bob_norm : bb_maxage (bob_norm 2 ex_bob) = 2000000000%Z /\ bb_nocache (bob_norm 0 ex_bob) = true.
Proof. split; reflexivity. Qed.

Definition ex_slot := mkslot (Some u1) (Some []) [str "Basic x"] [] [str "1"; str "2"].
Example ex_slot_dom : url_canon ex_or (sl_put ex_slot) /\ url_canon ex_or (sl_get ex_slot).
Proof. split; [reflexivity|exact I]. Qed.
Example ex_slot_norm : sl_get (slot_norm ex_slot) = None.
Proof. reflexivity. Qed.

(* data forms: the form of XEP-0004 example 2, filled in and submitted *)
Definition ex_form : data :=
  new_form [ FTitle (str "Bot" ++ [nl] ++ str "Configuration"); FInstr (str "Fill out this form" ++ [cr; nl] ++ str "please");
             FField t_hidden (str "FORM_TYPE") [OValue (str "jabber:bot")];
             FField t_fixed [] [OValue (str "Section 1")];
             FField t_text (str "botname") [OLabel (str "The name of your bot"); ORequired];
             FField t_text_multi (str "description") [];
             FField t_boolean (str "public") [OValue (str "maybe"); OValue (str "1")];
             FField t_list_multi (str "features") [OListItem (str "Contests") (str "contests"); OValue (str "news"); OValue (str "")];
             FField t_jid_multi (str "invitelist") [OValue j1; OValue (str "not a jid@")] ].

Definition ex_d1 : data :=
  match set ex_form (str "description") (VStr (str "line 1" ++ [nl; nl] ++ str "line 3" ++ [nl])) with
  | Ok (d, _, _) => d | _ => ex_form end.
Definition ex_sub : tree :=
  match submit (o_jid ex_or) (Some ex_d1) with Ok (t, _) => t | _ => Text [] end.
Definition ex_dec : data := match unmarshal ex_sub with Ok n => n | _ => zero_data end.

Example ex_form_run :
  set ex_form (str "description") (VStr (str "line 1" ++ [nl; nl] ++ str "line 3" ++ [nl])) = Ok (ex_d1, true, false) /\
  submit (o_jid ex_or) (Some ex_d1) = Ok (ex_sub, false) /\      (* botname is required and not set *)
  unmarshal ex_sub = Ok ex_dec /\ unmarshal (wire1 ex_sub) = Ok ex_dec /\
  map (fun f => (var f, value f)) (fields ex_dec) =
    [ (str "FORM_TYPE", [str "jabber:bot"]); (str "botname", []);
      (str "description", [str "line 1"; str "line 3"]);
      (str "public", [str "true"]); (str "features", [str "news"]); (str "invitelist", [j1]) ].
Proof.
  split; [vm_compute; reflexivity|]. split; [vm_compute; reflexivity|]. split; [vm_compute; reflexivity|].
  split; vm_compute; reflexivity.
Qed.

Example ex_form_title : space_replace (title ex_form) = str "Bot Configuration" /\
                        nonempty_runs (instructions ex_form) = [str "Fill out this form"; str "please"].
Proof. split; reflexivity. Qed.

(* the witnesses of the defects found on the pinned tree *)
Example ex_pinned_text_multi : split_lines_pinned 3 (str "a" ++ [nl]) [] = Panic /\ split_lines 3 (str "a" ++ [nl]) [] = Ok [str "a"].
Proof. split; reflexivity. Qed.
Example ex_pinned_set : set_pinned zero_data (str "x") (VStr (str "y")) = Panic /\
                        exists r, set zero_data (str "x") (VStr (str "y")) = Ok r.
Proof. split; [reflexivity|eexists; reflexivity]. Qed.

(* a malformed document: an error, not a panic *)
Example ex_bad_docs :
  unmarshal (Elem x_name [] [Elem (ln (str "bogus")) [] []]) = Err /\
  c_dec delay_c total_or (Elem delay_name [at_ (str "stamp") (str "yesterday")] []) = Err /\
  c_dec rset_c total_or (Elem set_name [] [leaf (str "count") (str "-1")]) = Err /\
  c_dec hquery_c total_or (Elem hquery_name [] []) = Ok (mkhquery [] [] zero_tm zero_tm [] [] [] 0 false [] false).
Proof. repeat split; reflexivity. Qed.
