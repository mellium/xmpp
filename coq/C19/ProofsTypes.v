From XV Require Import lib.Bytes lib.Xml lib.Schema.

Lemma direct_text_one b : direct_text [Text b] = b.
Proof. cbn. apply app_nil_r. Qed.

Lemma is_nil_false_cons {A} (x : A) l : is_nil (x :: l) = false.
Proof. reflexivity. Qed.
