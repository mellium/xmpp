(* C19/ProofsB.v — payloads carrying times and addresses: delay.Delay,
   stanza.Delay, xtime.Time, forward.Forwarded. Times are abstract
   (instant, offset) values; the time package is an oracle whose assumed
   round-trip behaviour is a named premise. *)
From Coq Require Import ZArith Lia.
From XV Require Import lib.Bytes lib.Xml lib.Schema C19.Form C19.Types C19.Spec C19.ProofsLib C19.ProofsA.

#[local] Arguments opt_attr : simpl never.

Definition delay_dom (o : oracles) (v : delay) : Prop :=
  time_utc_roundtrip o (dl_time v) /\ jid_canon o (dl_from v).

Definition delay_norm (v : delay) : delay := mkdelay (dl_from v) (utc (dl_time v)) (dl_reason v).

Lemma delay_un_tr o v : delay_dom o v -> delay_un o (delay_tr o v) = Ok (delay_norm v).
Proof.
  destruct v as [f t r]. intros [Ht Hj]. cbn in Ht, Hj. unfold time_utc_roundtrip in Ht.
  unfold delay_un, delay_un_into, delay_tr, delay_norm, opt_attr; cbn [dl_from dl_time dl_reason].
  destruct f, r; cbn; rewrite Ht; cbn; rewrite ?(jid_attr_canon o _ _ Hj); reflexivity.
Qed.

Lemma delay_un_into_wire o d v : same_on (delay_un_into o d) (delay_tr o v).
Proof.
  apply same_on_own; [reflexivity|].
  destruct v as [f t r]. unfold delay_tr, opt_attr; cbn [dl_from dl_time dl_reason]. destruct f, r; reflexivity.
Qed.

#[export] Hint Resolve delay_un_into_wire : c19wire.

Definition delay_ats := [ln (str "stamp"); ln (str "from")].

Lemma delay_attrs_safe o a v fs ff : or_safe o -> safe (delay_attrs o a v fs ff).
Proof.
  intro H. revert v fs ff. induction a as [|x r IH]; intros v fs ff; cbn [delay_attrs]; [exact I|].
  destruct (_ && _); [apply IH|].
  destruct (beq _ (str "stamp")).
  - apply bind_safe; [apply (os_tparse o H)|]. intro t. destruct ff; [exact I|apply IH].
  - destruct (beq _ (str "from")); [|apply IH].
    apply bind_safe; [apply jid_attr_safe; exact H|]. intro j. destruct fs; [exact I|apply IH].
Qed.

Lemma delay_un_into_safe o init t : or_safe o -> safe (delay_un_into o init t).
Proof.
  intro H. destruct t as [n a k|b|k b]; cbn [delay_un_into]; try exact I.
  apply bind_safe; [apply delay_attrs_safe; exact H|]. intro v. destruct k as [|[]]; exact I.
Qed.

#[export] Hint Resolve delay_un_into_safe : c19safe.

Lemma sdelay_attrs_safe o a v ff fs : or_safe o -> safe (sdelay_attrs o a v ff fs).
Proof.
  intro H. revert v fs ff. induction a as [|x r IH]; intros v fs ff; cbn [sdelay_attrs]; [exact I|].
  destruct (beq _ (str "from")).
  - apply bind_safe; [apply jid_attr_safe; exact H|]. intro j. destruct fs; [exact I|apply IH].
  - destruct (beq _ (str "stamp")); [|apply IH].
    apply bind_safe; [apply (os_tparse o H)|]. intro t. destruct ff; [exact I|apply IH].
Qed.

Lemma two_digits_table :
  forallb (fun n => match two_digits n with
                    | [d1; d2] => match digit_val d1, digit_val d2 with
                                  | Some a, Some b => N.eqb (a * 10 + b) n
                                  | _, _ => false
                                  end
                    | _ => false
                    end) (map N.of_nat (seq 0 60)) = true.
Proof. vm_compute. reflexivity. Qed.

Lemma two_digits_spec n : (n < 60)%N ->
  exists d1 d2 a b, two_digits n = [d1; d2] /\ digit_val d1 = Some a /\ digit_val d2 = Some b /\ (a * 10 + b)%N = n.
Proof.
  intro H. pose proof (forallb_below _ 60 two_digits_table n H) as T. cbv beta in T.
  destruct (two_digits n) as [|d1 [|d2 [|]]]; try discriminate T.
  destruct (digit_val d1) as [a|] eqn:E1, (digit_val d2) as [b|] eqn:E2; try discriminate T.
  apply N.eqb_eq in T. exists d1, d2, a, b. auto.
Qed.

Definition fmt_zone (zone : Z) : bytes :=
  let a := Z.to_N (Z.abs zone) in
  (if (zone <? 0)%Z then "-"%byte else "+"%byte) :: two_digits (a / 60) ++ ":"%byte :: two_digits (a mod 60).

Lemma parse_fmt_zone m : (-1440 < m < 1440)%Z -> parse_tzo (fmt_zone m) = Some (m * 60)%Z.
Proof.
  intro Hm. unfold fmt_zone. set (a := Z.to_N (Z.abs m)).
  assert (Ha : (a < 1440)%N /\ Z.of_N a = Z.abs m) by lia. clearbody a. destruct Ha as [Ha Za].
  pose proof (N.div_mod' a 60) as Ed. pose proof (N.mod_lt a 60 ltac:(discriminate)) as Hmi.
  assert (Hh : (a / 60 < 24)%N) by (apply N.div_lt_upper_bound; [discriminate|exact Ha]).
  set (h := (a / 60)%N) in *. set (mi := (a mod 60)%N) in *. clearbody h mi.
  destruct (two_digits_spec h ltac:(lia)) as [h1 [h2 [x1 [x2 [-> [E1 [E2 Eh]]]]]]].
  destruct (two_digits_spec mi Hmi) as [m1 [m2 [y1 [y2 [-> [E3 [E4 Em]]]]]]].
  cbn [app parse_tzo]. rewrite E1, E2, E3, E4, Eh, Em.
  rewrite (proj2 (N.ltb_lt _ _) Hh), (proj2 (N.ltb_lt _ _) Hmi).
  change (byte_eqb ":" ":") with true. cbn [andb].
  destruct (Z.ltb_spec m 0) as [Hn|Hn].
  - change (byte_eqb "-" "+") with false. change (byte_eqb "-" "-") with true. cbv iota. f_equal. lia.
  - change (byte_eqb "+" "+") with true. cbv iota. f_equal. lia.
Qed.

(* time.Parse("Z07:00", text) has the offset the text denotes (package time is
   an oracle; [parse_tzo] says what the text denotes) *)
Definition tzo_parse_agrees (o : oracles) : Prop :=
  forall s off, parse_tzo s = Some off -> exists z, o_tparse o P_tzo s = Ok z /\ t_off z = off.

(* the same for the one text written for t: read back, it has the offset in whole minutes *)
Definition tzo_roundtrip (o : oracles) (t : tm) : Prop :=
  exists z, o_tparse o P_tzo (format_tzo (t_off t)) = Ok z /\ t_off z = (Z.quot (t_off t) 60 * 60)%Z.

Definition xtime_dom (o : oracles) (t : tm) : Prop := time_utc_roundtrip o t /\ tzo_roundtrip o t.

(* the zone offset travels in whole minutes *)
Definition xtime_norm (t : tm) : tm := mktm (t_sec t) (t_nsec t) (Z.quot (t_off t) 60 * 60).
