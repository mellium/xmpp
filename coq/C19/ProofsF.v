(* C19/ProofsF.v — upload.Slot and file.Meta. *)
From Coq Require Import ZArith.
From XV Require Import lib.Bytes lib.Xml lib.Schema C19.Form C19.Types C19.Spec C19.ProofsLib
  C19.ProofsA C19.ProofsC.

#[local] Arguments opt_leaf : simpl never.

Definition H_auth := str "Authorization".
Definition H_cookie := str "Cookie".
Definition H_expires := str "Expires".

Definition slot_hdrs (v : slot) : list (bytes * bytes) :=
  map (pair H_auth) (sl_auth v) ++ map (pair H_cookie) (sl_cookie v) ++ map (pair H_expires) (sl_expires v).

Definition hdr2 (p : bytes * bytes) : tree := header_tree (fst p) (snd p).

Lemma slot_put_kids v :
  map (header_tree H_auth) (sl_auth v) ++ map (header_tree H_cookie) (sl_cookie v) ++ map (header_tree H_expires) (sl_expires v)
  = map hdr2 (slot_hdrs v).
Proof. unfold slot_hdrs. rewrite !map_app, !map_map. reflexivity. Qed.

Lemma put_hdr_takes p r : takes (set_child put_fields) (hdr2 p) r (mkslotraw (sr_put r) (sr_get r) (sr_hdrs r ++ [p])).
Proof. destruct p as [n x]. eauto 20 with c19reads nocore. Qed.

Lemma vals_of_const name k (l : list bytes) : vals_of name (map (pair k) l) = if ieq k name then l else [].
Proof.
  unfold vals_of. induction l as [|x r IH]; cbn [map filter fst]; [destruct (ieq k name); reflexivity|].
  destruct (ieq k name); cbn [map snd]; rewrite IH; reflexivity.
Qed.

Lemma vals_of_app name a b : vals_of name (a ++ b) = vals_of name a ++ vals_of name b.
Proof. unfold vals_of. rewrite filter_app, map_app. reflexivity. Qed.

Definition url_text (u : option bytes) : bytes := match u with Some x => x | None => [] end.
Definition url_norm (u : option bytes) : option bytes := match u with Some [] => None | _ => u end.

(* url.Parse(u.String()).String() = u.String() for the URLs of the value *)
Definition url_canon (o : oracles) (u : option bytes) : Prop :=
  match u with Some (c :: r) => o_url o (c :: r) = Ok (c :: r) | _ => True end.

Definition slot_norm (v : slot) : slot :=
  mkslot (url_norm (sl_put v)) (url_norm (sl_get v)) (sl_auth v) (sl_cookie v) (sl_expires v).

Lemma url_back o u : url_canon o u ->
  (if is_nil (url_text u) then Ok None else rmap Some (o_url o (url_text u))) = Ok (url_norm u).
Proof. destruct u as [[|c r]|]; cbn; intro H; try reflexivity. rewrite H. reflexivity. Qed.

Lemma slot_un_tr o v : url_canon o (sl_put v) -> url_canon o (sl_get v) -> slot_un o (slot_tr v) = Ok (slot_norm v).
Proof.
  intros Hp Hg.
  assert (E : unmarshal_struct (Some slot_name) slot_fields (mkslotraw [] [] []) (slot_tr v) =
              Ok (mkslotraw (url_text (sl_put v)) (url_text (sl_get v)) (slot_hdrs v))).
  { unfold slot_tr. fold (url_text (sl_put v)) (url_text (sl_get v)). fold H_auth H_cookie H_expires.
    rewrite slot_put_kids.
    epose proof (kids_map put_fields hdr2 _ (fun l => mkslotraw _ _ l) (slot_hdrs v) _ (fun p _ => put_hdr_takes p)) as G.
    reads. reflexivity. }
  unfold slot_un. rewrite E. cbn [bind sr_get sr_put sr_hdrs].
  rewrite (url_back o _ Hg). cbn [bind]. rewrite (url_back o _ Hp). cbn [bind].
  unfold slot_hdrs. rewrite !vals_of_app, !vals_of_const. cbn [app]. rewrite !app_nil_r. reflexivity.
Qed.

Definition slot_els := [slot_name; ln (str "put"); ln (str "get"); ln (str "header")].
Definition slot_ats := [ln (str "url"); ln (str "name")].

(* time.Time.UnmarshalText(t.UTC().Format(RFC3339Nano)) = t in UTC, for years
   0000..9999 (known finding otherwise); the repaired TokenReader writes the date
   in UTC, without the zone offset, so an offset with seconds does not shift the instant *)
Definition time_text_roundtrip (o : oracles) (t : tm) : Prop :=
  o_tparse o P_text (o_tfmt o L_utc_nano t) = Ok (utc t).

Definition hash_unset (h : hashout) : bool := N.eqb (ho_hash h) 0 && is_nil (ho_out h).

Definition fmeta_dom (o : oracles) (v : fmeta) : Prop :=
  time_text_roundtrip o (fm_date v) /\
  fits64 (fm_size v) /\ fits64 (fm_width v) /\ fits64 (fm_height v) /\ fits64 (fm_length v) /\
  (hash_unset (fm_hash v) = true \/ hashout_dom o (fm_hash v)).

(* the date comes back in UTC; when no hash is written, the zero HashOutput *)
Definition fmeta_norm (v : fmeta) : fmeta :=
  mkfmeta (fm_media v) (fm_name v) (utc (fm_date v)) (fm_size v)
          (if hash_unset (fm_hash v) then zero_hashout else fm_hash v) (fm_width v) (fm_height v) (fm_length v).

Lemma hash_unset_zero h : hash_unset h = true -> h = zero_hashout.
Proof.
  destruct h as [n out]. unfold hash_unset; cbn. intro H. apply andb_true_iff in H. destruct H as [H1 H2].
  apply N.eqb_eq in H1. destruct out; [|discriminate]. subst. reflexivity.
Qed.

Definition fmeta_els := [meta_name; ln (str "media-type"); ln (str "name"); ln (str "date"); ln (str "size");
                         mkname ns_hashes (str "hash"); ln (str "width"); ln (str "height"); ln (str "length")].
