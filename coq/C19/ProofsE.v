(* C19/ProofsE.v — history.Result; for bin.Data and bookmarks.Channel the
   normal forms and name lists their theorems mention. *)
From Coq Require Import ZArith.
From XV Require Import lib.Bytes lib.Xml lib.Schema C19.Types C19.Spec C19.ProofsLib
  C19.ProofsA C19.ProofsC.

#[local] Arguments opt_attr : simpl never.
#[local] Arguments opt_leaf : simpl never.

Definition rset_dom (v : rset) : Prop := fits64o (rs_index v) /\ fits64o (rs_count v).

Definition fin_name := mkname ns_mam (str "fin").

(* the hand-written loop looks at the attributes by local name and hands the first child to the
   decoder of the result set: the declared name space and the child's image change nothing *)
Lemma hresult_un_wire v : same_on hresult_un (hresult_tr v).
Proof.
  apply same_on_own; [reflexivity|]. destruct v as [c u s]. unfold hresult_tr; cbn [hr_complete hr_unstable hr_set].
  unfold wire1 at 1. cbn [wire is_nil nspace flat_map app]. unfold rset_tr at 1. rewrite (wire_explicit ns_mam set_name) by reflexivity.
  fold (rset_tr s). pose proof (plain_struct_wire1 (Some set_name) rset_fields zero_rset (rset_tr s)) as W.
  destruct (wire1 (rset_tr s)) as [wn wa wk|b|k b] eqn:Ew; try discriminate Ew.
  destruct c, u; cbn -[rset_un rset_tr]; unfold rset_un, rset_un_into; rewrite W by auto 30 with c19wire; reflexivity.
Qed.

Lemma hresult_un_tr v : rset_dom (hr_set v) -> hresult_un (hresult_tr v) = Ok v.
Proof. destruct v as [c u s]. intro H. pose proof (rset_un_tr s H) as E. destruct c, u; cbn -[rset_un rset_tr]; rewrite E; reflexivity. Qed.

Definition hresult_els := fin_name :: rsm_els.
Definition hresult_ats := [ln (str "complete"); ln (str "stable"); ln (str "index")].

(* max-age is written in whole seconds (FormatFloat of Duration.Seconds with no
   decimals: rounded to the nearest second) and read back as an integer [n] of
   seconds; [n] is what strconv makes of the oracle's text *)
Definition bob_norm (n : Z) (v : bob) : bob :=
  if bb_nocache v then mkbob (bb_cid v) 0 true (bb_type v) (bb_data v)
  else if (0 <? bb_maxage v)%Z then mkbob (bb_cid v) (wrap64 (n * 1000000000)) (Z.eqb n 0) (bb_type v) (bb_data v)
  else mkbob (bb_cid v) 0 false (bb_type v) (bb_data v).

Definition bob_dom (o : oracles) (n : Z) (v : bob) : Prop :=
  b64_roundtrip o (bb_data v) /\
  (bb_nocache v = false -> (0 < bb_maxage v)%Z -> copy_int (o_dursec o (bb_maxage v)) = Ok n).

Lemma b64_back o data : b64_roundtrip o data ->
  (if is_nil (direct_text (if is_nil data then [] else [Text (b64enc data)])) then Ok []
   else o_b64dec o (direct_text (if is_nil data then [] else [Text (b64enc data)]))) = Ok data.
Proof.
  intros [->|Hb]; [reflexivity|]. destruct data as [|d0 dr]; [reflexivity|]. cbn [is_nil direct_text]. rewrite app_nil_r.
  destruct (b64enc (d0 :: dr)) eqn:Ee; [discriminate (b64enc_nil _ Ee)|exact Hb].
Qed.

(* the extensions are outside the tree model (raw inner XML): the decoded
   value is compared up to them; see the known finding on decoding them from a
   token stream *)
Definition channel_norm (v : channel) : channel :=
  mkchannel (ch_autojoin v) (ch_name v) (ch_nick v) (ch_password v) false [].

Definition channel_els := [conference_name; ln (str "nick"); ln (str "password"); ln (str "extensions")].
Definition channel_ats := [ln (str "autojoin"); ln (str "name")].
