(* C19/ProofsLib.v — generic lemmas for the per-type proofs: totality of the
   struct interpreter, decomposition of [names_within], what the interpreter
   makes of a written element piece by piece ([takes]), and the invariance of
   the struct interpreter under the encoder/decoder passage [wire]. *)
From Coq Require Import Lia.
From XV Require Import lib.Bytes lib.ListAux lib.Xml lib.Schema C19.Form C19.Types C19.Spec.

Lemma safe_ok {A} (a : A) : safe (Ok a).
Proof. exact I. Qed.

Lemma safe_err {A} : safe (@Err A).
Proof. exact I. Qed.

Lemma bind_safe {A B} (r : res A) (f : A -> res B) :
  safe r -> (forall a, safe (f a)) -> safe (bind r f).
Proof. destruct r; cbn; auto. Qed.

Lemma rmap_safe {A B} (f : A -> B) (r : res A) : safe r -> safe (rmap f r).
Proof. intro H. unfold rmap. apply bind_safe; [exact H|]. intro; exact I. Qed.

Lemma copy_uint_safe s : safe (copy_uint s).
Proof. unfold copy_uint. destruct s; [exact I|]. destruct (parse_uint _); exact I. Qed.

Lemma copy_int_safe s : safe (copy_int s).
Proof. unfold copy_int. destruct s; [exact I|]. destruct (parse_int _); exact I. Qed.

Lemma copy_bool_safe s : safe (copy_bool s).
Proof. unfold copy_bool. destruct s; [exact I|]. destruct (parse_bool _); exact I. Qed.

Definition field_safe {A} (f : Schema.field A) : Prop := forall t a, safe (f_set f t a).

Lemma set_attr_safe {A} (fs : list (Schema.field A)) x a : Forall field_safe fs -> safe (set_attr fs x a).
Proof.
  intro Hfs. revert a. induction Hfs as [|f r Hf Hr IH]; intro a; cbn [set_attr]; [exact I|].
  destruct (f_kind f); try apply IH.
  destruct (name_match _ _ _); [|apply IH].
  apply bind_safe; [apply Hf|]. intro; apply IH.
Qed.

Lemma set_attrs_safe {A} (fs : list (Schema.field A)) xs a : Forall field_safe fs -> safe (set_attrs fs xs a).
Proof.
  intro Hfs. revert a. induction xs as [|x r IH]; intro a; cbn [set_attrs]; [exact I|].
  apply bind_safe; [apply set_attr_safe; exact Hfs|]. intro; apply IH.
Qed.

Lemma find_elem_Forall {A} (Q : Schema.field A -> Prop) fs n f : Forall Q fs -> find_elem fs n = Some f -> Q f.
Proof.
  intro H. induction H as [|g r Hg Hr IH]; cbn [find_elem]; [discriminate|].
  destruct (f_kind g); try exact IH.
  destruct (name_match _ _ _); [|exact IH]. intro E; injection E as <-; exact Hg.
Qed.

Lemma find_kind_Forall {A} (Q : Schema.field A -> Prop) fs k f : Forall Q fs -> find_kind k fs = Some f -> Q f.
Proof.
  intro H. induction H as [|g r Hg Hr IH]; cbn [find_kind]; [discriminate|].
  destruct (f_kind g), k; try exact IH; intro E; injection E as <-; exact Hg.
Qed.

(* the one field an element child named [n] goes to: the first element field whose tag it meets, else the ",any" field *)
Definition child_hit {A} (fs : list (Schema.field A)) (n : name) : option (Schema.field A) :=
  match find_elem fs n with Some f => Some f | None => find_kind KAny fs end.

Lemma set_child_hit {A} (fs : list (Schema.field A)) n x k a :
  set_child fs (Elem n x k) a = match child_hit fs n with Some f => f_set f (Elem n x k) a | None => Ok a end.
Proof. unfold child_hit. cbn [set_child]. destruct (find_elem fs n); reflexivity. Qed.

Lemma child_hit_Forall {A} (Q : Schema.field A -> Prop) fs n f : Forall Q fs -> child_hit fs n = Some f -> Q f.
Proof.
  intro H. unfold child_hit. destruct (find_elem fs n) as [g|] eqn:E; [|apply find_kind_Forall; exact H].
  intro E'; injection E' as <-. exact (find_elem_Forall Q fs n g H E).
Qed.

Lemma set_child_safe {A} (fs : list (Schema.field A)) c a : Forall field_safe fs -> safe (set_child fs c a).
Proof.
  intro Hfs. destruct c as [n x k|b|k b]; try exact I. rewrite set_child_hit.
  destruct (child_hit fs n) as [f|] eqn:E; [apply (child_hit_Forall _ fs n f Hfs E)|exact I].
Qed.

Lemma set_children_safe {A} (fs : list (Schema.field A)) kids a : Forall field_safe fs -> safe (set_children fs kids a).
Proof.
  intro Hfs. revert a. induction kids as [|c r IH]; intro a; cbn [set_children]; [exact I|].
  apply bind_safe; [apply set_child_safe; exact Hfs|]. intro; apply IH.
Qed.

Lemma set_chardata_safe {A} (fs : list (Schema.field A)) kids a : Forall field_safe fs -> safe (set_chardata fs kids a).
Proof.
  intro Hfs. unfold set_chardata.
  destruct (find_kind KChar fs) as [f|] eqn:E; [apply (find_kind_Forall _ _ _ _ Hfs E)|exact I].
Qed.

Lemma unmarshal_struct_safe {A} (fs : list (Schema.field A)) xn init t :
  Forall field_safe fs -> safe (unmarshal_struct xn fs init t).
Proof.
  intro Hfs. destruct t as [n x k|b|k b]; cbn [unmarshal_struct]; try exact I.
  destruct (check_xmlname xn n); [|exact I].
  apply bind_safe; [apply set_attrs_safe; exact Hfs|]. intro a.
  apply bind_safe; [apply set_children_safe; exact Hfs|]. intro a'. apply set_chardata_safe; exact Hfs.
Qed.

Lemma f_str_safe {A} k ns l (put : bytes -> A -> A) : field_safe (f_str k ns l put).
Proof. intros t a. exact I. Qed.

Lemma f_conv_safe {A B} k ns l (conv : bytes -> res B) (put : B -> A -> A) :
  (forall s, safe (conv s)) -> field_safe (f_conv k ns l conv put).
Proof. intros H t a. cbn. apply bind_safe; [apply H|]. intro; exact I. Qed.

Lemma f_sub_safe {A B} k ns l (d : tree -> res B) (put : B -> A -> A) :
  (forall t, safe (d t)) -> field_safe (f_sub k ns l d put).
Proof. intros H t a. cbn. apply bind_safe; [apply H|]. intro; exact I. Qed.

Lemma f_into_safe {A B} k ns l (get : A -> B) (d : B -> tree -> res B) (put : B -> A -> A) :
  (forall b t, safe (d b t)) -> field_safe (f_into k ns l get d put).
Proof. intros H t a. cbn. apply bind_safe; [apply H|]. intro; exact I. Qed.

Lemma mkfield_safe {A} k ns l (set_ : tree -> A -> res A) :
  (forall t a, safe (set_ t a)) -> field_safe (mkfield k ns l set_).
Proof. intros H t a. apply H. Qed.

Lemma jid_attr_safe o s cur : or_safe o -> safe (jid_attr o s cur).
Proof. intro H. unfold jid_attr. destruct (is_nil s); [exact I|apply (os_jid o H)]. Qed.

Lemma f_jid_safe {A} o l (get : A -> bytes) (put : bytes -> A -> A) : or_safe o -> field_safe (f_jid o l get put).
Proof. intros H t a. cbn. apply bind_safe; [apply jid_attr_safe; exact H|]. intro; exact I. Qed.

Lemma if_safe {A} (b : bool) (x y : res A) : safe x -> safe y -> safe (if b then x else y).
Proof. destruct b; auto. Qed.

(* why a decoder built from a schema and oracle calls cannot panic; used as [auto 20 with c19safe]: one
   level per field of a schema and per nested schema or bind; the deepest goal (upload.Slot, three schemas
   deep) needs 15 *)
Create HintDb c19safe.
#[export] Hint Resolve bind_safe rmap_safe if_safe copy_uint_safe copy_int_safe copy_bool_safe unmarshal_struct_safe
  f_str_safe f_conv_safe f_sub_safe f_into_safe mkfield_safe jid_attr_safe f_jid_safe
  os_jid os_tparse os_b64 os_url Forall_nil Forall_cons : c19safe.
#[export] Hint Extern 1 (safe _) => exact I : c19safe.
(* a schema given by name is unfolded to its list of fields *)
#[export] Hint Extern 3 (Forall _ ?l) => let l' := eval hnf in l in progress change l with l' : c19safe.
#[export] Hint Extern 2 (field_safe (f_uint _ _ _)) => unfold f_uint : c19safe.
#[export] Hint Extern 2 (field_safe (f_uint_ptr _ _ _)) => unfold f_uint_ptr : c19safe.

Lemma forallb_flat_map {A B} (p : B -> bool) (f : A -> list B) l :
  forallb p (flat_map f l) = forallb (fun x => forallb p (f x)) l.
Proof. induction l as [|x r IH]; cbn; [reflexivity|]. rewrite forallb_app, IH. reflexivity. Qed.

Lemma forallb_and {A} (p q : A -> bool) l :
  forallb p l && forallb q l = forallb (fun x => p x && q x) l.
Proof.
  induction l as [|x r IH]; cbn; [reflexivity|]. rewrite <- IH.
  destruct (p x), (q x), (forallb p r), (forallb q r); reflexivity.
Qed.

Lemma forallb_ext' {A} (p q : A -> bool) l : (forall x, p x = q x) -> forallb p l = forallb q l.
Proof. intro H. apply forallb_ext_in. intros x _. apply H. Qed.

Lemma names_within_elem els ats n a kids :
  names_within els ats (Elem n a kids) =
  mem n els && forallb (fun x => mem (aname x) ats) a && forallb (names_within els ats) kids.
Proof.
  unfold names_within at 1. cbn [elem_names attr_names forallb].
  rewrite forallb_app, !forallb_flat_map, forallb_map.
  unfold names_within. rewrite <- forallb_and. unfold mem.
  destruct (existsb (name_eqb n) els), (forallb _ a), (forallb _ kids), (forallb _ kids); reflexivity.
Qed.

Lemma names_within_text els ats b : names_within els ats (Text b) = true.
Proof. reflexivity. Qed.

Lemma names_within_leaf els ats l v : names_within els ats (leaf l v) = mem (ln l) els.
Proof. unfold leaf. rewrite names_within_elem. cbn. rewrite !andb_true_r. reflexivity. Qed.

Lemma names_within_mono els ats els' ats' t :
  forallb (fun n => mem n els') els = true -> forallb (fun n => mem n ats') ats = true ->
  names_within els ats t = true -> names_within els' ats' t = true.
Proof.
  assert (M : forall l l', forallb (fun n => mem n l') l = true -> forall n, mem n l = true -> mem n l' = true).
  { intros l l' H n Hn. apply existsb_exists in Hn. destruct Hn as [m [Hin E]]. apply name_eqb_eq in E. subst m.
    exact (proj1 (forallb_forall _ _) H n Hin). }
  intros He Ha H. unfold names_within in *. apply andb_true_iff in H. destruct H as [H1 H2].
  apply andb_true_iff. split; apply forallb_forall; intros n Hn.
  - exact (M els els' He n (proj1 (forallb_forall _ _) H1 n Hn)).
  - exact (M ats ats' Ha n (proj1 (forallb_forall _ _) H2 n Hn)).
Qed.

Lemma Forall_forallb {X} (p : X -> bool) l : Forall (fun x => p x = true) l -> forallb p l = true.
Proof. intro H. apply forallb_forall, Forall_forall. exact H. Qed.

Lemma names_elem els ats n a kids :
  mem n els = true -> Forall (fun x => mem (aname x) ats = true) a -> Forall (fun c => names_within els ats c = true) kids ->
  names_within els ats (Elem n a kids) = true.
Proof. intros H1 H2 H3. rewrite names_within_elem, H1, !Forall_forallb by assumption. reflexivity. Qed.

Lemma Forall_app_intro {X} (P : X -> Prop) a b : Forall P a -> Forall P b -> Forall P (a ++ b).
Proof. intros H1 H2. apply Forall_app. exact (conj H1 H2). Qed.

Lemma Forall_map_intro {X Y} (P : Y -> Prop) (h : X -> Y) xs : (forall x, P (h x)) -> Forall P (map h xs).
Proof. intro H. apply Forall_map, Forall_forall. intros x _. apply H. Qed.

Lemma Forall_ite {X} (P : X -> Prop) (b : bool) x y : Forall P x -> Forall P y -> Forall P (if b then x else y).
Proof. destruct b; auto. Qed.

(* used after [wf]: the tree written is split along [++], [::], [if] and [map]; the literal names are looked up by evaluation *)
Create HintDb c19names.
#[export] Hint Resolve Forall_forallb names_elem Forall_nil Forall_cons Forall_app_intro Forall_ite Forall_map_intro names_within_text : c19names.
#[export] Hint Extern 2 (Forall _ _) => progress unfold opt_attr, opt_leaf : c19names.
#[export] Hint Extern 1 (mem _ _ = true) => reflexivity : c19names.

Lemma forest_parses ts : parse_forest (S (fsize ts)) (tokens_of_forest ts) = Some (ts, []).
Proof.
  pose proof (parse_forest_tokens (S (fsize ts)) ts [] (or_introl eq_refl) (Nat.lt_succ_diag_r _)) as H.
  rewrite app_nil_r in H. exact H.
Qed.

Lemma forest_wellformed_intro els ats ts :
  forallb (names_within els ats) ts = true ->
  forallb name_ok els = true -> forallb name_ok ats = true ->
  forest_wellformed els ats ts.
Proof.
  intros H1 H2 H3. repeat split; auto.
  - apply balanced_forest.
  - apply forest_parses.
Qed.

(* a codec that writes one tree: well-formedness is left as [names_within] of that tree *)
Ltac wf := intros o v ts E; cbn in E; inversion E; subst; clear E; apply forest_wellformed_intro; try reflexivity.

Lemma unmarshal_struct_elem {A} xn (fs : list (Schema.field A)) init n attrs kids :
  unmarshal_struct xn fs init (Elem n attrs kids) =
  if check_xmlname xn n then
    bind (set_attrs fs attrs init) (fun a => bind (set_children fs kids a) (set_chardata fs kids))
  else Err.
Proof. reflexivity. Qed.

Section Takes.
  Context {A : Type}.
  Implicit Types (fs : list (Schema.field A)) (f : Schema.field A) (a : A).

  (* [step] accepts [x] when the destination holds [a], and leaves [a']; used of one field assignment
     ([f_set f]), of one attribute or child offered to a schema ([set_attr fs], [set_child fs]), of a list
     of them ([set_attrs fs], [set_children fs]) and of a struct decoded into its destination *)
  Definition takes {X} (step : X -> A -> res A) (x : X) a a' : Prop := step x a = Ok a'.

  Lemma takes_ite {X} (step : X -> A -> res A) (b : bool) x y a a1 a2 :
    takes step x a a1 -> takes step y a a2 -> takes step (if b then x else y) a (if b then a1 else a2).
  Proof. destruct b; auto. Qed.

  Lemma attrs_nil fs a : takes (set_attrs fs) [] a a.
  Proof. reflexivity. Qed.

  Lemma attrs_cons fs x r a a1 a2 :
    takes (set_attr fs) x a a1 -> takes (set_attrs fs) r a1 a2 -> takes (set_attrs fs) (x :: r) a a2.
  Proof. unfold takes. intros H1 H2. cbn [set_attrs]. rewrite H1. exact H2. Qed.

  Lemma attrs_app fs x1 x2 a a1 a2 :
    takes (set_attrs fs) x1 a a1 -> takes (set_attrs fs) x2 a1 a2 -> takes (set_attrs fs) (x1 ++ x2) a a2.
  Proof. unfold takes. intros H1 H2. rewrite set_attrs_app, H1. exact H2. Qed.

  Lemma kids_nil fs a : takes (set_children fs) [] a a.
  Proof. reflexivity. Qed.

  Lemma kids_cons fs c r a a1 a2 :
    takes (set_child fs) c a a1 -> takes (set_children fs) r a1 a2 -> takes (set_children fs) (c :: r) a a2.
  Proof. unfold takes. intros H1 H2. cbn [set_children]. rewrite H1. exact H2. Qed.

  Lemma kids_app fs k1 k2 a a1 a2 :
    takes (set_children fs) k1 a a1 -> takes (set_children fs) k2 a1 a2 -> takes (set_children fs) (k1 ++ k2) a a2.
  Proof. unfold takes. intros H1 H2. rewrite set_children_app, H1. exact H2. Qed.

  (* a text that is written only when it is not empty may be taken as written when the empty text
     changes nothing: no case split on every optional text *)
  Lemma attrs_opt fs (v : bytes) xs a a' :
    takes (set_attrs fs) xs a a' -> (v = [] -> a' = a) -> takes (set_attrs fs) (if is_nil v then [] else xs) a a'.
  Proof. destruct v; [intros _ H; rewrite H; reflexivity|auto]. Qed.

  Lemma kids_opt fs (v : bytes) ks a a' :
    takes (set_children fs) ks a a' -> (v = [] -> a' = a) -> takes (set_children fs) (if is_nil v then [] else ks) a a'.
  Proof. destruct v; [intros _ H; rewrite H; reflexivity|auto]. Qed.

  (* likewise a number that is written only when it is positive, where 0 changes nothing *)
  Lemma kids_pos fs (n : N) ks a a' :
    takes (set_children fs) ks a a' -> (n = 0%N -> a' = a) -> takes (set_children fs) (if (0 <? n)%N then ks else []) a a'.
  Proof. destruct (N.ltb_spec 0 n) as [_|H]; [auto|]. intros _ E. rewrite E by lia. reflexivity. Qed.

  (* children built by [map h xs], each added to a list the destination holds: [g l] is the destination with the list [l] *)
  Lemma kids_map {X} fs (h : X -> tree) (put : X -> A -> A) (g : list X -> A) xs l :
    (forall x, In x xs -> forall a, takes (set_child fs) (h x) a (put x a)) -> (forall l x, put x (g l) = g (l ++ [x])) ->
    takes (set_children fs) (map h xs) (g l) (g (l ++ xs)).
  Proof.
    intros Hs Hg. revert l. unfold takes. induction xs as [|x r IH]; intro l; cbn [map set_children].
    - rewrite app_nil_r. reflexivity.
    - rewrite (Hs x (or_introl eq_refl)). cbn [bind]. rewrite Hg, IH by (intros y Hy; apply Hs; right; exact Hy).
      rewrite <- app_assoc. reflexivity.
  Qed.

  (* an attribute is assigned through every attribute field whose tag it meets *)
  Definition attr_hits fs (n : name) : list (Schema.field A) :=
    filter (fun f => match f_kind f with KAttr => name_match (f_ns f) (f_local f) n | _ => false end) fs.

  Lemma set_attr_hits fs x a :
    set_attr fs x a = fold_right (fun f k a => bind (f_set f (Text (aval x)) a) k) Ok (attr_hits fs (aname x)) a.
  Proof.
    revert a. induction fs as [|f r IH]; intro a; cbn [set_attr attr_hits filter]; [reflexivity|].
    destruct (f_kind f); try apply IH. destruct (name_match _ _ _); [|apply IH].
    cbn [fold_right]. destruct (f_set f _ a); cbn [bind]; auto.
  Qed.

  (* which field gets a piece is a closed question: the premises on [fs] are decided by evaluation *)
  Lemma attr_takes fs n v f a a' : attr_hits fs n = [f] -> takes (f_set f) (Text v) a a' -> takes (set_attr fs) (mkattr n v) a a'.
  Proof. unfold takes. intros Hf Hs. rewrite set_attr_hits. cbn [aname aval]. rewrite Hf. cbn [fold_right]. rewrite Hs. reflexivity. Qed.

  Lemma child_takes fs n x k f a a' :
    child_hit fs n = Some f -> takes (f_set f) (Elem n x k) a a' -> takes (set_child fs) (Elem n x k) a a'.
  Proof. unfold takes. intros Hf Hs. rewrite set_child_hit, Hf. exact Hs. Qed.

  Lemma child_skipped fs n x k a : child_hit fs n = None -> takes (set_child fs) (Elem n x k) a a.
  Proof. unfold takes. intro H. rewrite set_child_hit, H. reflexivity. Qed.

  Lemma text_takes fs b a : takes (set_child fs) (Text b) a a.
  Proof. reflexivity. Qed.

  Lemma chardata_none fs kids a : find_kind KChar fs = None -> takes (set_chardata fs) kids a a.
  Proof. unfold takes, set_chardata. intros ->. reflexivity. Qed.

  Lemma chardata_takes fs kids f v a a' :
    find_kind KChar fs = Some f -> direct_text kids = v -> takes (f_set f) (Text v) a a' -> takes (set_chardata fs) kids a a'.
  Proof. unfold takes, set_chardata. intros -> <- Hs. exact Hs. Qed.

  Theorem struct_takes xn fs n xs kids a a1 a2 a3 :
    check_xmlname xn n = true -> takes (set_attrs fs) xs a a1 -> takes (set_children fs) kids a1 a2 ->
    takes (set_chardata fs) kids a2 a3 ->
    takes (fun t a => unmarshal_struct xn fs a t) (Elem n xs kids) a a3.
  Proof. unfold takes. intros Hn Ha Hk Hc. cbn [unmarshal_struct]. rewrite Hn, Ha. cbn [bind]. rewrite Hk. exact Hc. Qed.

  Lemma unmarshal_struct_takes xn fs init t a' v :
    takes (fun t a => unmarshal_struct xn fs a t) t init a' -> a' = v -> unmarshal_struct xn fs init t = Ok v.
  Proof. intros H <-. exact H. Qed.
End Takes.

(* what a field of each kind assigns; [v] is the text it is given, and the value left is asked for
   as a premise so that it can be handed on evaluated *)
Lemma f_str_takes {A} k ns l (put : bytes -> A -> A) t v a a' :
  payload_text t = v -> a' = put v a -> takes (f_set (f_str k ns l put)) t a a'.
Proof. intros <- ->. reflexivity. Qed.

Lemma f_conv_takes {A B} k ns l (conv : bytes -> res B) (put : B -> A -> A) t v b a a' :
  payload_text t = v -> conv v = Ok b -> a' = put b a -> takes (f_set (f_conv k ns l conv put)) t a a'.
Proof. unfold takes. intros <- H ->. cbn. rewrite H. reflexivity. Qed.

Lemma f_sub_takes {A B} k ns l (d : tree -> res B) (put : B -> A -> A) t b a a' :
  d t = Ok b -> a' = put b a -> takes (f_set (f_sub k ns l d put)) t a a'.
Proof. unfold takes. intros H ->. cbn. rewrite H. reflexivity. Qed.

Lemma f_into_takes {A B} k ns l (get : A -> B) (d : B -> tree -> res B) (put : B -> A -> A) t b a a' :
  takes (fun t b => d b t) t (get a) b -> a' = put b a -> takes (f_set (f_into k ns l get d put)) t a a'.
Proof. unfold takes. intros H ->. cbn. rewrite H. reflexivity. Qed.

Lemma payload_leaf l v : payload_text (leaf l v) = v.
Proof. unfold leaf. cbn. apply app_nil_r. Qed.

Lemma direct_text_one b : direct_text [Text b] = b.
Proof. cbn. apply app_nil_r. Qed.

(* used as [reads]: the attributes and children an encoder wrote are split along [++], [::] and [if];
   each piece finds its field by evaluation and its effect by the lemma of the field's kind. What is
   left is an equation between values of the destination type, the interpreter gone from it *)
Create HintDb c19reads.
#[export] Hint Resolve attrs_nil kids_nil attrs_cons kids_cons text_takes struct_takes copy_bool_fmt copy_uint_dec : c19reads.
#[export] Hint Extern 1 (payload_text _ = _) => first [apply payload_leaf | reflexivity] : c19reads.
#[export] Hint Extern 1 (direct_text _ = _) => first [apply direct_text_one | reflexivity] : c19reads.
#[export] Hint Resolve attrs_opt kids_opt kids_pos | 1 : c19reads.
#[export] Hint Resolve attrs_app kids_app | 2 : c19reads.
#[export] Hint Resolve takes_ite | 3 : c19reads.
#[export] Hint Extern 2 (takes _ _ _ _) => progress unfold opt_attr, opt_leaf : c19reads.
#[export] Hint Resolve f_str_takes f_conv_takes f_sub_takes f_into_takes : c19reads.
#[export] Hint Extern 1 (takes (set_attr _) _ _ _) => eapply attr_takes; [reflexivity|] : c19reads.
#[export] Hint Extern 1 (takes (set_child _) _ _ _) =>
  first [eapply child_takes; [reflexivity|] | apply child_skipped; reflexivity] : c19reads.
#[export] Hint Extern 1 (takes (set_chardata _) _ _ _) =>
  first [apply chardata_none; reflexivity | eapply chardata_takes; [reflexivity|..]] : c19reads.
#[export] Hint Extern 3 (unmarshal_struct _ _ _ _ = Ok _) => eapply unmarshal_struct_takes; [|reflexivity] : c19reads.
(* the value a piece leaves, evaluated *)
#[export] Hint Extern 1 (?x = _) => is_evar x; cbn; reflexivity : c19reads.
(* the empty text, or 0, changes nothing: the premise of [attrs_opt], [kids_opt], [kids_pos]; only for
   an [E] of that form, since the hint is tried on every equation that nothing cheaper closes *)
#[export] Hint Extern 8 (_ = _) =>
  match goal with E : _ = ?z |- _ => first [constr_eq z (@nil byte) | constr_eq z 0%N]; cbn in E |- *; rewrite ?E; reflexivity end : c19reads.
(* texts that are what they are, the equations of [kids_map]; never the interpreter evaluated *)
#[export] Hint Extern 9 (_ = _) =>
  lazymatch goal with |- unmarshal_struct _ _ _ _ = _ => fail | |- _ => reflexivity end : c19reads.

(* the goal is the decoding of a written element, or contains it *)
Ltac reads :=
  first [eapply unmarshal_struct_takes; [solve [eauto 60 with c19reads nocore]|]
        |erewrite unmarshal_struct_takes; [|solve [eauto 60 with c19reads nocore]|reflexivity]].

Lemma wire_explicit ns n a k : is_nil (nspace n) = false -> wire ns (Elem n a k) = [wire1 (Elem n a k)].
Proof. intro H. unfold wire1. cbn [wire]. rewrite H. reflexivity. Qed.

Lemma merge_text_cons_elem n a k l : merge_text (Elem n a k :: l) = Elem n a k :: merge_text l.
Proof. reflexivity. Qed.

Lemma merge_text_app_elems l1 l2 : forallb is_elem l1 = true -> merge_text (l1 ++ l2) = l1 ++ merge_text l2.
Proof.
  induction l1 as [|x r IH]; [reflexivity|]. cbn [forallb]. intro H.
  apply andb_true_iff in H. destruct H as [Hx Hr]. destruct x; try discriminate.
  cbn [app merge_text]. rewrite (IH Hr). reflexivity.
Qed.

(* the leaf written for a text: its wire form *)
Definition wleaf (ns l v : bytes) : tree := Elem (mkname ns l) [] (if is_nil v then [] else [Text v]).

Lemma payload_wleaf ns l v : payload_text (wleaf ns l v) = v.
Proof. unfold wleaf. destruct v; cbn; [reflexivity|]. rewrite app_nil_r. reflexivity. Qed.

Lemma direct_text_merge l : direct_text (merge_text l) = direct_text l.
Proof.
  induction l as [|[n a k|b|k b] r IH]; cbn [merge_text direct_text]; try exact IH; [reflexivity|].
  rewrite <- IH. destruct (merge_text r) as [|[n a k|b'|k b'] r']; cbn [direct_text]; try reflexivity.
  symmetry; apply app_assoc.
Qed.

Lemma direct_text_wire ns kids : direct_text (flat_map (wire ns) kids) = direct_text kids.
Proof.
  induction kids as [|[n a k|b|k b] r IH]; cbn [flat_map wire app direct_text]; try exact IH; [reflexivity|].
  destruct b; cbn [is_nil app direct_text]; rewrite IH; reflexivity.
Qed.

(* [g] reads the same from [c] and from what the passage makes of it, whatever name space [c] inherits *)
Definition same_on {B} (g : tree -> B) (c : tree) : Prop := forall ns c', wire ns c = [c'] -> g c' = g c.

Lemma wire1_cases t : wire [] t = [wire1 t] \/ wire1 t = t.
Proof. destruct t as [n a k|[|]|k b]; [left|right|left|left]; reflexivity. Qed.

(* in particular from the document written for [c] itself *)
Lemma same_on_wire1 {B} (g : tree -> B) c : same_on g c -> g (wire1 c) = g c.
Proof. intro H. destruct (wire1_cases c) as [E| ->]; [exact (H [] _ E)|reflexivity]. Qed.

Lemma same_on_nonelem {B} (g : tree -> B) c : is_elem c = false -> same_on g c.
Proof. intros H ns c' E. destruct c as [n a k|[|b0 b]|k b]; try discriminate; injection E as <-; reflexivity. Qed.

(* an element that carries its own name space has one image *)
Lemma same_on_own {B} (g : tree -> B) n a k :
  is_nil (nspace n) = false -> g (wire1 (Elem n a k)) = g (Elem n a k) -> same_on g (Elem n a k).
Proof. intros Hn H ns c' E. rewrite wire_explicit in E by exact Hn. injection E as <-. exact H. Qed.

Lemma bind_same {B C} (g : tree -> res B) (k : B -> res C) c : same_on g c -> same_on (fun t => bind (g t) k) c.
Proof. intros H ns c' E. cbv beta. rewrite (H ns c' E). reflexivity. Qed.

Lemma payload_text_wire c : same_on payload_text c.
Proof.
  destruct c as [n a k|b|k b]; [|apply same_on_nonelem; reflexivity..].
  intros ns c' E; injection E as <-. cbn [payload_text]. rewrite direct_text_merge. apply direct_text_wire.
Qed.

Definition wire_name (ns : bytes) (n : name) : name := mkname (if is_nil (nspace n) then ns else nspace n) (nlocal n).

Lemma wire_elem_name ns n a kids :
  wire ns (Elem n a kids) =
  [Elem (wire_name ns n) ((if is_nil (nspace n) then [] else [xmlns_attr (nspace n)]) ++ wire_attrs a)
        (merge_text (flat_map (wire (nspace (wire_name ns n))) kids))].
Proof. reflexivity. Qed.

Lemma wire_name_nil n : wire_name [] n = n.
Proof. destruct n as [[|] l]; reflexivity. Qed.

Section Stable.
  Context {A : Type}.
  Implicit Types (fs : list (Schema.field A)) (f : Schema.field A).

  Definition attr_free fs (l : bytes) : bool :=
    forallb (fun f => match f_kind f with KAttr => negb (bytes_eqb (f_local f) l) | _ => true end) fs.

  Lemma set_attr_free fs x a : attr_free fs (nlocal (aname x)) = true -> set_attr fs x a = Ok a.
  Proof.
    induction fs as [|f r IH]; cbn [attr_free forallb set_attr]; [reflexivity|].
    intro H. apply andb_true_iff in H. destruct H as [Hf Hr]. unfold name_match.
    destruct (f_kind f); try exact (IH Hr).
    destruct (bytes_eqb (f_local f) (nlocal (aname x))); [discriminate|exact (IH Hr)].
  Qed.

  Lemma set_attrs_wire fs xs a : attr_free fs [] = true -> set_attrs fs (wire_attrs xs) a = set_attrs fs xs a.
  Proof.
    intro H. revert a. induction xs as [|x r IH]; intro a; cbn [wire_attrs filter set_attrs]; [reflexivity|].
    destruct (nlocal (aname x)) eqn:E; cbn [is_nil negb].
    - rewrite set_attr_free by (rewrite E; exact H). apply IH.
    - cbn [set_attrs]. destruct (set_attr fs x a); cbn [bind]; try reflexivity. apply IH.
  Qed.

  Lemma set_children_merge fs l a : set_children fs (merge_text l) a = set_children fs l a.
  Proof.
    revert a. induction l as [|[n x k|b|k b] r IH]; intro a; cbn [merge_text set_children]; [reflexivity| | |].
    - destruct (set_child fs (Elem n x k) a); cbn [bind]; try reflexivity. apply IH.
    - cbn [set_child bind]. rewrite <- IH. destruct (merge_text r) as [|[]]; reflexivity.
    - cbn [set_child bind]. apply IH.
  Qed.

  (* no element field is tagged with a name space: the name space of a child does not matter *)
  Definition unqualified fs : bool :=
    forallb (fun f => match f_kind f with KElem => is_nil (f_ns f) | _ => true end) fs.

  Definition tag_free fs (l : bytes) : bool :=
    forallb (fun f => match f_kind f with KElem => is_nil (f_ns f) || negb (bytes_eqb (f_local f) l) | _ => true end) fs.

  Lemma unqualified_tag_free fs l : unqualified fs = true -> tag_free fs l = true.
  Proof.
    induction fs as [|f r IH]; cbn [unqualified tag_free forallb]; [reflexivity|].
    intro H. apply andb_true_iff in H. destruct H as [Hf Hr]. fold (tag_free r l). rewrite (IH Hr), andb_true_r.
    destruct (f_kind f); try reflexivity. rewrite Hf. reflexivity.
  Qed.

  Lemma find_elem_tag_free fs ns n : tag_free fs (nlocal n) = true -> find_elem fs (mkname ns (nlocal n)) = find_elem fs n.
  Proof.
    induction fs as [|f r IH]; cbn [tag_free forallb find_elem]; [reflexivity|].
    intro H. apply andb_true_iff in H. destruct H as [Hf Hr]. specialize (IH Hr).
    destruct (f_kind f); try exact IH. unfold name_match. cbn [nlocal].
    destruct (is_nil (f_ns f)); cbn [orb] in *; [rewrite IH; reflexivity|].
    destruct (bytes_eqb (f_local f) (nlocal n)); [discriminate|exact IH].
  Qed.

  Lemma find_elem_wire fs ns n :
    (tag_free fs (nlocal n) || negb (is_nil (nspace n))) = true -> find_elem fs (wire_name ns n) = find_elem fs n.
  Proof.
    unfold wire_name. destruct n as [[|s0 s] l]; cbn [nspace nlocal is_nil negb]; [|reflexivity].
    rewrite orb_false_r. apply (find_elem_tag_free fs ns (mkname [] l)).
  Qed.

  Definition kid_same fs (c : tree) : Prop := forall a, same_on (fun t => set_child fs t a) c.

  (* an element child meets the same field before and after (a tag that names a name space is met by a
     child that carries its own), and that field reads the same from it; nothing is asked of the other fields *)
  Lemma child_same_all fs n x k :
    (tag_free fs (nlocal n) || negb (is_nil (nspace n))) = true ->
    (forall f, child_hit fs n = Some f -> forall a, same_on (fun t => f_set f t a) (Elem n x k)) ->
    kid_same fs (Elem n x k).
  Proof.
    intros Hn Hs a ns c' E. pose proof (fun f H => Hs f H a ns c' E) as H. cbv beta in H |- *.
    rewrite wire_elem_name in E. injection E as <-.
    rewrite !set_child_hit. unfold child_hit at 1. rewrite (find_elem_wire fs ns n Hn). fold (child_hit fs n).
    destruct (child_hit fs n) as [f|]; [exact (H f eq_refl)|reflexivity].
  Qed.

  (* the form the hints use: the field is found by unifying with what [child_hit] evaluates to, which is
     cheaper than opening the equation *)
  Lemma child_same fs n x k f :
    child_hit fs n = Some f -> (tag_free fs (nlocal n) || negb (is_nil (nspace n))) = true ->
    (forall a, same_on (fun t => f_set f t a) (Elem n x k)) -> kid_same fs (Elem n x k).
  Proof. intros Hf Hn Hs. apply child_same_all; [exact Hn|]. rewrite Hf. intros f' E; injection E as <-. exact Hs. Qed.

  Lemma text_same fs b : kid_same fs (Text b).
  Proof. intro a. apply same_on_nonelem. reflexivity. Qed.

  Lemma set_children_wire fs ns kids a : Forall (kid_same fs) kids ->
    set_children fs (flat_map (wire ns) kids) a = set_children fs kids a.
  Proof.
    intro Hk. revert a. induction Hk as [|c r Hc Hr IH]; intro a; [reflexivity|].
    cbn [flat_map]. rewrite set_children_app. destruct c as [n x k|b|k b].
    - rewrite wire_elem_name. cbn [set_children].
      rewrite (Hc a ns _ (wire_elem_name ns n x k) : set_child fs _ a = _).
      destruct (set_child fs (Elem n x k) a); cbn [bind]; try reflexivity. apply IH.
    - cbn [wire]. destruct (is_nil b); cbn [set_children set_child bind]; apply IH.
    - cbn [wire set_children set_child bind]. apply IH.
  Qed.

  (* an XMLName tag that names a name space is met by an element that carries its own *)
  Definition xmlname_ok (xn : option name) (n : name) : bool :=
    match xn with Some x => is_nil (nspace x) || negb (is_nil (nspace n)) | None => true end.

  Lemma check_xmlname_wire xn ns n : xmlname_ok xn n = true -> @check_xmlname xn (wire_name ns n) = @check_xmlname xn n.
  Proof.
    unfold wire_name. destruct n as [[|s0 s] l]; cbn [nspace nlocal is_nil]; [|reflexivity].
    destruct xn as [x|]; [|reflexivity]. cbn [xmlname_ok check_xmlname nspace nlocal is_nil negb].
    rewrite orb_false_r. intros ->. reflexivity.
  Qed.

  (* What a schema reads is the same before and after the passage. The passage gives every
     element the name space it inherits, declares name spaces as xmlns attributes, drops empty
     character data and joins adjacent character data. A schema does not see any of this,
     provided: no attribute field is tagged "" or "xmlns"; and it reads the same from every child
     of the element and from the child's image (true of all children when no tag names a name space
     and the fields take text or a decoder that is itself blind to the passage: [plain_kid]; to be
     shown along the children written otherwise: [child_same]). *)
  Theorem unmarshal_struct_wire xn fs init ns n x kids t' :
    attr_free fs [] = true -> attr_free fs (str "xmlns") = true ->
    xmlname_ok xn n = true \/ ns = [] -> Forall (kid_same fs) kids ->
    wire ns (Elem n x kids) = [t'] ->
    unmarshal_struct xn fs init t' = unmarshal_struct xn fs init (Elem n x kids).
  Proof.
    intros Ha Hx Hn Hk E. rewrite wire_elem_name in E. injection E as <-.
    cbn [unmarshal_struct].
    assert (En : @check_xmlname xn (wire_name ns n) = @check_xmlname xn n)
      by (destruct Hn as [Hn| ->]; [apply check_xmlname_wire; exact Hn|rewrite wire_name_nil; reflexivity]).
    rewrite En. destruct (check_xmlname xn n); [|reflexivity].
    rewrite set_attrs_app.
    assert (Hd : set_attrs fs (if is_nil (nspace n) then [] else [xmlns_attr (nspace n)]) init = Ok init).
    { destruct (is_nil (nspace n)); [reflexivity|]. cbn [set_attrs]. rewrite set_attr_free by exact Hx. reflexivity. }
    rewrite Hd. cbn [bind]. rewrite (set_attrs_wire fs x init Ha).
    destruct (set_attrs fs x init) as [a| | |]; cbn [bind]; try reflexivity.
    rewrite set_children_merge, (set_children_wire fs _ kids a Hk).
    unfold set_chardata. rewrite direct_text_merge, direct_text_wire. reflexivity.
  Qed.

  (* as a piece of a larger element *)
  Corollary unmarshal_struct_same xn fs n x kids :
    attr_free fs [] = true -> attr_free fs (str "xmlns") = true -> xmlname_ok xn n = true -> Forall (kid_same fs) kids ->
    forall a, same_on (fun t => unmarshal_struct xn fs a t) (Elem n x kids).
  Proof. intros Ha Hx Hn Hk a ns c' E. exact (unmarshal_struct_wire xn fs a ns n x kids c' Ha Hx (or_introl Hn) Hk E). Qed.

  Definition field_stable f : Prop := forall c a, same_on (fun t => f_set f t a) c.

  Lemma plain_kid fs c : unqualified fs = true -> Forall field_stable fs -> kid_same fs c.
  Proof.
    intros Hu Hf. destruct c as [n x k|b|m b]; [|intro a; apply same_on_nonelem; reflexivity..].
    apply child_same_all; [rewrite (unqualified_tag_free fs _ Hu); reflexivity|].
    intros f E. exact (child_hit_Forall _ fs n f Hf E (Elem n x k)).
  Qed.
End Stable.

Definition plain_schema {A} (fs : list (Schema.field A)) : Prop :=
  attr_free fs [] = true /\ attr_free fs (str "xmlns") = true /\ unqualified fs = true /\ Forall field_stable fs.

Definition stable_dec {B} (d : tree -> res B) : Prop := forall c, same_on d c.

Theorem plain_struct_wire {A} xn (fs : list (Schema.field A)) init ns c c' :
  plain_schema fs -> xmlname_ok xn (tree_name c) = true \/ ns = [] ->
  wire ns c = [c'] -> unmarshal_struct xn fs init c' = unmarshal_struct xn fs init c.
Proof.
  intros [Ha [Hx [Hu Ht]]] Hn E. destruct c as [n a k|b|k b]; [|revert E; apply (same_on_nonelem (unmarshal_struct xn fs init)); reflexivity..].
  apply (unmarshal_struct_wire xn fs init ns n a k c' Ha Hx Hn); [|exact E].
  apply Forall_forall. intros c0 _. exact (plain_kid fs c0 Hu Ht).
Qed.

Corollary plain_struct_wire1 {A} xn (fs : list (Schema.field A)) init t :
  plain_schema fs -> unmarshal_struct xn fs init (wire1 t) = unmarshal_struct xn fs init t.
Proof.
  intro H. destruct (wire1_cases t) as [E| ->]; [|reflexivity].
  exact (plain_struct_wire xn fs init [] t _ H (or_intror eq_refl) E).
Qed.

Lemma plain_struct_stable {A} xn (fs : list (Schema.field A)) init :
  plain_schema fs -> match xn with Some x => is_nil (nspace x) | None => true end = true ->
  stable_dec (unmarshal_struct xn fs init).
Proof.
  intros H Hn c ns c'. apply plain_struct_wire; [exact H|].
  left. destruct xn; [cbn; rewrite Hn|]; reflexivity.
Qed.

Lemma stable_same {B} (d : tree -> res B) c : stable_dec d -> same_on d c.
Proof. intro H. exact (H c). Qed.

(* what is left to show of a child, by the kind of the field it meets: nothing for a field that takes
   the text of its child (the passage keeps the text), for a field with a decoder that the decoder reads
   the same from this child *)
Lemma f_str_same {A} k ns l (put : bytes -> A -> A) c a : same_on (fun t => f_set (f_str k ns l put) t a) c.
Proof. intros ns' c' E. cbn. rewrite (payload_text_wire c ns' c' E). reflexivity. Qed.

Lemma f_conv_same {A B} k ns l (conv : bytes -> res B) (put : B -> A -> A) c a :
  same_on (fun t => f_set (f_conv k ns l conv put) t a) c.
Proof. intros ns' c' E. cbn. rewrite (payload_text_wire c ns' c' E). reflexivity. Qed.

Lemma f_jid_same {A} o l (get : A -> bytes) (put : bytes -> A -> A) c a : same_on (fun t => f_set (f_jid o l get put) t a) c.
Proof. intros ns' c' E. cbn. rewrite (payload_text_wire c ns' c' E). reflexivity. Qed.

Lemma f_sub_same {A B} k ns l (d : tree -> res B) (put : B -> A -> A) c a :
  same_on d c -> same_on (fun t => f_set (f_sub k ns l d put) t a) c.
Proof. intro H. exact (bind_same d _ c H). Qed.

Lemma f_into_same {A B} k ns l (get : A -> B) (d : B -> tree -> res B) (put : B -> A -> A) c a :
  (forall b, same_on (d b) c) -> same_on (fun t => f_set (f_into k ns l get d put) t a) c.
Proof. intro H. exact (bind_same (d (get a)) _ c (H _)). Qed.

(* used as [auto 30 with c19wire] on [plain_schema fs] (the fields are walked; the depth is spent as in
   [c19safe], upload.Slot needs all 30) and as [eauto 30 with c19wire nocore] on [Forall (kid_same fs) kids]
   (the children written are walked along [++], [::], [map], [if]; each finds its field by evaluation) *)
Create HintDb c19wire.
#[export] Hint Resolve f_str_same f_conv_same f_jid_same f_sub_same f_into_same bind_same
  plain_struct_stable stable_same Forall_nil Forall_cons Forall_app_intro Forall_map_intro Forall_ite text_same : c19wire.
#[export] Hint Unfold plain_schema field_stable : c19wire.
#[export] Hint Extern 2 (same_on (fun t => f_set (mkfield _ _ _ _) t _) _) => cbn [f_set] : c19wire.
#[export] Hint Extern 1 (kid_same _ _) => eapply child_same; [reflexivity|reflexivity|intro] : c19wire.
#[export] Hint Extern 3 (same_on _ _) => apply unmarshal_struct_same; [reflexivity..|] : c19wire.
#[export] Hint Extern 3 (Forall _ ?l) => let l' := eval hnf in l in progress change l with l' : c19wire.
#[export] Hint Extern 2 (Forall _ _) => progress unfold opt_leaf : c19wire.
#[export] Hint Extern 2 (same_on (fun t => f_set (f_uint _ _ _) t _) _) => unfold f_uint : c19wire.
#[export] Hint Extern 2 (same_on (fun t => f_set (f_uint_ptr _ _ _) t _) _) => unfold f_uint_ptr : c19wire.

Lemma both_paths {A} (d : tree -> res A) t r : d (wire1 t) = d t -> d t = r -> d t = r /\ d (wire1 t) = r.
Proof. intros -> ->. split; reflexivity. Qed.

Lemma roundtrip1 {T} (tr : oracles -> T -> tree) (un : oracles -> tree -> res T) eqb (dom : oracles -> T -> Prop) norm :
  (forall o v, dom o v -> un o (wire1 (tr o v)) = un o (tr o v)) ->
  (forall o v, dom o v -> un o (tr o v) = Ok (norm v)) ->
  roundtrip (mkcodec (fun o v => one (tr o v)) un eqb) dom norm.
Proof.
  intros Hw Ht o v Hd. exists (tr o v). split; [reflexivity|].
  exact (both_paths (un o) _ _ (Hw o v Hd) (Ht o v Hd)).
Qed.

Lemma plain_codec_roundtrip {T} (tr : oracles -> T -> tree) xn (fs : oracles -> list (Schema.field T)) init eqb
      (dom : oracles -> T -> Prop) norm :
  (forall o, plain_schema (fs o)) ->
  (forall o v, dom o v -> unmarshal_struct xn (fs o) init (tr o v) = Ok (norm v)) ->
  roundtrip (mkcodec (fun o v => one (tr o v)) (fun o => unmarshal_struct xn (fs o) init) eqb) dom norm.
Proof. intros Hp Ht. apply roundtrip1; [|exact Ht]. intros o v _. apply plain_struct_wire1, Hp. Qed.

Lemma struct_codec_dec_total {T} enc xn (fs : oracles -> list (Schema.field T)) init eqb :
  (forall o, or_safe o -> Forall field_safe (fs o)) ->
  dec_total (mkcodec enc (fun o => unmarshal_struct xn (fs o) init) eqb).
Proof. intros H o t Ho. apply unmarshal_struct_safe. exact (H o Ho). Qed.

Lemma forallb_below (p : N -> bool) n :
  forallb p (map N.of_nat (seq 0 n)) = true -> forall a, (a < N.of_nat n)%N -> p a = true.
Proof.
  intros H a Ha. apply (proj1 (forallb_forall _ _) H). apply in_map_iff. exists (N.to_nat a).
  split; [apply N2Nat.id|]. apply in_seq. lia.
Qed.

Lemma is_nil_app {A} (a b : list A) : is_nil (a ++ b) = is_nil a && is_nil b.
Proof. destruct a; reflexivity. Qed.

Lemma bytes_eqb_refl a : bytes_eqb a a = true.
Proof. exact (Bytes.bytes_eqb_refl a). Qed.

Lemma name_eqb_refl n : name_eqb n n = true.
Proof. exact (Xml.name_eqb_refl n). Qed.
