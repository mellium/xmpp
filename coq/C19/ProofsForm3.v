(* C19/ProofsForm3.v — data forms: the names TokenReader writes are literal
   names; the values it writes respect XEP-0004 (no empty value, one value at
   most in a single-valued field, booleans and JIDs well-formed, no line break
   in a title, an instruction line or a text-multi line); the text-multi
   splitting in closed form. *)
From Coq Require Import Lia.
From XV Require Import lib.Bytes lib.ListAux lib.Xml lib.Schema C19.Form C19.Spec C19.ProofsLib
  C19.ProofsForm1 C19.ProofsForm2.

Definition form_els := [x_name; ln (str "title"); ln (str "instructions"); ln (str "field"); ln (str "desc");
                        ln (str "required"); ln (str "value"); ln (str "option")].
Definition form_ats := [ln (str "type"); ln (str "var"); ln (str "label")].

Lemma gfield_names p : names_within form_els form_ats (gfield [] false p) = true.
Proof. destruct p as [f vs]. eauto 40 with c19names nocore. Qed.

Lemma gform_names d ps : names_within form_els form_ats (gform [] false [at_ (str "type") (dtyp d)] d ps) = true.
Proof. pose proof gfield_names. eauto 40 with c19names nocore. Qed.

Section WithJid.
  Variable jp : bytes -> res bytes.

  Lemma form_wellformed d t : token_reader jp d = Ok t -> forest_wellformed form_els form_ats [t].
  Proof.
    rewrite token_reader_vals. destruct (form_vals jp d) as [ps| | |]; cbn [rmap bind]; try discriminate.
    intro E. injection E as <-.
    apply forest_wellformed_intro; try reflexivity. cbn [forallb]. rewrite gform_names. reflexivity.
  Qed.

  Definition value_ok (t v : bytes) : Prop :=
    v <> [] /\
    (beq t t_boolean = true -> bool_text v = true) /\
    (beq t t_jid || beq t t_jid_multi = true -> exists j, jp v = Ok j).

  Lemma emit_values_spec t vs : forall first out, emit_values jp t first vs = Ok out ->
    Forall (value_ok t) out /\ (is_multi t = false -> length out <= (if first then 0 else 1)).
  Proof.
    induction vs as [|v r IH]; intros first out; cbn [emit_values].
    - intro E; inversion E. split; [constructor|]. intros; destruct first; cbn; lia.
    - destruct (is_nil v) eqn:Ev; [apply IH|].
      destruct (first && negb (is_multi t)) eqn:Ef.
      { intro E; inversion E. split; [constructor|]. intros; destruct first; cbn; lia. }
      destruct (beq t t_boolean && negb (bool_text v)) eqn:Eb; [apply IH|].
      (* v is written, before what the rest of the loop writes *)
      assert (Hw : (beq t t_jid || beq t t_jid_multi = true -> exists j, jp v = Ok j) ->
                   rmap (cons v) (emit_values jp t true r) = Ok out ->
                   Forall (value_ok t) out /\ (is_multi t = false -> length out <= (if first then 0 else 1))).
      { intro Hj. destruct (emit_values jp t true r) as [out'| | |] eqn:Er; cbn [rmap bind]; try discriminate.
        intro E; inversion E; subst. destruct (IH true out' Er) as [H1 H2]. split.
        - constructor; [|exact H1]. split; [intro Hv; subst v; discriminate Ev|]. split; [|exact Hj].
          intro Hb. rewrite Hb in Eb. destruct (bool_text v); [reflexivity|discriminate Eb].
        - intro Hm. specialize (H2 Hm). destruct first; [rewrite Hm in Ef; discriminate Ef|]. cbn. lia. }
      destruct (beq t t_jid || beq t t_jid_multi).
      + destruct (jp v) as [j| | |] eqn:Ejp; try discriminate; [|apply IH]. apply Hw. intros _. exists j; reflexivity.
      + apply Hw. discriminate.
  Qed.

  (* every field element written carries values that XEP-0004 allows *)
  Lemma field_vals_spec fs ps : field_vals jp fs = Ok ps ->
    Forall (fun p => Forall (value_ok (typ (fst p))) (snd p) /\
                     (is_multi (typ (fst p)) = false -> length (snd p) <= 1)) ps.
  Proof.
    revert ps. induction fs as [|f r IH]; intros ps; cbn [field_vals].
    - intro E; inversion E. constructor.
    - destruct (emit_values jp (typ f) false (value f)) as [vs| | |] eqn:Ev; cbn [bind]; try discriminate.
      destruct (field_vals jp r) as [ps'| | |]; cbn [rmap bind]; try discriminate.
      intro E; inversion E; subst. constructor; [|apply IH; reflexivity].
      cbn [fst snd]. exact (emit_values_spec (typ f) (value f) false vs Ev).
  Qed.
End WithJid.

Definition trim_last (l : list bytes) : list bytes :=
  if is_nil (last l []) then removelast l else l.

Lemma runs_acc cur s : runs cur s = match runs [] s with h :: t => (cur ++ h) :: t | [] => [cur] end.
Proof.
  revert cur. induction s as [|c r IH]; intro cur; cbn [runs]; [rewrite app_nil_r; reflexivity|].
  destruct (is_nl c).
  - rewrite app_nil_r. reflexivity.
  - rewrite (IH (cur ++ [c])), (IH ([] ++ [c])). destruct (runs [] r); cbn; rewrite <- ?app_assoc; reflexivity.
Qed.

Lemma runs_index s :
  runs [] s = match index_nl s with
              | Some i => firstn i s :: runs [] (skipn (S i) s)
              | None => [s]
              end.
Proof.
  induction s as [|c r IH]; [reflexivity|]. cbn [runs index_nl].
  destruct (is_nl c) eqn:E; [reflexivity|].
  rewrite runs_acc, IH. destruct (index_nl r) as [i|]; reflexivity.
Qed.

Lemma runs_nonempty cur s : runs cur s <> [].
Proof. revert cur; induction s as [|c r IH]; intro cur; cbn [runs]; [discriminate|]. destruct (is_nl c); [discriminate|apply IH]. Qed.

Lemma trim_last_cons h t : t <> [] -> trim_last (h :: t) = h :: trim_last t.
Proof.
  intro Ht. unfold trim_last. destruct t as [|x r]; [contradiction|].
  change (last (h :: x :: r) []) with (last (x :: r) []). destruct (is_nil (last (x :: r) [])); reflexivity.
Qed.

(* the lines are the segments between line breaks, except an empty last one *)
Lemma split_lines_spec : forall fuel typed lines, length typed < fuel ->
  split_lines fuel typed lines = Ok (lines ++ trim_last (runs [] typed)).
Proof.
  induction fuel as [|fuel IH]; intros typed lines Hf; [lia|].
  cbn [split_lines]. rewrite (runs_index typed). destruct (index_nl typed) as [i|] eqn:Ei.
  - destruct (index_nl_lt typed i Ei) as [Hi _]. unfold slice_to, slice_from.
    assert (E1 : (i <=? length typed) = true) by (apply Nat.leb_le; lia).
    assert (E2 : (S i <=? length typed) = true) by (apply Nat.leb_le; lia).
    rewrite E1, E2. cbn [bind]. rewrite IH by (rewrite skipn_length; lia).
    rewrite trim_last_cons by apply runs_nonempty. rewrite <- app_assoc. reflexivity.
  - unfold trim_last. cbn [last]. destruct typed; cbn [is_nil removelast]; [rewrite app_nil_r|]; reflexivity.
Qed.

Lemma trim_last_Forall (P : bytes -> Prop) l : Forall P l -> Forall P (trim_last l).
Proof.
  intro H. unfold trim_last. destruct (is_nil (last l [])); [|exact H].
  induction H as [|x r Hx Hr IH]; [constructor|]. destruct r; [constructor|]. constructor; [exact Hx|exact IH].
Qed.

(* so the loop ends within the fuel the model gives it, for every value, and no
   line it yields has a line break in it *)
Lemma split_lines_ok fuel typed lines : length typed < fuel ->
  Forall (fun l => no_nl l = true) lines ->
  exists ls, split_lines fuel typed lines = Ok ls /\ Forall (fun l => no_nl l = true) ls.
Proof.
  intros Hf Hl. rewrite split_lines_spec by exact Hf. eexists. split; [reflexivity|].
  apply Forall_app. split; [exact Hl|]. apply trim_last_Forall, runs_no_nl. reflexivity.
Qed.
