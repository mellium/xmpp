(* C19/ProofsH.v — history.Query: the round trip. The query builds a data form
   (form.New, Set...), submits it, and wraps the submission with the RSM request
   and the flip-page flag; UnmarshalXML decodes the form and reads the filters
   back through Get. The proof goes through the closed form of the submitted
   form ([hq_sub]) and of its normal form ([hq_n]), one field at a time
   (ProofsForm5.v), and through the query element as written ([hq_el]), which
   the decoder reads alike from the tokens and from the document
   ([hquery_un_wire]). *)
From Coq Require Import Lia.
From XV Require Import lib.Bytes lib.Xml lib.Schema C19.Form C19.Types C19.Spec C19.ProofsLib C19.ProofsA
  C19.ProofsForm2 C19.ProofsForm3 C19.ProofsForm5.

Definition nonnil (v : bytes) : bool := negb (is_nil v).

(* the seven fields of the form.New call in history.Query (hquery_form of Types.v) *)
Definition hq_F : list field :=
  [fld t_hidden (str "FORM_TYPE") [ns_mam]; fld t_jid (str "with") []; fld t_text (str "start") [];
   fld t_text (str "end") []; fld t_text (str "after-id") []; fld t_text (str "before-id") [];
   fld t_list_multi (str "ids") []].

(* how a filter time comes back: the zero time is not sent, any other in UTC *)
Definition tnorm (t : tm) : tm := if tm_is_zero t then zero_tm else utc t.

(* a filter time that is set is within RFC 3339 and formats to some text *)
Definition hq_time_ok (o : oracles) (t : tm) : Prop :=
  tm_is_zero t = false -> time_utc_roundtrip o t /\ o_tfmt o L_utc_nano t <> [].

Definition hq_dom (o : oracles) (q : hquery) : Prop :=
  jid_canon o (hq_with q) /\ hq_time_ok o (hq_start q) /\ hq_time_ok o (hq_end q) /\ fits64 (hq_limit q).

(* times come back in UTC (the zero time as the zero time); empty ids are not sent *)
Definition hq_norm (q : hquery) : hquery :=
  mkhquery (hq_id q) (hq_with q) (tnorm (hq_start q)) (tnorm (hq_end q)) (hq_before q) (hq_after q)
           (filter nonnil (hq_ids q)) (hq_limit q) (hq_last q) (hq_page q) (hq_reverse q).

Lemma if_nonnil (l : bytes) : (if nonnil l then l else []) = l.
Proof. destruct l; reflexivity. Qed.

Lemma time_text_nonnil o t : hq_time_ok o t -> negb (tm_is_zero t) = true -> nonnil (o_tfmt o L_utc_nano t) = true.
Proof.
  intros H C. apply negb_true_iff in C. destruct (H C) as [_ Hn].
  destruct (o_tfmt o L_utc_nano t); [contradiction|reflexivity].
Qed.

Lemma time_back o t : hq_time_ok o t ->
  (if negb (tm_is_zero t) then o_tparse o P_rfc3339 (if negb (tm_is_zero t) then o_tfmt o L_utc_nano t else [])
   else Ok zero_tm) = Ok (tnorm t).
Proof. unfold hq_time_ok, tnorm. destruct (tm_is_zero t); [reflexivity|]. intro H. exact (proj1 (H eq_refl)). Qed.

Definition hq_flip (ns : bytes) (q : hquery) : list tree :=
  if hq_reverse q then [Elem (mkname ns (str "flip-page")) [] []] else [].

Lemma hq_x_child o ns e xattrs d ps rid rfl n : unmarshal (gform ns e xattrs d ps) = Ok n ->
  takes (set_child (hq_fields o)) (gform ns e xattrs d ps) (mkhqraw rid None rfl 0 [] None)
    (mkhqraw rid (Some n) rfl 0 [] None).
Proof.
  intro H. change (bind (unmarshal (gform ns e xattrs d ps)) (fun x => Ok (mkhqraw rid (Some x) rfl 0 [] None)) =
                   Ok (mkhqraw rid (Some n) rfl 0 [] None)).
  rewrite H. reflexivity.
Qed.

Lemma hq_flip_children o ns q i f m a b :
  takes (set_children (hq_fields o)) (hq_flip ns q) (mkhqraw i f false m a b) (mkhqraw i f (hq_reverse q) m a b).
Proof. unfold hq_flip. destruct (hq_reverse q); reflexivity. Qed.

Section Query.
  Variables (o : oracles) (q : hquery).

  Definition hq_sets : list (bool * (bytes * fval)) :=
    [(negb (is_nil (hq_ids q)), (str "ids", VStrs (hq_ids q)));
     (nonnil (hq_before q), (str "before-id", VStr (hq_before q)));
     (nonnil (hq_after q), (str "after-id", VStr (hq_after q)));
     (negb (tm_is_zero (hq_end q)), (str "end", VStr (o_tfmt o L_utc_nano (hq_end q))));
     (negb (tm_is_zero (hq_start q)), (str "start", VStr (o_tfmt o L_utc_nano (hq_start q))));
     (nonnil (hq_with q), (str "with", VJid (hq_with q)))].

  Lemma hquery_form_eq : hquery_form o q = mkdata [] [] ty_form hq_F (Some (sets hq_sets)).
  Proof.
    unfold hquery_form. cbv zeta. change (new_form _) with (mkdata [] [] ty_form hq_F (Some (sets []))).
    erewrite !sets_set by reflexivity. reflexivity.
  Qed.

  Definition hq_sub : data := mkdata [] [] ty_submit hq_F (Some (sets hq_sets)).

  Lemma hquery_submit_eq :
    submit (o_jid o) (Some (hquery_form o q)) = bind (token_reader (o_jid o) hq_sub) (fun t => Ok (t, true)).
  Proof. unfold submit. rewrite hquery_form_eq. reflexivity. Qed.

  (* the normal form of the submission: the filters that are set, with the values written *)
  Definition hq_flds : list (bool * field) :=
    [(true, fld t_hidden (str "FORM_TYPE") [ns_mam]);
     (nonnil (hq_with q), fld t_jid (str "with") [hq_with q]);
     (negb (tm_is_zero (hq_start q)), fld t_text (str "start") [o_tfmt o L_utc_nano (hq_start q)]);
     (negb (tm_is_zero (hq_end q)), fld t_text (str "end") [o_tfmt o L_utc_nano (hq_end q)]);
     (nonnil (hq_after q), fld t_text (str "after-id") [hq_after q]);
     (nonnil (hq_before q), fld t_text (str "before-id") [hq_before q]);
     (negb (is_nil (hq_ids q)), fld t_list_multi (str "ids") (filter nonnil (hq_ids q)))].

  Definition hq_n : data := mkdata [] [] ty_submit (pick hq_flds) (Some []).

  Definition rsm_el : tree :=
    let max := if (0 <? hq_limit q)%N then [gleaf [] false (str "max") (dec (hq_limit q))] else [] in
    Elem set_name []
      (if hq_last q then gleaf [] false (str "before") (hq_page q) :: max
       else max ++ (if is_nil (hq_page q) then [] else [gleaf [] false (str "after") (hq_page q)])).

  Definition hq_el (ps : list (field * list bytes)) : tree :=
    Elem hquery_name [at_ (str "queryid") (hq_id q)]
      ([gform [] false [at_ (str "type") ty_submit] hq_sub ps; rsm_el] ++ hq_flip [] q).

  (* what the encoder writes, as a function of what the form writes *)
  Lemma hquery_tr_vals : c_enc hquery_c o q = rmap (fun ps => [hq_el ps]) (form_vals (o_jid o) hq_sub).
  Proof.
    unfold hquery_c, c_enc, hquery_tr. rewrite hquery_submit_eq, token_reader_vals.
    destruct (form_vals (o_jid o) hq_sub) as [ps| | |]; [|reflexivity..].
    unfold hq_el, rsm_el, hq_flip. destruct (hq_last q); reflexivity.
  Qed.

  (* <flip-page/> inherits its name space and meets a tag without one; the form and the result set carry their own *)
  Lemma hquery_un_wire ps : hquery_un o (wire1 (hq_el ps)) = hquery_un o (hq_el ps).
  Proof. apply same_on_wire1. eauto 30 with c19wire nocore. Qed.

  Hypothesis Hd : hq_dom o q.

  Lemma hq_sub_norm : norm (o_jid o) hq_sub = Ok hq_n.
  Proof.
    destruct Hd as [Hw [Hs [He _]]]. rewrite norm_sub_norm.
    assert (E : sub_norm (o_jid o) hq_sub hq_F = Ok (pick hq_flds)); [|change (fields hq_sub) with hq_F; rewrite E; reflexivity].
    unfold hq_F, hq_flds, hq_sub.
    (* FORM_TYPE is never set and always there: [c] is given. For the others, [get_sets] leaves the condition
       of the Set, which unification takes for [c] *)
    eapply (sub_norm_fld _ _ _ _ _ _ _ _ _ true _ VNil); [reflexivity|rewrite get_sets; reflexivity|reflexivity|].
    eapply sub_norm_fld; [reflexivity|rewrite get_sets; reflexivity|intro C|].
    { apply emit_values_one; [exact C|reflexivity|]. intros _. exists (hq_with q).
      destruct Hw as [Hw|Hw]; [rewrite Hw in C; discriminate C|exact Hw]. }
    eapply sub_norm_fld; [reflexivity|rewrite get_sets; reflexivity|intro C|].
    { apply emit_values_one; [exact (time_text_nonnil o _ Hs C)|reflexivity|discriminate]. }
    eapply sub_norm_fld; [reflexivity|rewrite get_sets; reflexivity|intro C|].
    { apply emit_values_one; [exact (time_text_nonnil o _ He C)|reflexivity|discriminate]. }
    eapply sub_norm_fld; [reflexivity|rewrite get_sets; reflexivity|intro C|].
    { apply emit_values_one; [exact C|reflexivity|discriminate]. }
    eapply sub_norm_fld; [reflexivity|rewrite get_sets; reflexivity|intro C|].
    { apply emit_values_one; [exact C|reflexivity|discriminate]. }
    eapply sub_norm_fld; [reflexivity|rewrite get_sets; reflexivity|intro C|].
    { apply emit_values_multi; reflexivity. }
    reflexivity.
  Qed.

  Lemma rsm_el_child rid rf rfl :
    takes (set_child (hq_fields o)) rsm_el (mkhqraw rid rf rfl 0 [] None)
      (mkhqraw rid rf rfl (hq_limit q)
         (if hq_last q then [] else hq_page q) (if hq_last q then Some (hq_page q) else None)).
  Proof.
    assert (Hl : fits64 (hq_limit q)) by apply Hd.
    eassert (T : takes (set_child (hq_fields o)) rsm_el (mkhqraw rid rf rfl 0 [] None) _)
      by (unfold rsm_el; cbv zeta; eauto 30 with c19reads nocore).
    unfold takes. rewrite T. destruct (hq_last q); reflexivity.
  Qed.

  (* the form writes, and decoding the query element gives the query back: the
     reflection decode leaves the normal form of the submission and the RSM
     request, from which Get reads the filters *)
  Lemma hq_el_un : exists ps, form_vals (o_jid o) hq_sub = Ok ps /\ hquery_un o (hq_el ps) = Ok (hq_norm q).
  Proof.
    pose proof hq_sub_norm as Hn. rewrite norm_vals in Hn.
    destruct (form_vals (o_jid o) hq_sub) as [ps| | |]; try discriminate Hn. exists ps. split; [reflexivity|].
    assert (Ux : unmarshal (gform [] false [at_ (str "type") ty_submit] hq_sub ps) = Ok hq_n)
      by (rewrite unmarshal_gform; [exact Hn|reflexivity]).
    pose proof (fun rid rfl => hq_x_child o _ _ _ _ _ rid rfl _ Ux). pose proof rsm_el_child. pose proof (hq_flip_children o []).
    unfold hquery_un, hq_el. reads.
    (* the filters, each read from its field of the normal form if that is there *)
    cbn [bind hw_form hw_id hw_flip hw_max hw_after hw_before].
    unfold hq_n.
    destruct Hd as [Hw [Hs [He _]]].
    erewrite !get_string_written by (rewrite find_field_pick; reflexivity).
    erewrite (get_written _ _ _ _ _ (str "with")); [|rewrite find_field_pick; reflexivity|intro C].
    2:{ apply field_default_jid. destruct Hw as [Hw|Hw]; [rewrite Hw in C; discriminate C|exact Hw]. }
    erewrite (get_written _ _ _ _ _ (str "ids")); [|rewrite find_field_pick; reflexivity|intros _; reflexivity].
    (* unification has left each condition as [beq k k && c] *)
    rewrite !bytes_eqb_refl. cbn [andb bind].
    rewrite (time_back o _ Hs). cbn [bind]. rewrite (time_back o _ He). cbn [bind].
    rewrite !if_nonnil. unfold hq_norm. f_equal. f_equal.
    - destruct (hq_with q); reflexivity.
    - cbn [fld value]. destruct (hq_ids q) as [|x r]; [reflexivity|]. cbn [is_nil negb andb].
      destruct (filter nonnil (x :: r)); reflexivity.
    - destruct (hq_last q); reflexivity.
    - destruct (hq_last q); reflexivity.
  Qed.
End Query.

Definition hquery_els := [hquery_name; ln (str "flip-page")] ++ form_els ++ rsm_els.
Definition hquery_ats := [ln (str "queryid"); ln (str "index")] ++ form_ats.

Lemma hq_el_names o q ps : names_within hquery_els hquery_ats (hq_el o q ps) = true.
Proof.
  pose proof (names_within_mono form_els form_ats hquery_els hquery_ats _ eq_refl eq_refl (gform_names (hq_sub o q) ps)).
  unfold hq_el, rsm_el, hq_flip. cbv zeta. eauto 40 with c19names nocore.
Qed.
