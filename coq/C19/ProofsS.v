(* C19/ProofsS.v — internal/saslerr: the SASL <failure/> payload. Every value of
   Condition (a uint16; only 1..11 are defined) yields one well-formed failure
   element; the defined conditions and any text and language round-trip. *)
From Coq Require Import Lia.
From XV Require Import lib.Bytes lib.Xml lib.Schema C19.Types C19.Spec C19.ProofsLib.

Definition sasl_els : list name :=
  failure_name :: ln (str "text") :: map ln (tl sasl_conditions).
Definition sasl_ats : list name := [mkname xml_ns (str "lang")].

Definition optN_is (a : option N) (c : N) : bool := match a with Some x => N.eqb x c | None => false end.

(* 13 = sasl_count + 1: the conditions 0 .. 12, one beyond the last defined one *)
Lemma sasl_table :
  forallb (fun c => match sasl_name c with
                    | Some n => negb (bytes_eqb (str "text") n) && optN_is (scond_find n (tl sasl_conditions) 1) c &&
                                mem (ln n) sasl_els && negb (is_nil n)
                    | None => true
                    end) (map N.of_nat (seq 0 13)) = true.
Proof. vm_compute. reflexivity. Qed.

Lemma sasl_name_spec c n : sasl_name c = Some n ->
  bytes_eqb (str "text") n = false /\ (forall cur, scond_dec n cur = c) /\ mem (ln n) sasl_els = true /\ n <> [].
Proof.
  intro H. assert (Hc : (c < 13)%N).
  { unfold sasl_name in H. destruct (N.eqb c 0 || (sasl_count <=? c)%N) eqn:E; [discriminate|].
    apply orb_false_iff in E. destruct E as [_ E]. apply N.leb_gt in E. change sasl_count with 12%N in E. lia. }
  pose proof (forallb_below _ 13 sasl_table c Hc) as T.
  cbv beta in T. rewrite H in T. apply andb_true_iff in T. destruct T as [T T4].
  apply andb_true_iff in T. destruct T as [T T3]. apply andb_true_iff in T. destruct T as [T1 T2].
  split; [destruct (bytes_eqb (str "text") n); [discriminate|reflexivity]|].
  split; [|split; [exact T3|intro; subst; discriminate]].
  intro cur. unfold scond_dec. destruct (scond_find n (tl sasl_conditions) 1); [|discriminate].
  apply N.eqb_eq in T2. exact T2.
Qed.

Lemma scond_tr_names c : Forall (fun t => names_within sasl_els sasl_ats t = true) (scond_tr c).
Proof.
  unfold scond_tr. destruct (sasl_name c) as [n|] eqn:En; [|constructor].
  destruct (sasl_name_spec c n En) as [_ [_ [Hm _]]]. auto with c19names.
Qed.

#[export] Hint Resolve scond_tr_names : c19names.

(* the value decoded: an undefined condition is not written and comes back as
   ConditionNone; the language exists only with a text *)
Definition saslerr_norm (v : saslerr) : saslerr :=
  mksaslerr (match sasl_name (se_cond v) with Some _ => se_cond v | None => 0%N end)
            (if is_nil (se_text v) then [] else se_lang v) (se_text v).

Lemma sasl_cond_child n c r : sasl_name c = Some n ->
  takes (set_child saslerr_fields) (Elem (ln n) [] []) r (mksaslraw c (sw_texts r)).
Proof.
  intro H. destruct (sasl_name_spec c n H) as [H1 [H2 _]].
  unfold takes, set_child, saslerr_fields, f_sub, find_elem. cbn [f_kind f_ns f_local].
  unfold name_match. cbn [ln nlocal nspace is_nil orb]. rewrite H1. cbn [andb find_kind f_kind f_set tree_name nlocal sw_cond].
  rewrite H2. reflexivity.
Qed.

Lemma scond_takes c r :
  takes (set_children saslerr_fields) (scond_tr c) r
    (match sasl_name c with Some _ => mksaslraw c (sw_texts r) | None => r end).
Proof.
  unfold scond_tr. destruct (sasl_name c) as [n|] eqn:En; [|apply kids_nil].
  exact (kids_cons _ _ _ _ _ _ (sasl_cond_child n c r En) (kids_nil _ _)).
Qed.

(* the condition is taken from the local name of a child, which the passage keeps *)
Lemma saslerr_fields_plain : plain_schema saslerr_fields.
Proof.
  split; [reflexivity|]. split; [reflexivity|]. split; [reflexivity|]. apply Forall_cons; [|auto 30 with c19wire].
  intros [n x k|b|k b] a; [|apply same_on_nonelem; reflexivity..]. intros ns c' E. injection E as <-. reflexivity.
Qed.

Lemma saslerr_un_tr v : saslerr_un (saslerr_tr v) = Ok (saslerr_norm v).
Proof.
  destruct v as [c lang text]. unfold saslerr_un, saslerr_tr, saslerr_norm; cbn [se_cond se_lang se_text].
  pose proof (scond_takes c) as G.
  (* the text element leaves a trace even when its text is empty: it cannot be taken as written *)
  destruct text; cbn [is_nil]; reads; destruct (sasl_name c); reflexivity.
Qed.
