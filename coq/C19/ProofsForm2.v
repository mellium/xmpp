(* C19/ProofsForm2.v — data forms: what TokenReader writes decodes, from the
   token stream and from the written document alike, to the normal form [norm]
   (title with line breaks as spaces, instruction lines, per field the values
   that are written). *)
From XV Require Import lib.Bytes lib.Xml lib.Schema C19.Form C19.ProofsLib C19.ProofsForm1.

(* the XML of a form in general (the g of the names), for a name space [ns] of the children and
   the two renderings of an empty text ([e] = true: no character data token) *)

Definition gleaf (ns : bytes) (e : bool) (l v : bytes) : tree :=
  Elem (mkname ns l) [] (if e && is_nil v then [] else [Text v]).

Definition goption (ns : bytes) (e : bool) (o : fopt) : tree :=
  Elem (mkname ns (str "option")) [at_ (str "label") (o_label o)] [gleaf ns e (str "value") (o_value o)].

Definition gfield (ns : bytes) (e : bool) (p : field * list bytes) : tree :=
  let f := fst p in
  Elem (mkname ns (str "field")) (field_attrs f)
    ((if is_nil (desc f) then [] else [gleaf ns e (str "desc") (desc f)]) ++
     (if required f then [Elem (mkname ns (str "required")) [] []] else []) ++
     map (gleaf ns e (str "value")) (snd p) ++
     (if is_list (typ f) then map (goption ns e) (options f) else [])).

Definition gform (ns : bytes) (e : bool) (xattrs : list attr) (d : data) (ps : list (field * list bytes)) : tree :=
  Elem x_name xattrs
    ((if is_nil (title d) then [] else [gleaf ns e (str "title") (space_replace (title d))]) ++
     map (gleaf ns e (str "instructions")) (nonempty_runs (instructions d)) ++
     map (gfield ns e) ps).

Lemma gleaf_leaf l v : gleaf [] false l v = leaf l v.
Proof. reflexivity. Qed.

Lemma payload_gleaf ns e l v : payload_text (gleaf ns e l v) = v.
Proof. unfold gleaf. destruct e, v; cbn; rewrite ?app_nil_r; reflexivity. Qed.

#[export] Hint Extern 1 (payload_text _ = _) => apply payload_gleaf : c19reads.

Lemma set_child_gleaf_str {A} (fs : list (Schema.field A)) ns e l v a k ns' l' put :
  find_elem fs (mkname ns l) = Some (f_str k ns' l' put) -> set_child fs (gleaf ns e l v) a = Ok (put v a).
Proof. intro H. unfold set_child, gleaf at 1. rewrite H. cbn [f_set f_str]. rewrite payload_gleaf. reflexivity. Qed.

Lemma field_value_child ns e v a :
  takes (set_child field_fields) (gleaf ns e (str "value") v) a
    (mkfld (typ a) (var a) (label a) (desc a) (value a ++ [v]) (options a) (required a)).
Proof. unfold takes. erewrite set_child_gleaf_str by reflexivity. reflexivity. Qed.

Lemma option_un ns e o : unmarshal_struct None opt_fields (mkopt [] []) (goption ns e o) = Ok o.
Proof. destruct o as [l v]. reads. reflexivity. Qed.

Lemma field_option_child ns e o a :
  takes (set_child field_fields) (goption ns e o) a
    (mkfld (typ a) (var a) (label a) (desc a) (value a) (options a ++ [o]) (required a)).
Proof. pose proof option_un. eauto with c19reads nocore. Qed.

Lemma unmarshal_gfield ns e f vs : unmarshal_field (gfield ns e (f, vs)) = Ok (norm_field f vs).
Proof.
  destruct f as [t v l d x os r].
  unfold unmarshal_field, gfield, field_attrs; cbn [fst snd typ var label desc value options required].
  (* the options come last: written or not, they leave a conditional that is split at the end; what one
     value or option child does is handed to [kids_map]: the walk does not find it while [put] is open *)
  destruct r;
    epose proof (kids_map field_fields _ _ (fun l => mkfld _ _ _ _ l _ _) vs _ (fun v _ => field_value_child ns e v)) as Gv;
    epose proof (kids_map field_fields _ _ (fun l => mkfld _ _ _ _ _ l _) os _ (fun o _ => field_option_child ns e o)) as Go;
    reads; unfold norm_field; cbn; destruct (is_list t), t; reflexivity.
Qed.

Lemma unmarshal_kids_app a b d : unmarshal_kids (a ++ b) d = bind (unmarshal_kids a d) (unmarshal_kids b).
Proof.
  revert d. induction a as [|k r IH]; intro d; cbn [app unmarshal_kids]; [reflexivity|].
  destruct k as [n x ks|t|m t]; [|apply IH|reflexivity].
  destruct (beq (nlocal n) (str "title")); [apply IH|].
  destruct (beq (nlocal n) (str "instructions")); [apply IH|].
  destruct (beq (nlocal n) (str "field")); [|reflexivity].
  destruct (unmarshal_field _); cbn [bind]; auto.
Qed.

Definition with_instr (s : bytes) (d : data) : data := mkdata (title d) s (dtyp d) (fields d) (values d).
Definition with_fields (l : list field) (d : data) : data := mkdata (title d) (instructions d) (dtyp d) l (values d).

Lemma unmarshal_kids_gleaf ns e l v r d :
  unmarshal_kids (gleaf ns e l v :: r) d =
  if beq l (str "title") then unmarshal_kids r (mkdata v (instructions d) (dtyp d) (fields d) (values d))
  else if beq l (str "instructions")
       then unmarshal_kids r (with_instr (if is_nil (instructions d) then v else instructions d ++ nl :: v) d)
  else unmarshal_kids (gleaf ns e l v :: r) d.
Proof.
  unfold gleaf. cbn [unmarshal_kids nlocal]. rewrite (payload_gleaf ns e l v : direct_text _ = v).
  destruct (beq l (str "title")); [reflexivity|]. destruct (beq l (str "instructions")); reflexivity.
Qed.

(* the instruction lines accumulate, joined by line feeds, after what is there *)
Lemma kids_instr ns e ls d : Forall (fun l => l <> []) ls ->
  unmarshal_kids (map (gleaf ns e (str "instructions")) ls) d =
  Ok (with_instr (join_nl (if is_nil (instructions d) then ls else instructions d :: ls)) d).
Proof.
  intro Hl. revert d. induction Hl as [|l r Hx _ IH]; intros [t i ty F m]; cbn [map instructions].
  - destruct i; reflexivity.
  - rewrite unmarshal_kids_gleaf. change (beq (str "instructions") (str "title")) with false.
    change (beq (str "instructions") (str "instructions")) with true. cbv iota.
    rewrite IH. unfold with_instr. cbn [title instructions dtyp fields values]. do 2 f_equal.
    destruct i as [|c a]; cbn [is_nil app].
    + destruct l; [contradiction|reflexivity].
    + destruct r; cbn [join_nl app]; rewrite <- ?app_assoc; reflexivity.
Qed.

Lemma kids_fields ns e ps d :
  unmarshal_kids (map (gfield ns e) ps) d =
  Ok (with_fields (fields d ++ map (fun p => norm_field (fst p) (snd p)) ps) d).
Proof.
  revert d. induction ps as [|[f vs] r IH]; intro d; cbn [map].
  - rewrite app_nil_r. destruct d; reflexivity.
  - change (unmarshal_kids (gfield ns e (f, vs) :: map (gfield ns e) r) d)
      with (bind (unmarshal_field (gfield ns e (f, vs)))
              (fun x => unmarshal_kids (map (gfield ns e) r)
                          (mkdata (title d) (instructions d) (dtyp d) (fields d ++ [x]) (values d)))).
    rewrite unmarshal_gfield. cbn [bind]. rewrite IH. cbn [fields fst snd]. rewrite <- app_assoc. destruct d; reflexivity.
Qed.

Definition norm_of (d : data) (ps : list (field * list bytes)) : data :=
  mkdata (space_replace (title d)) (join_nl (nonempty_runs (instructions d))) (dtyp d)
         (map (fun p => norm_field (fst p) (snd p)) ps) (Some []).

Lemma unmarshal_gform ns e xattrs d ps : attr_local (str "type") xattrs = Some (dtyp d) ->
  unmarshal (gform ns e xattrs d ps) = Ok (norm_of d ps).
Proof.
  intro Ht. unfold unmarshal, unmarshal_into, gform. rewrite Ht. rewrite unmarshal_kids_app.
  replace (unmarshal_kids (if is_nil (title d) then [] else _) _)
    with (Ok (mkdata (space_replace (title d)) [] (dtyp d) [] (Some [])))
    by (destruct (title d) as [|c r]; [reflexivity|]; cbn [is_nil]; rewrite unmarshal_kids_gleaf; reflexivity).
  cbn [bind]. rewrite unmarshal_kids_app.
  rewrite kids_instr
    by (eapply Forall_impl; [|apply (nonempty_runs_spec (instructions d))]; intros a [_ Ha]; exact Ha).
  cbn [bind]. rewrite kids_fields. reflexivity.
Qed.

Lemma field_fields_plain : plain_schema field_fields.
Proof. repeat split; auto 30 with c19wire. Qed.

Lemma unmarshal_kids_merge l d : unmarshal_kids (merge_text l) d = unmarshal_kids l d.
Proof.
  revert d. induction l as [|[n x k|b|m b] r IH]; intro d; cbn [merge_text unmarshal_kids]; try reflexivity.
  - rewrite !IH. destruct (unmarshal_field _); cbn [bind]; try reflexivity. rewrite IH. reflexivity.
  - rewrite <- IH. destruct (merge_text r) as [|[]]; reflexivity.
Qed.

Lemma unmarshal_kids_wire ns kids d : unmarshal_kids (flat_map (wire ns) kids) d = unmarshal_kids kids d.
Proof.
  revert d. induction kids as [|[n x k|b|m b] r IH]; intro d; cbn [flat_map]; [reflexivity| | |reflexivity].
  - rewrite wire_elem_name. cbn [app unmarshal_kids wire_name nlocal]. rewrite direct_text_merge, direct_text_wire, !IH.
    unfold unmarshal_field at 1. rewrite (plain_struct_wire None field_fields _ ns (Elem n x k) _ field_fields_plain (or_introl eq_refl) (wire_elem_name ns n x k)).
    fold (unmarshal_field (Elem n x k)). destruct (unmarshal_field _); cbn [bind]; try reflexivity. rewrite IH. reflexivity.
  - cbn [wire]. destruct (is_nil b); cbn [app unmarshal_kids]; apply IH.
Qed.

Lemma attr_local_wire l a : l <> [] -> attr_local l (wire_attrs a) = attr_local l a.
Proof.
  intro Hl. induction a as [|[[s [|c loc]] v] r IH]; cbn [wire_attrs filter attr_local aname nlocal is_nil negb]; [reflexivity| |].
  - destruct l; [contradiction|exact IH].
  - fold (wire_attrs r). rewrite IH. reflexivity.
Qed.

Lemma unmarshal_into_wire d0 : stable_dec (unmarshal_into d0).
Proof.
  intros [n a k|b|m b]; [|apply same_on_nonelem; reflexivity..]. intros ns t' E; injection E as <-. cbn [unmarshal_into].
  rewrite unmarshal_kids_merge, unmarshal_kids_wire.
  assert (Ea : attr_local (str "type") ((if is_nil (nspace n) then [] else [xmlns_attr (nspace n)]) ++ wire_attrs a) =
               attr_local (str "type") a)
    by (destruct (is_nil (nspace n)); cbn [app attr_local]; apply attr_local_wire; discriminate).
  rewrite Ea. reflexivity.
Qed.

#[export] Hint Resolve unmarshal_into_wire : c19wire.

Lemma unmarshal_wire1 t : unmarshal (wire1 t) = unmarshal t.
Proof. exact (same_on_wire1 _ t (unmarshal_into_wire zero_data t)). Qed.

Section WithJid.
  Variable jp : bytes -> res bytes.

  Fixpoint field_vals (fs : list field) : res (list (field * list bytes)) :=
    match fs with
    | [] => Ok []
    | f :: r => bind (emit_values jp (typ f) false (value f)) (fun vs => rmap (cons (f, vs)) (field_vals r))
    end.

  Lemma field_trees_vals fs : field_trees jp fs = rmap (map (gfield [] false)) (field_vals fs).
  Proof.
    induction fs as [|f r IH]; cbn [field_trees field_vals]; [reflexivity|]. unfold field_tree.
    destruct (emit_values jp (typ f) false (value f)); cbn [bind rmap]; try reflexivity.
    rewrite IH. destruct (field_vals r); reflexivity.
  Qed.

  Lemma norm_fields_vals fs :
    norm_fields jp fs = rmap (map (fun p => norm_field (fst p) (snd p))) (field_vals fs).
  Proof.
    induction fs as [|f r IH]; cbn [norm_fields field_vals]; [reflexivity|].
    destruct (emit_values jp (typ f) false (value f)); cbn [bind rmap]; try reflexivity.
    rewrite IH. destruct (field_vals r); reflexivity.
  Qed.

  (* the fields that are written, each with its values: what is written and
     the normal form are both functions of these *)
  Definition form_vals (d : data) : res (list (field * list bytes)) :=
    bind (emitted_fields jp d (fields d)) field_vals.

  Lemma token_reader_vals d :
    token_reader jp d = rmap (gform [] false [at_ (str "type") (dtyp d)] d) (form_vals d).
  Proof.
    unfold token_reader, form_vals. destruct (emitted_fields jp d (fields d)) as [fs| | |]; cbn [bind rmap]; try reflexivity.
    rewrite field_trees_vals. destruct (field_vals fs); reflexivity.
  Qed.

  Lemma norm_vals d : norm jp d = rmap (norm_of d) (form_vals d).
  Proof.
    unfold norm, form_vals. destruct (emitted_fields jp d (fields d)) as [fs| | |]; cbn [bind rmap]; try reflexivity.
    rewrite norm_fields_vals. destruct (field_vals fs); reflexivity.
  Qed.

  Lemma form_roundtrip d t : token_reader jp d = Ok t ->
    exists n, norm jp d = Ok n /\ unmarshal t = Ok n /\ unmarshal (wire1 t) = Ok n.
  Proof.
    rewrite token_reader_vals, norm_vals. destruct (form_vals d) as [ps| | |]; cbn [rmap bind]; try discriminate.
    intro E. injection E as <-. exists (norm_of d ps). split; [reflexivity|].
    apply both_paths; [apply unmarshal_wire1|apply unmarshal_gform; reflexivity].
  Qed.
End WithJid.
