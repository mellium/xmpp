(* C19/ProofsForm4.v — the form API always returns: Set a result, and Get,
   TokenReader and Submit a value ("always yields", the predicate of
   C19_form_always_yields, stronger than "does not panic"). *)
From XV Require Import lib.Bytes lib.Xml lib.Schema C19.Form C19.Types C19.Spec C19.ProofsForm3.

Definition yields {A} (r : res A) : Prop := exists a, r = Ok a.

Lemma ok_yields {A} (r : res A) : is_ok r = true -> yields r.
Proof. destruct r as [a| | |]; [intros _; exists a; reflexivity|discriminate..]. Qed.

Lemma ok_safe {A} (r : res A) : is_ok r = true -> safe r.
Proof. destruct r; [intros _; exact I|discriminate..]. Qed.

Lemma bind_is_ok {A B} (r : res A) (f : A -> res B) :
  is_ok r = true -> (forall a, is_ok (f a) = true) -> is_ok (bind r f) = true.
Proof. destruct r; [intros _ H; apply H|discriminate..]. Qed.

Lemma rmap_is_ok {A B} (f : A -> B) (r : res A) : is_ok r = true -> is_ok (rmap f r) = true.
Proof. intro H. apply bind_is_ok; [exact H|reflexivity]. Qed.

Lemma if_is_ok {A} (c : bool) (r1 r2 : res A) : is_ok r1 = true -> is_ok r2 = true -> is_ok (if c then r1 else r2) = true.
Proof. destruct c; auto. Qed.

(* Set never panics, on a zero value form either (after the repair) *)
Lemma set_ok d id v : exists r, set d id v = Ok r.
Proof.
  unfold set, set_gen.
  destruct (beq _ t_fixed && _); [eexists; reflexivity|].
  destruct (negb _); [eexists; reflexivity|].
  destruct (values d); cbn; eexists; reflexivity.
Qed.

(* With a jid.Parse that returns, Get, TokenReader and Submit have one outcome
   only, a value: an address that jid.Parse rejects is skipped, and the
   text-multi loop has the fuel it needs. That they do not panic (on a nil
   receiver either, after the repair) is a consequence. *)
Section WithJid.
  Variable jp : bytes -> res bytes.
  Hypothesis Hjp : forall s, safe (jp s).

  Lemma first_jid_ok vs : is_ok (first_jid jp vs) = true.
  Proof.
    induction vs as [|v r IH]; cbn; [reflexivity|]. pose proof (Hjp v) as H.
    destruct (jp v); try contradiction; [reflexivity|exact IH].
  Qed.

  Lemma all_jids_ok vs : is_ok (all_jids jp vs) = true.
  Proof.
    induction vs as [|v r IH]; cbn; [reflexivity|]. pose proof (Hjp v) as H.
    destruct (jp v); try contradiction; [apply rmap_is_ok|]; exact IH.
  Qed.

  (* from here on every function is a bind, an rmap or a conditional of results
     that are values *)
  Local Hint Resolve bind_is_ok rmap_is_ok if_is_ok first_jid_ok all_jids_ok : ok.

  Lemma field_default_ok f : is_ok (field_default jp f) = true.
  Proof. unfold field_default. destruct (value f); auto 12 with ok. Qed.

  Lemma get_ok d id : is_ok (get jp d id) = true.
  Proof.
    unfold get, get_gen. destruct d as [d|]; [|reflexivity].
    destruct (match values d with Some m => assoc id m | None => None end); [reflexivity|].
    destruct (find_field id (fields d)); [apply field_default_ok|reflexivity].
  Qed.

  Lemma emit_values_ok t first vs : is_ok (emit_values jp t first vs) = true.
  Proof.
    revert first. induction vs as [|v r IH]; intro first; cbn [emit_values]; [reflexivity|].
    pose proof (Hjp v) as H. destruct (jp v); try contradiction; auto 8 with ok.
  Qed.

  Local Hint Resolve get_ok emit_values_ok : ok.

  Lemma submit_field_ok d f : is_ok (submit_field jp d f) = true.
  Proof.
    unfold submit_field. apply if_is_ok; [reflexivity|].
    apply bind_is_ok; [apply get_ok|]. intros [vv isset]. apply if_is_ok; [reflexivity|].
    destruct vv; try reflexivity. apply if_is_ok; [|reflexivity].
    rewrite split_lines_spec by apply Nat.lt_succ_diag_r. reflexivity.
  Qed.

  Local Hint Resolve submit_field_ok : ok.

  Lemma emitted_fields_ok d fs : is_ok (emitted_fields jp d fs) = true.
  Proof. induction fs as [|f r IH]; cbn [emitted_fields]; auto 6 with ok. Qed.

  Lemma field_trees_ok fs : is_ok (field_trees jp fs) = true.
  Proof. induction fs as [|f r IH]; cbn [field_trees]; unfold field_tree; auto 6 with ok. Qed.

  Local Hint Resolve emitted_fields_ok field_trees_ok : ok.

  Lemma token_reader_ok d : is_ok (token_reader jp d) = true.
  Proof. unfold token_reader. auto 6 with ok. Qed.

  Lemma all_required_set_ok d fs : is_ok (all_required_set jp d fs) = true.
  Proof. induction fs as [|f r IH]; cbn [all_required_set]; auto 6 with ok. Qed.

  Local Hint Resolve token_reader_ok all_required_set_ok : ok.

  Lemma submit_ok d : is_ok (submit jp d) = true.
  Proof. unfold submit. auto 6 with ok. Qed.

  Lemma get_safe d id : safe (get jp d id).
  Proof. apply ok_safe, get_ok. Qed.

  Lemma token_reader_safe d : safe (token_reader jp d).
  Proof. apply ok_safe, token_reader_ok. Qed.

  Lemma submit_safe d : safe (submit jp d).
  Proof. apply ok_safe, submit_ok. Qed.
End WithJid.
