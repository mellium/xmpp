(* C19/ProofsC.v — payloads with repeated children (roster.Item,
   blocklist.Item), and crypto.Hash / HashOutput. *)
From Coq Require Import ZArith.
From XV Require Import lib.Bytes lib.Xml lib.Schema C19.Form C19.Types C19.Spec C19.ProofsLib C19.ProofsA.

Arguments set_children : simpl nomatch.
Arguments b64enc : simpl never.
#[local] Arguments opt_attr : simpl never.
#[local] Arguments opt_leaf : simpl never.

Lemma ritem_un_tr o v : jid_canon o (r_jid v) -> ritem_un o (ritem_tr v) = Ok v.
Proof.
  destruct v as [j n s gs]; cbn [r_jid]; intro H.
  (* the repeated children, as a piece for [reads] to find among the hypotheses *)
  epose proof (kids_map (ritem_fields o) (leaf (str "group")) _ (fun l => mkritem _ _ _ l) gs) as G.
  reads. reflexivity.
Qed.

Definition ritem_els := [ln (str "item"); ln (str "group")].
Definition ritem_ats := [ln (str "jid"); ln (str "name"); ln (str "subscription")].

Definition bitem_dom (o : oracles) (v : bitem) : Prop :=
  jid_canon o (b_jid v) /\ Forall (fun i => jid_canon o (s_by i)) (b_ids v).

Definition bitem_empty (v : bitem) : bool := is_nil (b_reason v) && is_nil (b_ids v) && is_nil (b_text v).

(* a report without a reason is written (and read back) as a spam report *)
Definition bitem_norm (v : bitem) : bitem :=
  if bitem_empty v then v
  else mkbitem (b_jid v) (if is_nil (b_reason v) then reason_spam else b_reason v) (b_ids v) (b_text v).

(* the report element is decoded into the item itself; its stanza-ids are the repeated children *)
Lemma bitem_un_tr o v : bitem_dom o v -> bitem_un o (bitem_tr v) = Ok (bitem_norm v).
Proof.
  destruct v as [j r ids text]. intros [Hj Hf]. cbn in Hj, Hf. pose proof (proj1 (Forall_forall _ _) Hf) as Hi.
  unfold bitem_tr, bitem_norm, bitem_empty; cbn [b_jid b_reason b_ids b_text].
  epose proof (kids_map (report_fields o) sid_tr _ (fun l => mkbitem _ _ l _) ids) as G.
  reads. destruct r, ids, text; reflexivity.
Qed.

Definition bitem_els := [ln (str "item"); report_name; sid_name; ln (str "text")].
Definition bitem_ats := [ln (str "jid"); ln (str "reason"); ln (str "id"); ln (str "by")].

Definition hash_known (h : N) : Prop := exists n, hash_name h hash_table = Some n.

Lemma hash_table_inverse :
  forallb (fun p => match hash_parse (snd p) hash_table with Some k => N.eqb k (fst p) | None => false end) hash_table = true.
Proof. vm_compute. reflexivity. Qed.

Lemma hash_name_in h n t : hash_name h t = Some n -> In (h, n) t.
Proof.
  induction t as [|[k m] r IH]; cbn; [discriminate|]. destruct (N.eqb k h) eqn:E.
  - intro H; inversion H; subst. apply N.eqb_eq in E. subst. left; reflexivity.
  - intro H. right. apply IH. exact H.
Qed.

Lemma hash_parse_name h n : hash_name h hash_table = Some n -> hash_parse n hash_table = Some h.
Proof.
  intro H. apply hash_name_in in H.
  pose proof (proj1 (forallb_forall _ _) hash_table_inverse _ H) as K. cbn [fst snd] in K.
  destruct (hash_parse n hash_table) as [k|]; [|discriminate]. apply N.eqb_eq in K. subst. reflexivity.
Qed.

Lemma hash_names_nonempty h n : hash_name h hash_table = Some n -> n <> [].
Proof.
  intro H. apply hash_name_in in H. intro E. subst.
  assert (K : forallb (fun p => negb (is_nil (snd p))) hash_table = true) by (vm_compute; reflexivity).
  pose proof (proj1 (forallb_forall _ _) K _ H) as K'. discriminate.
Qed.

Arguments hash_parse : simpl never.
Arguments hash_name : simpl never.

Definition hash_els := [mkname ns_hashes (str "hash-used"); mkname ns_hashes (str "hash")].

Lemma hash_algo_safe a : safe (hash_algo a).
Proof. unfold hash_algo. destruct (attr_local _ _); [|exact I]. destruct (hash_parse _ _); exact I. Qed.

(* HashOutput: an empty output is written as an empty element, which the
   decoder rejects (pinned by the package's tests): the round trip holds for
   non-empty outputs *)
Definition hashout_dom (o : oracles) (v : hashout) : Prop :=
  hash_known (ho_hash v) /\ ho_out v <> [] /\ o_b64dec o (b64enc (ho_out v)) = Ok (ho_out v).

Lemma b64enc_nil s : b64enc s = [] -> s = [].
Proof. destruct s as [|a [|b [|c r]]]; cbn; intro E; try discriminate; reflexivity. Qed.

(* the element written under the name [n] of the algorithm *)
Definition hashout_el (n : bytes) (v : hashout) : tree :=
  Elem (mkname ns_hashes (str "hash")) [at_ (str "algo") n] [Text (b64enc (ho_out v))].

Lemma hashout_tree_named v n : hash_name (ho_hash v) hash_table = Some n -> hashout_tree v = Ok (hashout_el n v).
Proof. unfold hashout_tree. intros ->. reflexivity. Qed.

Lemma hashout_tree_inv v t : hashout_tree v = Ok t -> exists n, t = hashout_el n v.
Proof. unfold hashout_tree. destruct (hash_name _ _) as [n|]; [|discriminate]. intro E; injection E as <-. exists n; reflexivity. Qed.

Lemma hashout_un_el o v n : hashout_dom o v -> hash_name (ho_hash v) hash_table = Some n -> hashout_un o (hashout_el n v) = Ok v.
Proof.
  destruct v as [h out]. intros [_ [Hne Hb]] Hn. cbn in Hn, Hne, Hb.
  cbn. rewrite (hash_parse_name h n Hn). cbn.
  destruct (b64enc out) eqn:Eb; [exact (False_ind _ (Hne (b64enc_nil out Eb)))|]. cbn. rewrite Hb. reflexivity.
Qed.

(* the decoder wants a character data token first: the passage keeps a non-empty one *)
Lemma hashout_el_wire o v n : ho_out v <> [] -> same_on (hashout_un o) (hashout_el n v).
Proof.
  intros Hne ns t' W. injection W as <-. unfold hashout_el.
  destruct (b64enc (ho_out v)) eqn:Eb; [exact (False_ind _ (Hne (b64enc_nil _ Eb)))|reflexivity].
Qed.

Lemma hashout_un_safe o t : or_safe o -> safe (hashout_un o t).
Proof.
  intro H. destruct t as [n a k|b|k b]; cbn; try exact I.
  apply bind_safe; [apply hash_algo_safe|]. intro h. destruct k as [|[]]; try exact I. auto with c19safe.
Qed.

#[export] Hint Resolve hash_algo_safe hashout_un_safe : c19safe.
