(* C19/ProofsForm5.v — a form as the packages of the library use it: built by
   New, filled by conditional Sets, submitted, decoded at the other end and
   read by Get. The map of values after the Sets ([sets], [first_hit]: Get sees what
   was set last); the decoded submission one field at a time ([sub_norm_fld]: a
   field is there when Get finds a value, and holds the texts written for
   it); Get on a decoded form, which has no map ([get_written]). *)
From XV Require Import lib.Bytes lib.Xml lib.Schema C19.Form C19.Types.

(* entries each of which is there on a condition: the values set by conditional Sets, the fields of a
   submission. A lookup takes the first entry that is hit and whose condition holds; with literal
   names it evaluates, the conditions left standing *)
Fixpoint pick {A} (l : list (bool * A)) : list A :=
  match l with
  | [] => []
  | (c, x) :: r => if c then x :: pick r else pick r
  end.

Fixpoint first_hit {A B} (hit : A -> bool) (ans : A -> B) (l : list (bool * A)) (dflt : B) : B :=
  match l with
  | [] => dflt
  | (c, x) :: r => if hit x && c then ans x else first_hit hit ans r dflt
  end.

(* the map after the Sets of [pick l], the last one first *)
Definition sets (l : list (bool * (bytes * fval))) : list (bytes * fval) :=
  fold_right (fun e => assoc_set (fst e) (snd e)) [] (pick l).

Lemma sets_set jp t i ty F l (c : bool) k v f :
  find_field k F = Some f -> beq (typ f) t_fixed = false -> set_type_ok (typ f) v = true ->
  (if c then mkdata t i ty F (Some (sets l)) else set_ jp (mkdata t i ty F (Some (sets l))) k v) =
  mkdata t i ty F (Some (sets ((negb c, (k, v)) :: l))).
Proof.
  intros Hf Ht Hv. destruct c; [reflexivity|].
  unfold set_, set, set_gen. cbn [fields values]. rewrite Hf, Ht, Hv. reflexivity.
Qed.

Lemma assoc_assoc_set k k' v m : assoc k (assoc_set k' v m) = if beq k k' then Some v else assoc k m.
Proof.
  induction m as [|[k0 v0] r IH]; cbn [assoc_set assoc]; [reflexivity|].
  destruct (beq k' k0) eqn:E0; cbn [assoc].
  - apply bytes_eqb_eq in E0. subst k0. destruct (beq k k'); reflexivity.
  - rewrite IH. destruct (beq k k') eqn:E; [|reflexivity]. apply bytes_eqb_eq in E. subst k'. rewrite E0. reflexivity.
Qed.

Lemma get_sets jp t i ty F l k :
  get jp (Some (mkdata t i ty F (Some (sets l)))) k =
  first_hit (fun e => beq k (fst e)) (fun e => Ok (snd e, true)) l (get jp (Some (mkdata t i ty F (Some []))) k).
Proof.
  induction l as [|[c [k' v]] r IH]; cbn [first_hit fst snd]; [reflexivity|]. rewrite <- IH.
  destruct c; [|rewrite andb_false_r; reflexivity]. rewrite andb_true_r. unfold get, get_gen, sets. cbn [values fields pick fold_right fst snd].
  rewrite assoc_assoc_set. destruct (beq k k'); reflexivity.
Qed.

Lemma find_field_pick k l : find_field k (pick l) = first_hit (fun f => beq (var f) k) Some l None.
Proof.
  induction l as [|[c f] r IH]; cbn [pick first_hit]; [reflexivity|]. rewrite <- IH.
  destruct c; cbn [find_field]; [rewrite andb_true_r|rewrite andb_false_r]; reflexivity.
Qed.

(* a field with type, name and values only *)
Definition fld (t k : bytes) (vs : list bytes) : field := mkfld t k [] [] vs [] false.

(* the values Submit puts into a field for what Get returned *)
Definition written (x0 : list bytes) (v : fval) : list bytes :=
  match v with
  | VStr s | VJid s => [s]
  | VStrs l | VJids l => l
  | VBool b => [fmt_bool b]
  | VNil | VOther => x0
  end.

(* the types for which these are written as they are *)
Definition written_as_is (t : bytes) : bool := negb (is_nil t) && negb (beq t t_fixed) && negb (beq t t_text_multi).

Definition sub_norm jp d fs := bind (emitted_fields jp d fs) (norm_fields jp).

Lemma norm_sub_norm jp d : norm jp d = bind (sub_norm jp d (fields d)) (fun nfs =>
  Ok (mkdata (space_replace (title d)) (join_nl (nonempty_runs (instructions d))) (dtyp d) nfs (Some []))).
Proof. unfold norm, sub_norm. destruct (emitted_fields jp d (fields d)); reflexivity. Qed.

(* one field of a submission: it is present when Get finds a value ([c]),
   with the values [vs] that are written out of those submitted *)
Lemma sub_norm_fld jp ti ins F m t k x0 r (c : bool) v v0 vs nr :
  written_as_is t = true ->
  get jp (Some (mkdata ti ins ty_submit F m)) k = (if c then Ok (v, true) else Ok (v0, false)) ->
  (c = true -> emit_values jp t false (written x0 v) = Ok vs) ->
  sub_norm jp (mkdata ti ins ty_submit F m) r = Ok (pick nr) ->
  sub_norm jp (mkdata ti ins ty_submit F m) (fld t k x0 :: r) = Ok (pick ((c, fld t k vs) :: nr)).
Proof.
  intros Hp Hg Hv. unfold written_as_is in Hp.
  destruct (is_nil t) eqn:Hn, (beq t t_fixed) eqn:Hf, (beq t t_text_multi) eqn:Hm; try discriminate Hp.
  unfold sub_norm. cbn [emitted_fields dtyp]. change (beq ty_submit ty_submit) with true. cbv iota.
  assert (Hs : submit_field jp (mkdata ti ins ty_submit F m) (fld t k x0) =
               Ok (if c then Some (fld t k (written x0 v)) else None)).
  { unfold submit_field. cbn [fld typ var required]. rewrite Hf, Hm, Hg.
    destruct c; [|reflexivity]. destruct v; reflexivity. }
  rewrite Hs. cbn [bind].
  destruct (emitted_fields jp _ r) as [l| | |]; cbn [bind]; try discriminate. intro Hr.
  destruct c; cbn [pick norm_fields]; [|exact Hr].
  cbn [fld typ value]. rewrite (Hv eq_refl), Hr. unfold norm_field, fld. cbn [typ var label desc options required].
  rewrite Hn. destruct (is_list t); reflexivity.
Qed.

Lemma emit_values_one jp t v : negb (is_nil v) = true -> beq t t_boolean = false ->
  (beq t t_jid || beq t t_jid_multi = true -> exists j, jp v = Ok j) -> emit_values jp t false [v] = Ok [v].
Proof.
  intros Hv Hb Hj. apply negb_true_iff in Hv. cbn [emit_values]. rewrite Hv, Hb. cbn [andb].
  destruct (beq t t_jid || beq t t_jid_multi); [destruct (Hj eq_refl) as [j ->]|]; reflexivity.
Qed.

Lemma emit_values_multi jp t first l : is_multi t = true -> beq t t_boolean = false ->
  beq t t_jid || beq t t_jid_multi = false ->
  emit_values jp t first l = Ok (filter (fun v => negb (is_nil v)) l).
Proof.
  intros Hm Hb Hj. revert first. induction l as [|v r IH]; intro first; cbn [emit_values filter]; [reflexivity|].
  rewrite Hm, Hb, Hj, andb_false_r. destruct (is_nil v); cbn [negb andb]; rewrite IH; reflexivity.
Qed.

(* on a decoded form no values are set: Get answers from what is written in the field *)
Lemma get_written jp t i ty F k (c : bool) f v b :
  find_field k F = (if c then Some f else None) -> (c = true -> field_default jp f = Ok (v, b)) ->
  get jp (Some (mkdata t i ty F (Some []))) k = Ok (if c then v else VNil, c && b).
Proof.
  intros H Hf. unfold get, get_gen. cbn [values fields assoc]. rewrite H. destruct c; [exact (Hf eq_refl)|reflexivity].
Qed.

Lemma get_string_written jp t i ty F k (c : bool) x :
  find_field k F = (if c then Some (fld t_text k [x]) else None) ->
  get_string jp (Some (mkdata t i ty F (Some []))) k = Ok (if c then x else [], c).
Proof.
  intro H. unfold get_string. rewrite (get_written _ _ _ _ _ _ _ _ (VStr x) true H) by reflexivity. destruct c; reflexivity.
Qed.

Lemma field_default_jid jp k j : jp j = Ok j -> field_default jp (fld t_jid k [j]) = Ok (VJid j, true).
Proof.
  intro H. unfold field_default, fld. cbn [typ value]. change (beq t_jid t_jid) with true. cbn. rewrite H. reflexivity.
Qed.
