(* C19/ProofsG.v — history.Query: reading a string field of the form never
   panics; the pinned tree dereferenced the nil form of a query without one. *)
From Coq Require Import ZArith.
From XV Require Import lib.Bytes lib.Schema C19.Form C19.Types C19.Spec C19.ProofsLib
  C19.ProofsForm4.

Lemma get_string_safe jp d id : (forall s, safe (jp s)) -> safe (get_string jp d id).
Proof. intro H. unfold get_string. apply bind_safe; [apply get_safe; exact H|]. intros [v ok]. exact I. Qed.

Lemma hquery_pinned_nil_form : get_pinned (fun _ => Err) None (str "with") = Panic.
Proof. reflexivity. Qed.
