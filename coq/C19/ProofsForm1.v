(* C19/ProofsForm1.v — data forms: where line breaks are and are not (the
   separator found by the text-multi loop, the title and the instruction
   lines written); UnmarshalXML returns a value or an error. *)
From Coq Require Import Lia.
From XV Require Import lib.Bytes lib.Xml lib.Schema C19.Form C19.Types C19.Spec C19.ProofsLib.

Lemma index_nl_lt s i : index_nl s = Some i -> i < length s /\ forallb (fun c => negb (is_nl c)) (firstn i s) = true.
Proof.
  revert i. induction s as [|c r IH]; intro i; cbn [index_nl]; [discriminate|].
  destruct (is_nl c) eqn:E.
  - intro H; inversion H; subst. cbn. split; [lia|reflexivity].
  - destruct (index_nl r) as [j|]; cbn [option_map]; [|discriminate].
    intro H; inversion H; subst. destruct (IH j eq_refl) as [H1 H4].
    cbn [length firstn forallb]. rewrite E, H4. split; [lia|reflexivity].
Qed.

Lemma index_nl_none s : index_nl s = None -> forallb (fun c => negb (is_nl c)) s = true.
Proof.
  induction s as [|c r IH]; cbn [index_nl forallb]; [reflexivity|].
  destruct (is_nl c); [discriminate|]. destruct (index_nl r); [discriminate|]. intro. rewrite IH; reflexivity.
Qed.

Definition no_nl (s : bytes) : bool := forallb (fun c => negb (is_nl c)) s.

Lemma space_replace_no_nl s : no_nl (space_replace s) = true.
Proof.
  assert (H : forall n s, length s <= n -> no_nl (space_replace s) = true).
  { induction n as [|n IH]; intros s0 Hn.
    - destruct s0; [reflexivity|cbn in Hn; lia].
    - destruct s0 as [|a r]; [reflexivity|]. cbn [space_replace]. cbn in Hn.
      destruct (is_nl a) eqn:Ea.
      + destruct r as [|b r']; [reflexivity|]. cbn in Hn.
        destruct (is_nl b && negb (byte_eqb a b)); cbn [no_nl forallb]; apply IH; cbn; lia.
      + unfold no_nl. cbn [forallb]. rewrite Ea. cbn. apply IH. lia. }
  apply (H (length s)). lia.
Qed.

Lemma runs_no_nl cur s : no_nl cur = true -> Forall (fun l => no_nl l = true) (runs cur s).
Proof.
  revert cur. induction s as [|c r IH]; intros cur Hc; cbn [runs]; [constructor; [exact Hc|constructor]|].
  destruct (is_nl c) eqn:E.
  - constructor; [exact Hc|]. apply IH. reflexivity.
  - apply IH. unfold no_nl. rewrite forallb_app. cbn. rewrite E. unfold no_nl in Hc. rewrite Hc. reflexivity.
Qed.

Lemma nonempty_runs_spec s :
  Forall (fun l => no_nl l = true /\ l <> []) (nonempty_runs s).
Proof.
  unfold nonempty_runs. pose proof (runs_no_nl [] s eq_refl) as H.
  induction H as [|l r Hl Hr IH]; cbn [filter]; [constructor|].
  destruct l; cbn; [exact IH|]. constructor; [split; [exact Hl|discriminate]|exact IH].
Qed.

Lemma unmarshal_field_safe t : safe (unmarshal_field t).
Proof. unfold unmarshal_field. auto 20 with c19safe. Qed.

Lemma unmarshal_kids_safe kids d : safe (unmarshal_kids kids d).
Proof.
  revert d. induction kids as [|k r IH]; intro d; cbn [unmarshal_kids]; [exact I|].
  destruct k as [n a ks|b|m b]; [|apply IH|exact I].
  destruct (beq (nlocal n) (str "title")); [apply IH|].
  destruct (beq (nlocal n) (str "instructions")); [apply IH|].
  destruct (beq (nlocal n) (str "field")); [|exact I].
  apply bind_safe; [apply unmarshal_field_safe|]. intro f. apply IH.
Qed.

Lemma unmarshal_into_safe d0 t : safe (unmarshal_into d0 t).
Proof. destruct t; cbn; try exact I. apply unmarshal_kids_safe. Qed.

Lemma form_dec_total o t : safe (unmarshal_into zero_data t) /\ safe (c_dec (mkcodec (fun o d => bind (token_reader (o_jid o) d) one) (fun o => unmarshal) data_eqb) o t).
Proof. split; apply unmarshal_into_safe. Qed.
